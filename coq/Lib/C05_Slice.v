(* Go slices over a heap of backing arrays -- just enough to speak about ALIASING of the EVM's ETX cache
   (core/vm: ETXCache = append(ETXCache, etx); ETXCache = ETXCache[:n]) with what was handed out of it
   (core/state_transition.go:TransitionDb: make + copy).
   A heap is a list of backing arrays addressed by position; a slice is (array, length): every slice the
   modelled code forms starts at offset 0, so its capacity is the length of its array.  [sl_append] writes in
   place while there is capacity and otherwise moves to a new, larger array (the amount of extra capacity is
   a parameter: nothing proved here depends on Go's growth policy). *)
From Coq Require Import List PeanoNat Lia.
Import ListNotations.

Fixpoint upd {B} (l : list B) (i : nat) (x : B) : list B :=
  match l, i with
  | [], _ => []
  | _ :: t, O => x :: t
  | y :: t, S i' => y :: upd t i' x
  end.

Lemma upd_length : forall B (l : list B) i x, length (upd l i x) = length l.
Proof. induction l as [|y t IH]; intros [|i] x; simpl; auto. Qed.

Lemma nth_upd_same : forall B (l : list B) i x d, i < length l -> nth i (upd l i x) d = x.
Proof. induction l as [|y t IH]; intros [|i] x d H; simpl in *; try lia; auto. apply IH. lia. Qed.

Lemma nth_upd_other : forall B (l : list B) i j x d, i <> j -> nth j (upd l i x) d = nth j l d.
Proof.
  induction l as [|y t IH]; intros [|i] [|j] x d H; simpl; auto; try lia; try (apply IH; lia).
Qed.

Lemma firstn_S_upd : forall B (l : list B) i x, i < length l -> firstn (S i) (upd l i x) = firstn i l ++ [x].
Proof.
  induction l as [|y t IH]; intros [|i] x H; simpl in *; try lia; auto.
  f_equal. apply IH. lia.
Qed.

Section Slice.
Variable A : Type.
Variable d : A.                 (* the zero value of the element type (a nil pointer) *)
Variable grow : nat -> nat.     (* extra capacity given to a re-allocated array of that length *)

Definition heap := list (list A).
Record slice := mkSl { sl_arr : nat; sl_len : nat }.

Definition arr (h : heap) (a : nat) : list A := nth a h [].
Definition sl_read (h : heap) (s : slice) : list A := firstn (sl_len s) (arr h (sl_arr s)).

(* append(s, x) *)
Definition sl_append (h : heap) (s : slice) (x : A) : heap * slice :=
  let a := arr h (sl_arr s) in
  if sl_len s <? length a
  then (upd h (sl_arr s) (upd a (sl_len s) x), mkSl (sl_arr s) (S (sl_len s)))
  else (h ++ [firstn (sl_len s) a ++ x :: repeat d (grow (sl_len s))], mkSl (length h) (S (sl_len s))).
(* s[:n] *)
Definition sl_reslice (s : slice) (n : nat) : slice := mkSl (sl_arr s) n.
(* t := make([]T, len(s)); copy(t, s) *)
Definition sl_copy (h : heap) (s : slice) : heap * slice := (h ++ [sl_read h s], mkSl (length h) (sl_len s)).
(* make([]T, 0) *)
Definition sl_make (h : heap) : heap * slice := (h ++ [[]], mkSl (length h) 0).

(* what the execution of a transaction does to the cache: append (opETX, opConvert, CreateETX, UnwrapQi,
   ClaimCoinbaseLockup) and re-slice to an earlier length (revertToSnapshot) *)
Inductive cop := CPush (x : A) | CTrunc (n : nat).
Definition cop_list (l : list A) (o : cop) : list A :=
  match o with CPush x => l ++ [x] | CTrunc n => firstn n l end.
Definition cop_h (hs : heap * slice) (o : cop) : heap * slice :=
  match o with
  | CPush x => sl_append (fst hs) (snd hs) x
  | CTrunc n => (fst hs, sl_reslice (snd hs) (Nat.min n (sl_len (snd hs))))
  end.
Definition run_cops_h (h : heap) (s : slice) (ops : list cop) : heap * slice := fold_left cop_h ops (h, s).

Definition sl_ok (h : heap) (s : slice) : Prop :=
  sl_arr s < length h /\ sl_len s <= length (arr h (sl_arr s)).

Definition keeps (h : heap) (a : nat) (h' : heap) : Prop :=
  length h <= length h' /\ forall b, b < length h -> b <> a -> arr h' b = arr h b.

(* (h', s') is reached from (h, s) by operations on the slice s only *)
Definition ext (h : heap) (s : slice) (h' : heap) (s' : slice) : Prop :=
  sl_ok h' s' /\ keeps h (sl_arr s) h' /\ (sl_arr s' = sl_arr s \/ length h <= sl_arr s').

Lemma ext_refl : forall h s, sl_ok h s -> ext h s h s.
Proof. intros h s H. repeat split; try apply H; auto. Qed.

Lemma ext_trans : forall h s h1 s1 h2 s2, ext h s h1 s1 -> ext h1 s1 h2 s2 -> ext h s h2 s2.
Proof.
  intros h s h1 s1 h2 s2 (O1 & [L1 F1] & P1) (O2 & [L2 F2] & P2).
  split; [exact O2|]. split; [split; [lia|]|].
  - intros b Hb Hn. rewrite F2; [apply F1; assumption | lia | ]. destruct P1 as [E|G]; [rewrite E; assumption | lia].
  - destruct P2 as [E|G]; [rewrite E; destruct P1 as [E1|G1]; [left; assumption | right; assumption] | right; lia].
Qed.

Lemma arr_upd_same : forall (h : heap) a v, a < length h -> arr (upd h a v) a = v.
Proof. intros. unfold arr. apply nth_upd_same. assumption. Qed.
Lemma arr_upd_other : forall (h : heap) a b v, a <> b -> arr (upd h a v) b = arr h b.
Proof. intros. unfold arr. apply nth_upd_other. assumption. Qed.
Lemma arr_app_old : forall (h : heap) v b, b < length h -> arr (h ++ [v]) b = arr h b.
Proof. intros. unfold arr. apply app_nth1. assumption. Qed.
Lemma arr_app_new : forall (h : heap) v, arr (h ++ [v]) (length h) = v.
Proof. intros. unfold arr. rewrite app_nth2 by lia. rewrite Nat.sub_diag. reflexivity. Qed.

Lemma append_spec : forall h s x, sl_ok h s ->
  ext h s (fst (sl_append h s x)) (snd (sl_append h s x)) /\
  sl_read (fst (sl_append h s x)) (snd (sl_append h s x)) = sl_read h s ++ [x].
Proof.
  intros h s x [Ha Hl]. unfold sl_append.
  destruct (Nat.ltb_spec (sl_len s) (length (arr h (sl_arr s)))) as [L|L]; cbn [fst snd].
  - split.
    + split; [|split; [split|]].
      * split; cbn [sl_arr sl_len]; [rewrite upd_length; assumption|].
        rewrite arr_upd_same by assumption. rewrite upd_length. lia.
      * rewrite upd_length. lia.
      * intros b _ Hn. apply arr_upd_other. auto.
      * left. reflexivity.
    + unfold sl_read. cbn [sl_arr sl_len]. rewrite arr_upd_same by assumption.
      apply firstn_S_upd. assumption.
  - split.
    + split; [|split; [split|]].
      * split; cbn [sl_arr sl_len]; [rewrite app_length; simpl; lia|].
        rewrite arr_app_new. rewrite app_length, firstn_length. simpl. lia.
      * rewrite app_length. lia.
      * intros b Hb _. apply arr_app_old. assumption.
      * right. cbn [sl_arr]. lia.
    + unfold sl_read. cbn [sl_arr sl_len]. rewrite arr_app_new.
      rewrite firstn_app, firstn_length, Nat.min_l by assumption.
      rewrite firstn_all2 by (rewrite firstn_length; lia).
      replace (S (sl_len s) - sl_len s) with 1 by lia. reflexivity.
Qed.

Lemma reslice_spec : forall h s n, sl_ok h s -> n <= sl_len s ->
  ext h s h (sl_reslice s n) /\ sl_read h (sl_reslice s n) = firstn n (sl_read h s).
Proof.
  intros h s n [Ha Hl] Hn. split.
  - split; [|split; [split|]]; auto. split; cbn [sl_reslice sl_arr sl_len]; [assumption | lia].
  - unfold sl_read, sl_reslice. cbn [sl_arr sl_len]. rewrite firstn_firstn. rewrite Nat.min_l by assumption. reflexivity.
Qed.

Lemma cop_spec : forall h s o, sl_ok h s ->
  ext h s (fst (cop_h (h, s) o)) (snd (cop_h (h, s) o)) /\
  sl_read (fst (cop_h (h, s) o)) (snd (cop_h (h, s) o)) = cop_list (sl_read h s) o.
Proof.
  intros h s [x|n] H; cbn [cop_h cop_list fst snd].
  - apply append_spec. assumption.
  - destruct (reslice_spec h s (Nat.min n (sl_len s)) H (Nat.le_min_r _ _)) as [E R].
    split; [exact E|]. rewrite R. unfold sl_read.
    destruct H as [_ Hl].
    rewrite !firstn_firstn. f_equal. lia.
Qed.

Lemma run_cops_spec : forall ops h s, sl_ok h s ->
  ext h s (fst (run_cops_h h s ops)) (snd (run_cops_h h s ops)) /\
  sl_read (fst (run_cops_h h s ops)) (snd (run_cops_h h s ops)) = fold_left cop_list ops (sl_read h s).
Proof.
  unfold run_cops_h. induction ops as [|o ops IH]; intros h s H; cbn [fold_left].
  - split; [apply ext_refl; assumption | reflexivity].
  - destruct (cop_spec h s o H) as [E R].
    destruct (cop_h (h, s) o) as [h1 s1] eqn:C. cbn [fst snd] in E, R.
    destruct (IH h1 s1 (proj1 E)) as [E2 R2].
    split; [eapply ext_trans; eassumption | rewrite R2, R; reflexivity].
Qed.

Lemma copy_spec : forall h s, sl_ok h s ->
  sl_read (fst (sl_copy h s)) (snd (sl_copy h s)) = sl_read h s /\
  sl_arr (snd (sl_copy h s)) = length h /\ length (fst (sl_copy h s)) = S (length h) /\
  (forall b, b < length h -> arr (fst (sl_copy h s)) b = arr h b).
Proof.
  intros h s [Ha Hl]. unfold sl_copy. cbn [fst snd sl_arr sl_len]. repeat split.
  - unfold sl_read at 1. cbn [sl_arr sl_len]. rewrite arr_app_new. unfold sl_read. rewrite firstn_firstn. f_equal. lia.
  - rewrite app_length. simpl. lia.
  - intros b Hb. apply arr_app_old. assumption.
Qed.

End Slice.

Arguments CPush {A} x.
Arguments CTrunc {A} n.
Arguments sl_read {A} h s.
Arguments arr {A} h a.
Arguments sl_append {A} d grow h s x.
Arguments sl_copy {A} h s.
Arguments sl_make {A} h.
Arguments cop_list {A} l o.
Arguments cop_h {A} d grow hs o.
Arguments run_cops_h {A} d grow h s ops.
Arguments sl_ok {A} h s.
Arguments keeps {A} h a h'.
Arguments ext {A} h s h' s'.
