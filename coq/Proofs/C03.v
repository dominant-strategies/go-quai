(* C03 — lemmas behind Props/C03.v, by the parts (a)-(d) that the head of Model/C03.v lists: signature
   values, sender derivation and its cache, payload injectivity, Qi ownership. *)
From Coq Require Import List NArith ZArith Bool Lia ZifyBool.
From GQ Require Import Lib.C03_TLV Lib.C03_TLVFacts Model.C03.
Import ListNotations.
Local Open Scope Z_scope.

(* facts about the generated constants (re-checked whenever crypto/crypto.go changes) *)
Lemma half_is_half : secp_half_n = secp_n / 2.
Proof. vm_compute. reflexivity. Qed.
Lemma n_odd : secp_n = 2 * secp_half_n + 1.
Proof. vm_compute. reflexivity. Qed.
Lemma half_lt_n : secp_half_n < secp_n.
Proof. pose proof n_odd. assert (0 <= secp_half_n) by apply N2Z.is_nonneg. lia. Qed.

Lemma validate_iff : forall v r s,
  validate_sig_values v r s = true <->
  (1 <= r < secp_n /\ 1 <= s <= secp_half_n /\ (v = 0%N \/ v = 1%N)).
Proof.
  intros v r s. unfold validate_sig_values. pose proof half_lt_n as Hh.
  destruct ((r <? 1) || (s <? 1)) eqn:H1; [lia|].
  destruct (s >? secp_half_n) eqn:H2; lia.
Qed.

(* recoverPlain's V handling: which big.Int V pass the BitLen and byte() steps as 0 or 1 *)
Lemma v_byte_accepts : forall vb,
  bitlen_gt8 vb = false -> (v_byte vb = 0%N \/ v_byte vb = 1%N) ->
  vb = 27 \/ vb = 28 \/ vb = -27 \/ vb = -28.
Proof.
  (* |vb| < 256 and (|vb| - 27) mod 256 in {0, 1}: the quotient is 0, so |vb| is 27 or 28 *)
  intros vb Hb Hv. unfold bitlen_gt8 in Hb. unfold v_byte in Hv.
  Z.div_mod_to_equations. lia.
Qed.

Lemma v_byte_27 : v_byte 27 = 0%N /\ v_byte 28 = 1%N /\ v_byte (-27) = 0%N /\ v_byte (-28) = 1%N.
Proof. vm_compute. repeat split. Qed.

Variant answers {S A : Type} (P : S -> Prop) (a : A) : S * A -> Prop :=
| Answers s : P s -> answers P a (s, a).

Section SenderFacts.
  Variables hash pub addr : Type.
  Variable H : bytes -> hash.
  Variable ecrecover : hash -> Z -> Z -> N -> option pub.
  Variable addr_of_pub : pub -> addr.

  (* in the sections a model function's name stands for it at the section's primitives; [C03.f] is the function itself *)
  Notation recover_plain := (recover_plain hash pub addr ecrecover addr_of_pub).
  Notation signer_sender := (signer_sender hash pub addr H ecrecover addr_of_pub).
  Notation sender_cached := (sender_cached hash pub addr H ecrecover addr_of_pub).
  Notation cstep := (cstep hash pub addr H ecrecover addr_of_pub).
  Notation crun := (crun hash pub addr H ecrecover addr_of_pub).
  Notation crun_state := (crun_state hash pub addr H ecrecover addr_of_pub).
  Notation uncached := (uncached hash pub addr H ecrecover addr_of_pub).

  Variant recover_outcome (h : hash) (r s vb : Z) : res addr -> Prop :=
  | RecRefused : recover_outcome h r s vb RErrSig
  | RecPassed : vb = 27 \/ vb = 28 \/ vb = -27 \/ vb = -28 -> 1 <= r < secp_n -> 1 <= s <= secp_half_n ->
      recover_outcome h r s vb match ecrecover h r s (v_byte vb) with
                               | None => RErrRecover
                               | Some p => ROk (addr_of_pub p)
                               end.

  Lemma recover_plain_outcome : forall h r s vb, recover_outcome h r s vb (recover_plain h r s vb).
  Proof.
    intros h r s vb. unfold C03.recover_plain.
    destruct (bitlen_gt8 vb) eqn:Hb; [constructor|].
    destruct (validate_sig_values (v_byte vb) r s) eqn:Hv; cbn [negb]; [|constructor].
    apply validate_iff in Hv. destruct Hv as (Hr & Hs & Hv).
    constructor; [exact (v_byte_accepts vb Hb Hv)|assumption..].
  Qed.

  Definition cache_inv (t : qtx) (c : cache addr) : Prop :=
    forall cc a, c = Some (cc, a) -> signer_sender cc t = ROk a.

  Lemma cache_inv_none : forall t, cache_inv t None.
  Proof. intros t cc a Hc. discriminate Hc. Qed.

  Lemma sender_cached_spec : forall t c sg, cache_inv t c ->
    answers (cache_inv t) (signer_sender sg t) (sender_cached c sg t).
  Proof.
    intros t c sg Hinv. unfold C03.sender_cached.
    destruct c as [[cc a]|]; [destruct (N.eqb_spec cc sg) as [Heq|_]|].
    1: { subst cc. rewrite (Hinv sg a eq_refl). constructor. exact Hinv. }
    (* no entry for this signer: the fresh answer, filed under sg when it is an address *)
    all: destruct (signer_sender sg t) as [b| | |] eqn:Hs; constructor; try exact Hinv.
    all: intros cc' a' Hc; injection Hc as Hcc Ha; subst cc' a'; exact Hs.
  Qed.

  Lemma cstep_spec : forall t st o, cache_inv t (fst st) ->
    answers (fun st' => cache_inv t (fst st')) (uncached t o) (cstep t st o).
  Proof.
    intros t [c hm] o Hinv. cbn [fst] in Hinv.
    destruct o as [chain loc|]; cbn [C03.cstep C03.uncached fst snd].
    - destruct (sender_cached_spec t c chain Hinv) as [c' Hi]. constructor. exact Hi.
    - destruct hm; [constructor; exact Hinv|].
      destruct (sender_cached_spec t c (q_chain t) Hinv) as [c' Hi]. constructor. exact Hi.
  Qed.

  Lemma crun_simulates : forall t ops c hm, cache_inv t c ->
    crun t (c, hm) ops = map (uncached t) ops /\ cache_inv t (fst (crun_state t (c, hm) ops)).
  Proof.
    intros t ops. induction ops as [|o ops IH]; intros c hm Hinv.
    - split; [reflexivity|exact Hinv].
    - unfold C03.crun_state. cbn [C03.crun map fold_left].
      destruct (cstep_spec t (c, hm) o Hinv) as [[c' hm'] Hi].
      destruct (IH c' hm' Hi) as [Hr Hf]. rewrite Hr. split; [reflexivity|exact Hf].
  Qed.

  (* what a counterexample to binding would hand us *)
  Definition sig_reuse_collision : Prop :=
    exists b1 b2 r s v p1 p2, b1 <> b2
      /\ ecrecover (H b1) r s v = Some p1 /\ ecrecover (H b2) r s v = Some p2
      /\ addr_of_pub p1 = addr_of_pub p2.

  Definition hash_collision : Prop := exists b1 b2, b1 <> b2 /\ H b1 = H b2.
  Definition recover_collision : Prop :=
    exists h1 h2 r s v p1 p2, h1 <> h2 /\ ecrecover h1 r s v = Some p1 /\ ecrecover h2 r s v = Some p2
      /\ addr_of_pub p1 = addr_of_pub p2.
End SenderFacts.

Lemma option_map_inj : forall (A B : Type) (f : A -> B), injective f -> injective (option_map f).
Proof.
  intros A B f Hf [x|] [y|] He; cbn in He; try discriminate; try reflexivity.
  injection He as He. f_equal. apply Hf. exact He.
Qed.

Lemma VBytes_inj : injective VBytes.
Proof. intros a b He. injection He as He. exact He. Qed.
Lemma VInt_inj : injective VInt.
Proof. intros a b He. injection He as He. exact He. Qed.

Lemma repeated_field_inj : forall (A : Type) (t : N) (enc : A -> bytes),
  injective enc -> injective (map (fun x => (t, VBytes (enc x)))).
Proof.
  intros A t enc Henc l1. induction l1 as [|x l1 IH]; intros l2 He; destruct l2 as [|y l2]; cbn [map] in He; try discriminate.
  - reflexivity.
  - injection He as Hx Ht. f_equal; [apply Henc; exact Hx|apply IH; exact Ht].
Qed.

Lemma enc_hash_inj : injective enc_hash.
Proof.
  intros h1 h2 He. unfold enc_hash in He.
  apply encode_msg_inj, opt_bytes_field_inj_nil in He. exact He.
Qed.

Lemma hash_value_inj : injective (fun h => VBytes (enc_hash h)).
Proof. intros a b He. apply enc_hash_inj, VBytes_inj. exact He. Qed.

Lemma enc_tuple_inj : injective enc_tuple.
Proof.
  intros [a1 k1] [a2 k2] He. unfold enc_tuple in He. cbn [fst snd] in He.
  apply encode_msg_inj, opt_bytes_field_inj in He.
  - destruct He as [Ha Hk]. apply (repeated_field_inj _ _ _ enc_hash_inj) in Hk. subst. reflexivity.
  - intros v r Hx. destruct k1; discriminate Hx.
  - intros v r Hx. destruct k2; discriminate Hx.
Qed.

Lemma enc_al_inj : injective enc_al.
Proof.
  intros a b He. unfold enc_al in He.
  apply encode_msg_inj, (repeated_field_inj _ _ _ enc_tuple_inj) in He. exact He.
Qed.

(* whatever follows: after the optional field 2 the next field is always field 3 *)
Lemma signing_msg_app_inj : forall f1 f2 r1 r2,
  signing_msg f1 ++ r1 = signing_msg f2 ++ r2 -> f1 = f2 /\ r1 = r2.
Proof.
  intros f1 f2 r1 r2 He. unfold signing_msg in He. cbn [app] in He.
  injection He as He. rewrite <- !app_assoc in He.
  apply opt_field_inj in He; [|intros v r; discriminate..].
  destruct He as [Hto He]. apply (option_map_inj _ _ _ VBytes_inj) in Hto.
  cbn [app] in He. injection He as Hn Hv Hg Hd Hc Hp Ha Hr.
  apply be_bytes_inj in Hv. apply be_bytes_inj in Hc. apply be_bytes_inj in Hp. apply enc_al_inj in Ha.
  split; [|exact Hr]. destruct f1, f2. cbn in *. subst. reflexivity.
Qed.

Lemma signing_msg_inj : injective signing_msg.
Proof.
  intros f1 f2 He. apply (signing_msg_app_inj f1 f2 [] []). rewrite !app_nil_r. exact He.
Qed.

Lemma enc_outpoint_inj : forall h1 i1 h2 i2, enc_outpoint h1 i1 = enc_outpoint h2 i2 -> h1 = h2 /\ i1 = i2.
Proof.
  intros h1 i1 h2 i2 He. unfold enc_outpoint in He. apply encode_msg_inj in He.
  injection He as Hh Hi. apply enc_hash_inj in Hh. split; assumption.
Qed.

Lemma enc_in_inj : injective enc_in.
Proof.
  intros [[h1 i1] p1] [[h2 i2] p2] He. unfold enc_in in He. cbv beta iota zeta in He.
  apply encode_msg_inj in He.
  (* not by [injection]: it reduces [enc_outpoint h i], which begins with a constant byte, and hands
     back an equation of unfolded bytes *)
  assert (Ho : enc_outpoint h1 i1 = enc_outpoint h2 i2) by congruence.
  assert (Hp : p1 = p2) by congruence.
  apply enc_outpoint_inj in Ho. destruct Ho as [Hh Hi]. subst. reflexivity.
Qed.

Lemma enc_ins_inj : injective enc_ins.
Proof.
  intros a b He. unfold enc_ins in He.
  apply encode_msg_inj, (repeated_field_inj _ _ _ enc_in_inj) in He. exact He.
Qed.

Lemma enc_out_inj : injective enc_out.
Proof.
  intros [[d1 a1] l1] [[d2 a2] l2] He. unfold enc_out in He. cbv beta iota zeta in He.
  apply encode_msg_inj in He.
  injection He as Hd He.
  apply opt_field_inj in He; [|intros v r; discriminate..].
  destruct He as [Ha He]. apply (option_map_inj _ _ _ VBytes_inj) in Ha.
  injection He as Hl. apply be_bytes_inj in Hl. subst. reflexivity.
Qed.

Lemma enc_outs_inj : injective enc_outs.
Proof.
  intros a b He. unfold enc_outs in He.
  apply encode_msg_inj, (repeated_field_inj _ _ _ enc_out_inj) in He. exact He.
Qed.

Lemma qi_signing_msg_inj : injective qi_signing_msg.
Proof.
  intros f1 f2 He. unfold qi_signing_msg in He. injection He as Hd Hc Hi Ho.
  apply be_bytes_inj in Hc. apply enc_ins_inj in Hi. apply enc_outs_inj in Ho.
  destruct f1, f2. cbn in *. subst. reflexivity.
Qed.

Lemma same_fields_or_other_bytes : forall (A : Type) (enc : A -> bytes),
  injective enc -> forall a b, a = b \/ enc a <> enc b.
Proof.
  intros A enc Henc a b.
  destruct (list_eq_dec N.eq_dec (enc a) (enc b)) as [He|Hne]; [left; apply Henc; exact He|right; exact Hne].
Qed.

Section QiFacts.
  Variables hash pub addr sig : Type.
  Variable H : bytes -> hash.
  Variable addr_of_pub : pub -> addr.
  Variable addr_eqb : addr -> addr -> bool.
  Variable in_qi_scope : addr -> bool.
  Variable parse_ok : pub -> bool.
  Variable agg : list pub -> option pub.
  Variable verify : pub -> hash -> sig -> bool.

  Notation own_loop := (own_loop pub addr addr_of_pub addr_eqb in_qi_scope parse_ok).
  Notation qi_authorised := (qi_authorised hash pub addr sig H addr_of_pub addr_eqb in_qi_scope parse_ok agg verify).
  Notation qi_sig_ok := (qi_sig_ok hash pub sig H parse_ok agg verify).
  Notation final_key := (final_key pub agg).

  Definition owned (cs : bool) (i : pub * option addr) : Prop :=
    exists ea, snd i = Some ea /\ addr_eqb (addr_of_pub (fst i)) ea = true
               /\ in_qi_scope (addr_of_pub (fst i)) = true /\ (cs = true -> parse_ok (fst i) = true).

  Lemma own_loop_cons : forall cs i rest,
    own_loop cs (i :: rest) = QOk <-> owned cs i /\ own_loop cs rest = QOk.
  Proof.
    intros cs [pk e] rest. cbn [C03.own_loop]. unfold owned. cbn [fst snd]. split.
    - intros Hl. destruct e as [ea|]; [|discriminate].
      destruct (in_qi_scope (addr_of_pub pk)) eqn:Hsc; cbn [negb] in Hl; [|discriminate].
      destruct (addr_eqb (addr_of_pub pk) ea) eqn:Heq; cbn [negb] in Hl; [|discriminate].
      destruct (cs && negb (parse_ok pk)) eqn:Hp; [discriminate|].
      split; [|exact Hl]. exists ea. repeat split; try assumption.
      intros Hcs. subst cs. cbn in Hp. destruct (parse_ok pk); [reflexivity|discriminate].
    - intros [(ea & He & Heq & Hsc & Hp) Hr]. subst e. rewrite Hsc, Heq. cbn [negb].
      destruct cs; cbn [andb]; [rewrite (Hp eq_refl); cbn [negb]|]; exact Hr.
  Qed.

  Lemma own_loop_iff : forall cs ins, own_loop cs ins = QOk <-> Forall (owned cs) ins.
  Proof.
    intros cs ins. induction ins as [|i rest IH].
    - split; [constructor|reflexivity].
    - rewrite own_loop_cons, Forall_cons_iff, IH. reflexivity.
  Qed.

  Lemma own_loop_not_owner : forall cs ins, ~ Forall (owned cs) ins -> own_loop cs ins <> QOk.
  Proof. intros cs ins Hn Hl. apply Hn, own_loop_iff, Hl. Qed.

  (* the signature test as qi_sig_ok writes it (a boolean) and as qi_authorised writes it (a verdict) *)
  Lemma sig_bool_ok : forall keys h sg,
    match final_key keys with None => false | Some k => verify k h sg end = true
    <-> exists k, final_key keys = Some k /\ verify k h sg = true.
  Proof.
    intros keys h sg. destruct (final_key keys) as [k|]; split.
    - intros Hv. exists k. split; [reflexivity|exact Hv].
    - intros (k' & Hk & Hv). injection Hk as Hk. subst k'. exact Hv.
    - discriminate.
    - intros (k' & Hk & _). discriminate Hk.
  Qed.

  Lemma sig_test_ok : forall keys h sg,
    match final_key keys with
    | None => QSig
    | Some k => if verify k h sg then QOk else QSig
    end = QOk <-> exists k, final_key keys = Some k /\ verify k h sg = true.
  Proof.
    intros keys h sg. rewrite <- sig_bool_ok.
    destruct (final_key keys) as [k|]; [destruct (verify k h sg)|]; split; reflexivity || discriminate.
  Qed.

  Lemma sig_ok_iff : forall f keys sg,
    qi_sig_ok f keys sg = true <->
    forallb parse_ok keys = true
    /\ exists k, final_key keys = Some k /\ verify k (H (qi_signing_bytes f)) sg = true.
  Proof. intros f keys sg. unfold C03.qi_sig_ok. rewrite andb_true_iff, sig_bool_ok. reflexivity. Qed.

  Lemma authorised_iff : forall chain cs f ins sg,
    qi_authorised chain cs f ins sg = QOk <->
    (ins <> [] /\ qi_chain f = chain /\ Forall (owned cs) ins
     /\ (cs = true -> exists k, final_key (map fst ins) = Some k
                               /\ verify k (H (qi_signing_bytes f)) sg = true)).
  Proof.
    intros chain cs f ins sg. unfold C03.qi_authorised.
    destruct ins as [|i0 rest]; [split; [discriminate|intros [Hne _]; contradiction]|].
    destruct (N.eqb_spec (qi_chain f) chain) as [Hc|Hc]; cbn [negb]; [|split; [discriminate|intros (_ & Hc' & _); contradiction]].
    split.
    - (* the loop's verdict is handed on unless it is QOk *)
      intros Ha. destruct (own_loop cs (i0 :: rest)) eqn:Hl; try discriminate Ha.
      split; [discriminate|]. split; [exact Hc|]. split; [apply own_loop_iff; exact Hl|].
      intros Hcs. subst cs. apply sig_test_ok. exact Ha.
    - intros (_ & _ & Hf & Hs). apply own_loop_iff in Hf. rewrite Hf.
      destruct cs; [|reflexivity]. apply sig_test_ok, Hs. reflexivity.
  Qed.

  Lemma owned_checked : forall i, owned true i <-> owned false i /\ parse_ok (fst i) = true.
  Proof.
    intros i. unfold owned. split.
    - intros (ea & He & Heq & Hsc & Hp). split; [|apply Hp; reflexivity].
      exists ea. repeat split; try assumption. discriminate.
    - intros [(ea & He & Heq & Hsc & _) Hp]. exists ea. repeat split; try assumption.
      intros _. exact Hp.
  Qed.

  Lemma all_owned_checked : forall ins,
    Forall (owned true) ins <-> Forall (owned false) ins /\ forallb parse_ok (map fst ins) = true.
  Proof.
    induction ins as [|i rest IH]; cbn [map forallb].
    - split; [intros _; split; [constructor|reflexivity]|intros _; constructor].
    - rewrite !Forall_cons_iff, IH, owned_checked, andb_true_iff.
      split; [intros [[Ho Hp] [Hf Hr]]|intros [[Ho Hf] [Hp Hr]]]; repeat split; assumption.
  Qed.

  Lemma authorised_split : forall chain f ins sg,
    qi_authorised chain true f ins sg = QOk <->
    (qi_authorised chain false f ins sg = QOk /\ qi_sig_ok f (map fst ins) sg = true).
  Proof.
    intros chain f ins sg. rewrite sig_ok_iff. split.
    - intros Ha. apply authorised_iff in Ha. destruct Ha as (Hne & Hc & Hf & Hs).
      apply all_owned_checked in Hf. destruct Hf as [Hf Hp].
      split; [|split; [exact Hp|apply Hs; reflexivity]].
      apply authorised_iff. repeat split; try assumption. discriminate.
    - intros [Ha [Hp Hs]]. apply authorised_iff in Ha. destruct Ha as (Hne & Hc & Hf & _).
      apply authorised_iff. repeat split; try assumption.
      + apply all_owned_checked. split; assumption.
      + intros _. exact Hs.
  Qed.

  Variable outpoint : Type.

  Definition spent_by_owner (utxo : outpoint -> option addr) (cs : bool) (i : outpoint * pub) : Prop :=
    exists ea, utxo (fst i) = Some ea /\ addr_eqb (addr_of_pub (snd i)) ea = true
               /\ in_qi_scope (addr_of_pub (snd i)) = true /\ (cs = true -> parse_ok (snd i) = true).

  Lemma lookup_owned : forall utxo cs oins,
    Forall (owned cs) (qi_lookup pub addr outpoint utxo oins) <-> Forall (spent_by_owner utxo cs) oins.
  Proof.
    (* [owned] of a looked-up input unfolds to [spent_by_owner] of the input *)
    intros utxo cs oins. unfold C03.qi_lookup. rewrite Forall_map. reflexivity.
  Qed.

  Lemma lookup_keys : forall utxo (oins : list (outpoint * pub)),
    map fst (qi_lookup pub addr outpoint utxo oins) = map snd oins.
  Proof. intros. unfold C03.qi_lookup. rewrite map_map. reflexivity. Qed.

  Lemma lookup_nil : forall utxo (oins : list (outpoint * pub)),
    qi_lookup pub addr outpoint utxo oins = [] <-> oins = [].
  Proof. intros utxo oins. destruct oins; split; reflexivity || discriminate. Qed.

  Definition schnorr_reuse : Prop :=
    exists b1 b2 k sg, b1 <> b2 /\ verify k (H b1) sg = true /\ verify k (H b2) sg = true.
End QiFacts.

(* ---- NOT the code: the weaker loop that tests ownership once per DISTINCT carried key (the
   "already checked this key" shortcut).  Kept only to state that it is not equivalent: it accepts
   a spend whose second input consumes somebody else's entry. ---- *)
Section QiDedup.
  Variables pub addr : Type.
  Variable addr_of_pub : pub -> addr.
  Variable addr_eqb : addr -> addr -> bool.
  Variable in_qi_scope : addr -> bool.
  Variable parse_ok : pub -> bool.
  Variable pub_eqb : pub -> pub -> bool.

  Fixpoint own_loop_per_key (check_sig : bool) (seen : list pub) (ins : list (pub * option addr))
    : qverdict :=
    match ins with
    | [] => QOk
    | (pk, e) :: rest =>
        match e with
        | None => QMissing
        | Some ea =>
            if existsb (pub_eqb pk) seen then
              if check_sig && negb (parse_ok pk) then QParse
              else own_loop_per_key check_sig seen rest
            else
              let a := addr_of_pub pk in
              if negb (in_qi_scope a) then QScope
              else if negb (addr_eqb a ea) then QOwner
              else if check_sig && negb (parse_ok pk) then QParse
              else own_loop_per_key check_sig (pk :: seen) rest
        end
    end.
End QiDedup.
