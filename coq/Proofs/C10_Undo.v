(* C10 — what the record writers of Model/C10_Undo.v do to the first image of a key ([dedup_first]
   keeps it, [map_vals f] applies [f] to it), which is all the rollback reads of a record
   (Proofs/C10.v, [undone]); witnesses for Props/C10.v: a double top-up, a lossy encoder. *)
From Coq Require Import List NArith.
From GQ Require Import Lib.Key Lib.SMap Model.C10 Model.C10_Undo Proofs.C10.
Import ListNotations.
Local Open Scope N_scope.

Lemma first_rec_dedup_first_acc {L} k (l : list (key * L)) : forall acc,
  first_rec k (fold_left dedup_first_step l acc)
  = match first_rec k acc with Some v => Some v | None => first_rec k l end.
Proof.
  induction l as [|[k' v'] l IH]; intros acc; cbn [fold_left].
  - destruct (first_rec k acc); reflexivity.
  - rewrite IH. unfold dedup_first_step; cbn [fst snd].
    destruct (kmem k' (map fst acc)) eqn:M.
    + destruct (first_rec k acc) eqn:F; [reflexivity|].
      cbn [first_rec]. destruct (keqb k k') eqn:E; [|reflexivity].
      apply keqb_eq in E; subst k'. apply kmem_In in M. apply first_rec_None in F. contradiction.
    + rewrite first_rec_app. destruct (first_rec k acc); [reflexivity|].
      cbn [first_rec]. destruct (keqb k k'); reflexivity.
Qed.

Lemma first_rec_dedup_first {L} k (l : list (key * L)) : first_rec k (dedup_first l) = first_rec k l.
Proof. exact (first_rec_dedup_first_acc k l []). Qed.

Lemma first_rec_map_vals f k (l : list (key * val)) :
  first_rec k (map_vals f l) = option_map f (first_rec k l).
Proof. induction l as [|[k' v] l IH]; cbn; [reflexivity|]. destruct (keqb k k'); [reflexivity|exact IH]. Qed.

Lemma get_utxo_rollback_map_spent {L} (d : db L) (e : effect L) f k :
  sorted (utxo d) -> In k (map fst (e_spent e ++ e_trimmed e)) ->
  get k (utxo (rollback d (map_spent f e))) = option_map f (get k (utxo (rollback d e))).
Proof.
  intros S Hin. rewrite !get_utxo_rollback by exact S. unfold undone.
  change (created_keys (map_spent f e)) with (created_keys e).
  destruct (kmem k (created_keys e)); [reflexivity|].
  cbn [map_spent with_spent e_spent e_trimmed]. unfold map_vals. rewrite <- map_app, <- map_rev.
  fold (map_vals f (rev (e_spent e ++ e_trimmed e))). rewrite first_rec_map_vals.
  destruct (first_rec k (rev (e_spent e ++ e_trimmed e))) eqn:F; [reflexivity|].
  apply first_rec_rev_None in F. contradiction.
Qed.

(* a block that tops up ONE existing tranche twice (150 -> 157 -> 166): the undo record holds the
   image before the first and before the second top-up, in this order *)
Definition dd_key : key := [99;108;1].
Definition dd_db : db val := mkDb [] [(dd_key, [150;2])] [([4], [44])] [44].
Definition dd_eff : effect val :=
  mkEff 5 [55] [44] [] [] [] [] [(dd_key, Some [157;3]); (dd_key, Some [166;4])] []
        [(dd_key, [150;2]); (dd_key, [157;3])].

Lemma dd_wf : db_ok dd_db /\ wf_effect dd_db dd_eff.
Proof. apply wf_checked; reflexivity. Qed.

(* a block spending an output whose stored image ends with a lock height (last byte), and an encoder
   that forgets it *)
Definition drop_lock (v : val) : val := removelast v.
Definition lo_db : db val := mkDb [([1], [12;7;2]); ([2], [8;7])] [] [([4], [44])] [44].
Definition lo_eff : effect val :=
  mkEff 5 [55] [44] [([6], [11;9])] [[6]] [([1], [12;7;2])] [] [] [] [].

Lemma lo_wf : db_ok lo_db /\ wf_effect lo_db lo_eff.
Proof. apply wf_checked; reflexivity. Qed.
