(* C15 — lemmas about the RETURNDATACOPY bounds check of Lib/C15_Window.v, and the check on a generated
   table that the charge phase stands in front of that instruction *)
From Coq Require Import List NArith Bool String Lia.
From GQ Require Import Lib.C15_Row Lib.C15_Window.
Local Open Scope N_scope.

Lemma W64_pos : 0 < W64.
Proof. reflexivity. Qed.

Lemma sum_small : forall off len, off < W64 -> len < W64 -> (off + len) mod W256 = off + len.
Proof.
  intros off len Ho Hl. apply N.mod_small.
  assert (2 * W64 <= W256) by discriminate. lia.
Qed.

Lemma rdc_window_spec : forall off len ret,
  len < W64 ->
  rdc_window off len ret =
  if (off + len <? W64) && (off + len <=? ret) then Some (off, off + len) else None.
Proof.
  intros off len ret Hl. unfold rdc_window.
  destruct (N.leb_spec W64 off) as [E1|E1].
  - rewrite (proj2 (N.ltb_ge (off + len) W64)) by lia. reflexivity.
  - rewrite (sum_small off len E1 Hl). cbv zeta.
    rewrite (N.ltb_antisym W64 (off + len)), (N.leb_antisym ret (off + len)).
    destruct (W64 <=? off + len); [reflexivity|].
    destruct (ret <? off + len); reflexivity.
Qed.

Lemma rdc_window_refusal_lemma : forall off len ret,
  len < W64 -> ret < W64 -> rdc_window off len ret = None -> ret < off + len.
Proof.
  intros off len ret Hl Hr H. rewrite (rdc_window_spec off len ret Hl) in H.
  destruct (N.ltb_spec (off + len) W64) as [_|E]; [|lia].
  destruct (N.leb_spec (off + len) ret) as [|E]; [discriminate|exact E].
Qed.

(* the row has a memorySize and a dynamicGas function: Model/C15.v [step] computes its size and its charge, and
   refuses a length that is not a uint64, before the body runs *)
Definition is_rdc (r : row) : bool := String.eqb (r_name r) "RETURNDATACOPY".
Definition rdc_rows_guarded (T : table) : bool :=
  existsb is_rdc T && forallb (fun r => implb (is_rdc r) (r_has_mem r && r_has_dyn r)) T.
