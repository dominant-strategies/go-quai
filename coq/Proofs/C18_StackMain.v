(* C18 -- DeriveSha's key sequence fed to the StackTrie. *)
From Coq Require Import List NArith Lia.
From GQ Require Import Model.C18 Proofs.C18_Derive Proofs.C18_Stack.
Import ListNotations.
Local Open Scope N_scope.

(* DeriveSha: the (key, item) list it feeds its hasher *)
Definition derive_list (item : N -> list N) (n : N) : list (list N * list N) :=
  map (fun i => (rlp_uint i, item i)) (derive_order n).

Lemma derive_stack (item : N -> list N) n :
  n <= 256 ^ 8 -> (forall i, i < n -> item i <> []) ->
  exists s, st_run SE (derive_list item n) = Some s /\
            run Nil (derive_list item n) = Some (to_node s).
Proof.
  intros Hn Hitem. apply stack_equals_trie.
  - apply Forall_forall. intros kv Hin. apply in_map_iff in Hin as (i & <- & Hi).
    apply derive_order_in in Hi. split; [apply rlp_uint_wf; lia|apply Hitem, Hi].
  - unfold derive_list. rewrite map_map. exact (derive_keys_diverge n Hn).
Qed.
