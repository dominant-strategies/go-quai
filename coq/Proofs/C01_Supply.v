(* C01 -- block- and chain-level supply accounting of the Qi ledger (the statement's last clause:
   "Qi supply changes only through coinbase, conversion and trimming events"): the value held by the
   'ut' records after any block / any chain of blocks processed by ProcessQiTx is the value before,
   minus everything that left (fees, ETXs to other chains, conversions, wrappings), minus whatever a
   CreateUTXO overwrote -- never more.  Stated over the strict runs of Proofs/C01_Ledger.v. *)
From Coq Require Import List NArith Lia.
From GQ Require Import Lib.Key Lib.SMap Generated.C01Params Model.C01
     Proofs.C01_Steps Proofs.C01_Ledger Proofs.C01_Den Proofs.C01.
Import ListNotations.
Local Open Scope N_scope.

Definition uval (u : utxo) : N := den_value (u_den u).
Definition oval (o : option utxo) : N := match o with Some u => uval u | None => 0 end.

Lemma value_of_cons k u (l : list (key * utxo)) : value_of ((k, u) :: l) = uval u + value_of l.
Proof. unfold value_of, uval. cbn [map snd]. apply sum_den_cons. Qed.

(* no sortedness needed: get, put and del walk the list with the same comparisons *)
Lemma value_del_put (l : ledger) k u :
  value_of (del k l) + oval (get k l) = value_of l
  /\ value_of (put k u l) + oval (get k l) = value_of l + uval u.
Proof.
  induction l as [|[k' u'] l IH]; cbn [del put get oval].
  - rewrite value_of_cons. change (value_of []) with 0. lia.
  - destruct (kcmp k k'); cbn [oval]; rewrite !value_of_cons; lia.
Qed.

Fixpoint ev_consumed (evs : list event) : N :=
  match evs with
  | [] => 0
  | Consume _ u :: r => uval u + ev_consumed r
  | Create _ _ :: r => ev_consumed r
  end.
Fixpoint ev_created (evs : list event) : N :=
  match evs with
  | [] => 0
  | Consume _ _ :: r => ev_created r
  | Create _ u :: r => uval u + ev_created r
  end.
(* the value destroyed by creations over a live record: rawdb.CreateUTXO overwrites silently *)
Fixpoint overwritten (l : ledger) (evs : list event) : N :=
  match evs with
  | [] => 0
  | Consume k _ :: r => overwritten (del k l) r
  | Create k u :: r => oval (get k l) + overwritten (put k u l) r
  end.

Lemma ev_consumed_app a b : ev_consumed (a ++ b) = ev_consumed a + ev_consumed b.
Proof. induction a as [|[k u|k u] a IH]; cbn [app ev_consumed]; lia. Qed.
Lemma ev_created_app a b : ev_created (a ++ b) = ev_created a + ev_created b.
Proof. induction a as [|[k u|k u] a IH]; cbn [app ev_created]; lia. Qed.

Lemma ev_consumed_consumes sp : ev_consumed (consumes sp) = value_of sp.
Proof. induction sp as [|[k u] sp IH]; cbn [consumes map ev_consumed fst snd]; [reflexivity|]. fold (consumes sp). rewrite IH, value_of_cons. reflexivity. Qed.
Lemma ev_created_consumes sp : ev_created (consumes sp) = 0.
Proof. induction sp as [|[k u] sp IH]; cbn [consumes map ev_created fst snd]; [reflexivity|]. exact IH. Qed.
Lemma ev_consumed_creates cs : ev_consumed (creates cs) = 0.
Proof. induction cs as [|[k u] cs IH]; cbn [creates map ev_consumed fst snd]; [reflexivity|]. exact IH. Qed.
Lemma ev_created_creates cs : ev_created (creates cs) = value_of cs.
Proof. induction cs as [|[k u] cs IH]; cbn [creates map ev_created fst snd]; [reflexivity|]. fold (creates cs). rewrite IH, value_of_cons. reflexivity. Qed.

Lemma tx_events_consumed r : ev_consumed (tx_events r) = value_of (r_spent r).
Proof. unfold tx_events. rewrite ev_consumed_app, ev_consumed_consumes, ev_consumed_creates. lia. Qed.
Lemma tx_events_created r : ev_created (tx_events r) = value_of (r_created r).
Proof. unfold tx_events. rewrite ev_created_app, ev_created_consumes, ev_created_creates. lia. Qed.

Lemma strict_balance l evs l' : strict l evs l' ->
  value_of l' + ev_consumed evs + overwritten l evs = value_of l + ev_created evs.
Proof.
  induction 1 as [l|l k u r l' Hg Hs IH|l k u r l' Hs IH]; cbn [ev_consumed ev_created overwritten].
  - lia.
  - pose proof (proj1 (value_del_put l k u)) as Hd. rewrite Hg in Hd. cbn [oval] in Hd. lia.
  - pose proof (proj2 (value_del_put l k u)) as Hp. lia.
Qed.

Lemma strict_no_inflation l evs l' : strict l evs l' ->
  value_of l' + ev_consumed evs <= value_of l + ev_created evs.
Proof. intros H. pose proof (strict_balance _ _ _ H). lia. Qed.

(* what leaves the zone's Qi ledger: the fee through the coinbase, the ETXs to other chains, conversion or wrapping *)
Definition tx_outflow (r : txres) : N := etxs_value (r_etxs r) + r_fee r.
Definition block_outflow (rs : list txres) : N := fold_right (fun r acc => tx_outflow r + acc) 0 rs.
Definition block_dbl (c : ctx) (txs : list tx) : N := fold_right (fun t acc => double_entry c t + acc) 0 txs.

Lemma block_events_sums c txs rs : Forall2 (tx_facts c) txs rs ->
  ev_consumed (block_events rs) + block_dbl c txs = ev_created (block_events rs) + block_outflow rs.
Proof.
  induction 1 as [|t r txs rs Hc%tf_balance _ IH]; unfold block_events in *; cbn [map concat block_dbl block_outflow fold_right].
  - reflexivity.
  - fold (block_dbl c txs). fold (block_outflow rs).
    rewrite ev_consumed_app, ev_created_app, tx_events_consumed, tx_events_created. unfold tx_outflow. lia.
Qed.

Lemma block_dbl_after_fork c txs : qi_wrapping_change_block <= c_ptn c -> block_dbl c txs = 0.
Proof. intros H. apply sum_zero. intros t. exact (double_entry_after_fork c t H). Qed.

Lemma block_supply (l : ledger) c txs rs l' : sorted l -> run_block true l c txs = (rs, true, l') ->
  value_of l' + block_outflow rs + overwritten l (block_events rs) = value_of l + block_dbl c txs.
Proof.
  intros S H. pose proof (strict_balance _ _ _ (run_block_strict _ _ _ _ _ _ S H)) as Hb. cbn [outcome_events] in Hb.
  pose proof (block_events_sums _ _ _ (run_block_facts _ _ _ _ _ _ H)) as Hs. lia.
Qed.

Lemma block_supply_le (l : ledger) c txs rs ok l' : sorted l -> run_block true l c txs = (rs, ok, l') ->
  value_of l' + (if ok then block_outflow rs else 0) <= value_of l + (if ok then block_dbl c txs else 0).
Proof.
  intros S H. destruct ok.
  - pose proof (block_supply _ _ _ _ _ S H). lia.
  - apply run_block_rejected in H. subst. lia.
Qed.

(* from the wrapping fork on a block changes the ledger value only downwards, by what it sends away *)
Lemma block_no_inflation (l : ledger) c txs rs ok l' : sorted l -> run_block true l c txs = (rs, ok, l') ->
  qi_wrapping_change_block <= c_ptn c ->
  value_of l' + (if ok then block_outflow rs else 0) <= value_of l.
Proof.
  intros S H Hf. pose proof (block_supply_le _ _ _ _ _ _ S H) as Hb.
  rewrite block_dbl_after_fork in Hb by exact Hf. destruct ok; lia.
Qed.

Definition outcome_outflow (o : outcome) : N := let '(rs, ok, _) := o in if ok then block_outflow rs else 0.
Definition chain_outflow (os : list outcome) : N := fold_right (fun o acc => outcome_outflow o + acc) 0 os.
Fixpoint chain_dbl (blocks : list (ctx * list tx)) (os : list outcome) : N :=
  match blocks, os with
  | (c, txs) :: br, (_, ok, _) :: or => (if ok then block_dbl c txs else 0) + chain_dbl br or
  | _, _ => 0
  end.

Lemma chain_supply blocks : forall l : ledger, sorted l ->
  value_of (final_ledger l (run_chain true l blocks)) + chain_outflow (run_chain true l blocks)
  <= value_of l + chain_dbl blocks (run_chain true l blocks).
Proof.
  induction blocks as [|[c txs] br IH]; intros l S; cbn [run_chain].
  - cbn [final_ledger chain_outflow fold_right chain_dbl]. lia.
  - destruct (run_block true l c txs) as [[rs ok] l'] eqn:E.
    cbn [final_ledger snd chain_outflow fold_right chain_dbl outcome_outflow].
    fold (chain_outflow (run_chain true l' br)).
    pose proof (run_block_sorted _ _ _ _ _ _ S E) as S'.
    specialize (IH l' S').
    pose proof (block_supply_le _ _ _ _ _ _ S E) as Hb.
    lia.
Qed.

Lemma chain_dbl_after_fork blocks : forall os,
  Forall (fun b => qi_wrapping_change_block <= c_ptn (fst b)) blocks -> chain_dbl blocks os = 0.
Proof.
  induction blocks as [|[c txs] br IH]; intros os H; [reflexivity|].
  destruct os as [|[[rs ok] l'] or]; [reflexivity|]. cbn [chain_dbl].
  inversion H as [|? ? Hc Hr]; subst. cbn [fst] in Hc. rewrite IH by exact Hr.
  rewrite block_dbl_after_fork by exact Hc. destruct ok; reflexivity.
Qed.
