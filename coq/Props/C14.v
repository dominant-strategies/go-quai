(* C14 — Encode/decode round trips preserve objects, bytes and identity.
   Property theorems, each followed by [Print Assumptions], and non-vacuity examples.
   Model: Model/C14.v, Lib/C14_{Varint,BigEndian,ProtoWire,RLP}.v
   Lemmas: Proofs/C14*.v, Lib/C14_ProtoWireFacts.v, Lib/C14_ProtoWireNF.v.  Schemas: Generated/C14Schemas.v.
   Ownership inventories: Lib/C14_Sites.v, Generated/C14Sites.v. *)
From Coq Require Import List Arith NArith Lia Bool.
From GQ Require Import Lib.Key Lib.C14_Varint Lib.C14_BigEndian Lib.C14_ProtoWire Lib.C14_ProtoWireFacts
  Lib.C14_ProtoWireNF Lib.C14_RLP Generated.C14Schemas Model.C14 Proofs.C14
  Lib.C14_Sites Generated.C14Sites Proofs.C14_Tx Proofs.C14_Tx2 Proofs.C14_Tx3.
Import ListNotations.
Local Open Scope N_scope.

(* ---- obligations on the generated schemas (a .proto edit re-checks these) ---- *)

(* every message of the four .proto files is inside the modelled fragment (uint32, uint64, bytes,
   message; optional / implicit / repeated; oneofs), field numbers are unique, positive, increasing in
   marshal order and below 2^29, nested references resolve *)
Theorem schemas_wf : schema_ok sc = true.
Proof. exact sc_ok. Qed.
Print Assumptions schemas_wf.

(* determinism: the only message with a map field (whose wire order Go does not fix) is
   ProtoTrimDepths, and no other message embeds it *)
Theorem schemas_no_maps :
  outside_fragment schemas = [id_block_ProtoTrimDepths] /\ refs_covered schemas = true.
Proof.
  split; [|vm_compute; reflexivity].
  (* through the list the generator itself emitted *)
  transitivity messages_outside_fragment; vm_compute; reflexivity.
Qed.
Print Assumptions schemas_no_maps.

(* ---- ownership: obligations on the inventories generated from the source (Generated/C14Sites.v).
   The codec theorems below are about values; "the bytes obtained for A stay A's bytes" and "a decoded
   object is not changed by what happens to another decoded object" are about memory, and are checked
   dynamically by the retain / alias monitors of the harness and statically here. ---- *)

(* every function of core/types, core/rawdb, common, p2p/pb, rlp that takes a scratch value out of a
   sync.Pool keeps its bytes inside: none returns v.Bytes() of the pooled value (the encoding a caller
   holds is never recycled under it) *)
Theorem pooled_scratch_bytes_never_returned :
  forall s, In s C14Sites.pool_sites -> pool_escapes s = false.
Proof.
  assert (H : no_pooled_bytes_escape C14Sites.pool_sites = true) by (vm_compute; reflexivity).
  unfold no_pooled_bytes_escape in H. rewrite forallb_forall in H.
  intros s Hin. apply negb_true_iff. exact (H s Hin).
Qed.
Print Assumptions pooled_scratch_bytes_never_returned.

(* full statement: no struct field is ever assigned a package-level *big.Int.
   Refuted on the current tree (finding alias/shared-between-decodes/QuaiTx.Value->common.Big0). *)
Theorem decoded_fields_never_share_globals_refuted :
  exists s, In s C14Sites.shared_stores /\ store_type s = ty_QuaiTx /\ store_field s = fd_Value.
Proof. eexists. split; [left; reflexivity|split; reflexivity]. Qed.
Print Assumptions decoded_fields_never_share_globals_refuted.

(* ... and that one is the only one *)
Theorem shared_stores_reviewed_partial : stores_eqb C14Sites.shared_stores reviewed_stores = true.
Proof. vm_compute. reflexivity. Qed.
Print Assumptions shared_stores_reviewed_partial.

(* the methods that update a *big.Int field of their receiver in place are the reviewed ones *)
Theorem inplace_writers_reviewed : writers_eqb C14Sites.inplace_writers reviewed_writers = true.
Proof. vm_compute. reflexivity. Qed.
Print Assumptions inplace_writers_reviewed.

(* what keeps the shared store latent: no (type, field) is both handed a package-level integer and
   written in place *)
Theorem no_shared_integer_is_written_in_place :
  forall s w, In s C14Sites.shared_stores -> In w C14Sites.inplace_writers -> conflicts s w = false.
Proof.
  assert (H : live_shared C14Sites.shared_stores C14Sites.inplace_writers = []) by (vm_compute; reflexivity).
  intros s w Hs Hw. destruct (conflicts s w) eqn:E; [|reflexivity].
  assert (Hin : In s (live_shared C14Sites.shared_stores C14Sites.inplace_writers)).
  { apply filter_In. split; [exact Hs|]. apply existsb_exists. exists w. split; assumption. }
  rewrite H in Hin. destruct Hin.
Qed.
Print Assumptions no_shared_integer_is_written_in_place.

(* ---- varint ---- *)
Theorem varint_roundtrip : forall n r, n < u64 -> C14_Varint.decode (C14_Varint.encode n ++ r) = Some (n, r).
Proof. exact C14_Varint.decode_encode. Qed.
Print Assumptions varint_roundtrip.

Theorem varint_injective : forall n n' r r', n < u64 -> n' < u64 ->
  C14_Varint.encode n ++ r = C14_Varint.encode n' ++ r' -> n = n' /\ r = r'.
Proof. exact C14_Varint.encode_prefix_inj. Qed.
Print Assumptions varint_injective.

(* the decoder accepts padded varints; the consumed prefix is the canonical one or strictly longer *)
Theorem varint_canonical : forall b n r c, wf_bytes b -> C14_Varint.decode b = Some (n, r) -> b = c ++ r ->
  c = C14_Varint.encode n \/ (length (C14_Varint.encode n) < length c)%nat.
Proof. exact C14_Varint.decode_minimal. Qed.
Print Assumptions varint_canonical.

(* ---- big.Int.Bytes / SetBytes ---- *)
Theorem bigint_bytes_roundtrip : forall n, be_dec (be_enc n) = n.
Proof. exact be_dec_enc. Qed.
Print Assumptions bigint_bytes_roundtrip.

Theorem bigint_bytes_canonical : forall b, wf_bytes b -> no_lead0 b -> be_enc (be_dec b) = b.
Proof. exact be_enc_dec. Qed.
Print Assumptions bigint_bytes_canonical.

(* ---- protobuf wire format, for every message type of the repository and any nesting depth ---- *)
Theorem proto_roundtrip : forall id m, wf_msg sc id m = true -> len (encode m) < u64 ->
  decode sc id (encode m) = Some m.
Proof. exact sc_roundtrip. Qed.
Print Assumptions proto_roundtrip.

Theorem proto_encode_injective : forall id m1 m2,
  wf_msg sc id m1 = true -> wf_msg sc id m2 = true -> len (encode m1) < u64 ->
  encode m1 = encode m2 -> m1 = m2.
Proof. exact sc_inj. Qed.
Print Assumptions proto_encode_injective.

(* canonical bytes re-encode to themselves (hence any hash of the bytes is stable across the round trip) *)
Theorem proto_reencode_canonical : forall id m' m, wf_msg sc id m' = true -> len (encode m') < u64 ->
  decode sc id (encode m') = Some m -> encode m = encode m'.
Proof. intros id m' m Hw Hl D. rewrite (sc_roundtrip id m' Hw Hl) in D. injection D as ->. reflexivity. Qed.
Print Assumptions proto_reencode_canonical.

(* the decoder (any field order, duplicates, padded varints, unknown fields) only returns normal forms *)
Theorem proto_decode_normal_form : forall id b m, wf_bytes b -> decode sc id b = Some m -> wf_msg sc id m = true.
Proof. intros id b m. apply decode_wf. exact sc_ok. Qed.
Print Assumptions proto_decode_normal_form.

(* decode . encode . decode = decode: what was accepted re-encodes to canonical bytes of the same message *)
Theorem proto_decode_idempotent : forall id b m, wf_bytes b -> decode sc id b = Some m ->
  len (encode m) < u64 -> decode sc id (encode m) = Some m.
Proof. intros id b m. apply decode_idempotent. exact sc_ok. Qed.
Print Assumptions proto_decode_idempotent.

(* encode (decode b) == b exactly for the canonical byte strings *)
Theorem proto_reencode_iff_canonical : forall id b m, wf_bytes b -> len b < u64 -> decode sc id b = Some m ->
  (encode m = b <-> exists m', wf_msg sc id m' = true /\ b = encode m').
Proof. intros id b m. apply decode_reencode_iff. exact sc_ok. Qed.
Print Assumptions proto_reencode_iff_canonical.

(* the generic theorem itself, for any schema that passes the check *)
Theorem proto_roundtrip_any_schema : forall s id m, schema_ok s = true -> wf_msg s id m = true ->
  len (encode m) < u64 -> decode s id (encode m) = Some m.
Proof. exact decode_encode. Qed.
Print Assumptions proto_roundtrip_any_schema.

(* ---- RLP ---- *)
Theorem rlp_roundtrip : forall t, wf_item t -> rlp_decode (rlp_encode t) = Some t.
Proof. exact C14_RLP.rlp_roundtrip. Qed.
Print Assumptions rlp_roundtrip.

Theorem rlp_canonical : forall b t, wf_bytes b -> rlp_decode b = Some t -> rlp_encode t = b.
Proof. exact C14_RLP.rlp_canonical. Qed.
Print Assumptions rlp_canonical.

Theorem rlp_injective : forall a b r r', wf_item a -> wf_item b ->
  rlp_encode a ++ r = rlp_encode b ++ r' -> a = b /\ r = r'.
Proof. exact rlp_encode_prefix_free. Qed.
Print Assumptions rlp_injective.

(* ---- Qi outputs: TxOut and UtxoEntry (same wire message ProtoTxOut) ---- *)
(* normal form: denomination < 256 (uint8), address bytes; a nil lock comes back as 0 *)
Theorem txout_roundtrip : forall o, txout_nf o -> len (encode (txout_encode o)) < u64 ->
  obj_decode id_block_ProtoTxOut txout_decode (encode (txout_encode o)) = DOk (txout_norm o).
Proof. intros o Hn. destruct (codec_bytes _ _ _ _ _ txout_sound o Hn) as (m & E & R). injection E as <-. exact R. Qed.
Print Assumptions txout_roundtrip.

Theorem utxo_roundtrip : forall o, txout_nf o -> len (encode (txout_encode o)) < u64 ->
  obj_decode id_block_ProtoTxOut utxo_decode (encode (txout_encode o)) = DOk (txout_norm o).
Proof. intros o Hn. destruct (codec_bytes _ _ _ _ _ utxo_sound o Hn) as (m & E & R). injection E as <-. exact R. Qed.
Print Assumptions utxo_roundtrip.

(* identity: the object read back encodes to the same tree, so to the same bytes and hash *)
Theorem txout_hash_stable : forall o, txout_encode (txout_norm o) = txout_encode o.
Proof. exact txout_reencode. Qed.
Print Assumptions txout_hash_stable.

(* two outputs with the same encoding are the same output, up to the nil / 0 lock *)
Theorem txout_fields_injective : forall a b, to_denom a < 256 -> to_denom b < 256 ->
  txout_encode a = txout_encode b -> txout_norm a = txout_norm b.
Proof.
  intros a b Ha Hb E. destruct (txout_tree_roundtrip a Ha) as [Ra _].
  rewrite E, (proj1 (txout_tree_roundtrip b Hb)) in Ra. congruence.
Qed.
Print Assumptions txout_fields_injective.

(* outside the normal form: the decoder rejects a denomination that does not fit uint8
   (the encoder cannot produce one: the Go field is a uint8) *)
Theorem txout_rejects_wide_denomination : forall d rest, 255 < d -> txout_decode ((1, FInt d) :: rest) = DErr.
Proof.
  intros d rest H. unfold txout_decode. cbn [get_field fst snd N.eqb Pos.eqb as_int].
  apply N.ltb_lt in H. rewrite H. reflexivity.
Qed.
Print Assumptions txout_rejects_wide_denomination.

(* ---- OutPoint ---- *)
Theorem outpoint_roundtrip : forall o, hash_nf (op_hash o) -> op_index o < 65536 ->
  len (encode (outpoint_encode o)) < u64 ->
  obj_decode id_block_ProtoOutPoint outpoint_decode (encode (outpoint_encode o)) = DOk o.
Proof.
  intros o Hh Hi. destruct (codec_bytes _ _ _ _ _ outpoint_sound o (conj Hh Hi)) as (m & E & R). injection E as <-. exact R.
Qed.
Print Assumptions outpoint_roundtrip.

(* outside the normal form: uint32 on the wire, uint16 in the object, silently reduced mod 2^16 *)
Theorem outpoint_truncates : forall h i, outpoint_decode [(1, FMsg (hash_msg h)); (2, FInt i)] =
  DOk (mkOutPoint (hash_of_msg (hash_msg h)) (i mod 65536)).
Proof. reflexivity. Qed.
Print Assumptions outpoint_truncates.

(* consequently two distinct well-formed wire messages decode to the same OutPoint
   (x == decode(encode x) holds, decode is not injective on the wire type) *)
Theorem outpoint_decode_not_injective_refuted :
  exists m1 m2, m1 <> m2 /\ wf_msg sc id_block_ProtoOutPoint m1 = true /\
                wf_msg sc id_block_ProtoOutPoint m2 = true /\ outpoint_decode m1 = outpoint_decode m2.
Proof.
  exists [(1, FMsg (hash_msg zero_hash)); (2, FInt 7)], [(1, FMsg (hash_msg zero_hash)); (2, FInt 65543)].
  split; [discriminate|]. split; [vm_compute; reflexivity|]. split; vm_compute; reflexivity.
Qed.
Print Assumptions outpoint_decode_not_injective_refuted.

(* ---- OutpointAndDenomination ---- *)
Theorem opd_roundtrip : forall o, length (od_hash o) = hash_len -> od_index o < 65536 -> od_denom o < 256 ->
  opd_decode (opd_encode o) = DOk (opd_norm o).
Proof.
  intros o Hh Hi Hd. unfold opd_encode, opd_decode, opd_norm.
  destruct (od_lock o) as [l|]; cbn [app get_field fst snd N.eqb Pos.eqb as_int as_msg as_bytes];
    rewrite hash_msg_roundtrip by assumption; rewrite !N.mod_mod by discriminate;
    rewrite (N.mod_small _ _ Hi), (N.mod_small _ _ Hd); rewrite ?big_roundtrip; reflexivity.
Qed.
Print Assumptions opd_roundtrip.

(* outside the normal form both narrowing conversions (index to uint16, denomination to uint8) are silent *)
Theorem opd_truncates : forall h i d, opd_decode [(1, FMsg (hash_msg h)); (2, FInt i); (3, FInt d)] =
  DOk (mkOpd (hash_of_msg (hash_msg h)) (i mod 65536) (d mod 256) (Some 0)).
Proof. reflexivity. Qed.
Print Assumptions opd_truncates.

(* ---- Termini ---- *)
(* normal form: both arrays have exactly MaxWidth 32-byte hashes (Termini.IsValid) *)
Theorem termini_roundtrip : forall t, termini_nf t -> termini_decode (termini_encode t) = DOk t.
Proof.
  (* at full width nothing is padded *)
  intros t (Ld & Ls & Fd & Fs). rewrite termini_pads by assumption.
  unfold termini_padded. rewrite Ld, Ls, Nat.sub_diag. cbn [repeat]. rewrite !app_nil_r. destruct t; reflexivity.
Qed.
Print Assumptions termini_roundtrip.

(* outside it: shorter arrays are padded with zero hashes by the round trip *)
Theorem termini_pads : forall t,
  Forall (fun h => length h = hash_len) (t_dom t) -> Forall (fun h => length h = hash_len) (t_sub t) ->
  (length (t_dom t) <= max_width)%nat -> (length (t_sub t) <= max_width)%nat ->
  termini_decode (termini_encode t) = DOk (termini_padded t).
Proof.
  (* the bounds say where the model is Termini.ProtoEncode (which panics above MaxWidth); the equation holds without them *)
  intros t Fd Fs _ _. exact (Proofs.C14.termini_pads t Fd Fs).
Qed.
Print Assumptions termini_pads.

(* ---- rawdb: UTXO keys and coinbase lockup records (fixed-width big-endian fields) ---- *)
Theorem utxokey_roundtrip : forall h i, length h = 32%nat -> i < 65536 ->
  reverse_utxo_key (utxo_key h i) = DOk (h, i).
Proof. exact utxo_key_roundtrip. Qed.
Print Assumptions utxokey_roundtrip.

Theorem utxokey_injective : forall h1 i1 h2 i2,
  length h1 = 32%nat -> length h2 = 32%nat -> i1 < 65536 -> i2 < 65536 ->
  utxo_key h1 i1 = utxo_key h2 i2 -> h1 = h2 /\ i1 = i2.
Proof.
  intros h1 i1 h2 i2 L1 L2 B1 B2 E. pose proof (utxo_key_roundtrip h1 i1 L1 B1) as R. rewrite E in R.
  rewrite (utxo_key_roundtrip h2 i2 L2 B2) in R. injection R as -> ->. split; reflexivity.
Qed.
Print Assumptions utxokey_injective.

(* outside the normal form: ReverseUtxoKey checks the length only, any 2-byte prefix is accepted *)
Theorem utxokey_reverse_ignores_prefix : forall p1 p2 rest, length p1 = 2%nat -> length p2 = 2%nat ->
  reverse_utxo_key (p1 ++ rest) = reverse_utxo_key (p2 ++ rest).
Proof.
  intros p1 p2 rest L1 L2. unfold reverse_utxo_key. rewrite !app_length, L1, L2.
  destruct (Nat.eqb (2 + length rest) 36); [|reflexivity].
  rewrite (skipn_exact 2 p1), (skipn_exact 2 p2) by assumption.
  rewrite !skipn_app, L1, L2.
  rewrite (skipn_all2 (n:=34) p1), (skipn_all2 (n:=34) p2) by lia. reflexivity.
Qed.
Print Assumptions utxokey_reverse_ignores_prefix.

(* normal form: amount < 2^256, uint32 height, uint16 elements, delegate absent or a non-zero 20-byte address *)
Theorem lockup_record_roundtrip : forall l, lockup_nf l ->
  exists b, lockup_encode l = DOk b /\ lockup_decode b = l /\
            length b = match lk_delegate l with Some _ => 58%nat | None => 38%nat end.
Proof.
  intros l (Ha & Hh & He & Hd). unfold lockup_encode.
  assert (La : (length (be_enc (lk_amount l)) <= 32)%nat) by (apply be_enc_length; exact Ha).
  apply Nat.ltb_ge in La. rewrite La, (N.mod_small _ _ Hh), (N.mod_small _ _ He).
  eexists. split; [reflexivity|]. unfold be_fixed.
  rewrite lockup_decode_fields by apply set_bytes_length.
  rewrite !app_length, !set_bytes_length, !be_dec_set_bytes by assumption.
  destruct l as [a h e [d|]]; cbn [lk_delegate] in *.
  - destruct Hd as [Ld Zd]. rewrite Zd, Ld. split; reflexivity.
  - split; reflexivity.
Qed.
Print Assumptions lockup_record_roundtrip.

(* an amount that does not fit 32 bytes is refused by the writer *)
Theorem lockup_rejects_wide_amount : forall l, 256 ^ 32 <= lk_amount l -> lockup_encode l = DErr.
Proof.
  intros l H. unfold lockup_encode.
  destruct (Nat.ltb_spec 32 (length (be_enc (lk_amount l)))) as [_|L]; [reflexivity|].
  (* 32 bytes or fewer hold a value below 256^32 *)
  apply be_enc_short in L. apply N.lt_nge in L. contradiction.
Qed.
Print Assumptions lockup_rejects_wide_amount.

(* the zero delegate is not stored: it reads back as "no delegate" *)
Theorem lockup_zero_delegate_dropped : forall a h e d, is_zero_bytes d = true ->
  lockup_encode (mkLockup a h e (Some d)) = lockup_encode (mkLockup a h e None).
Proof.
  intros a h e d Z. unfold lockup_encode. cbn [lk_amount lk_height lk_elements lk_delegate]. rewrite Z. reflexivity.
Qed.
Print Assumptions lockup_zero_delegate_dropped.

(* ---- Transaction.ProtoEncode / ProtoDecode, all three types, field by field (Model/C14.v section 3b) ---- *)
(* c, d: the curve operations on Qi public keys (compression 65 -> 33 on encode, decompression 33 -> 65 on
   decode), parameters of the model; tx_nf asks of them only that a key of the object compresses to 33 bytes
   that decompress back to it *)

(* generated obligation: the descriptor of ProtoTransaction the model was written against is the one the
   compiled package has now (22 fields: number, kind, explicit presence) *)
Theorem proto_transaction_descriptor : nth_error sc (N.to_nat id_block_ProtoTransaction) = Some txd.
Proof. exact tx_desc. Qed.
Print Assumptions proto_transaction_descriptor.

(* the encoding of every well-formed transaction exists, is a normal form of the generated schema (so every
   generic wire theorem applies to its bytes), and decodes to the same object (a nil TxOut lock reads back as 0) *)
Theorem tx_encoding_roundtrip : forall c d t, tx_nf c d t ->
  exists m, tx_encode c t = Some m /\ wf_msg sc id_block_ProtoTransaction m = true /\ tx_decode d m = DOk (tx_norm t).
Proof. exact tx_sound. Qed.
Print Assumptions tx_encoding_roundtrip.

(* at the level of bytes: ProtoDecode(Unmarshal(Marshal(ProtoEncode t))) = t *)
Theorem tx_roundtrip : forall c d t, tx_nf c d t ->
  exists m, tx_encode c t = Some m /\
            (len (encode m) < u64 -> obj_decode id_block_ProtoTransaction (tx_decode d) (encode m) = DOk (tx_norm t)).
Proof. intros c d. exact (codec_bytes _ _ _ _ _ (tx_sound c d)). Qed.
Print Assumptions tx_roundtrip.

(* identity stability: re-encoding what came back gives the same tree, hence the same bytes and the same hash
   (Transaction.Hash is a hash of these bytes); holds for every transaction, well-formed or not *)
Theorem tx_hash_stable : forall c t, tx_encode c (tx_norm t) = tx_encode c t.
Proof.
  intros c [q|e|i]; [reflexivity|reflexivity|]. cbn [tx_norm]. rewrite !tx_encode_qi. unfold qi_norm, qi_entries.
  cbn [i_ins i_outs i_chain i_sig i_data i_work]. rewrite map_map.
  rewrite (map_ext (fun x => (1, FMsg (txout_encode (txout_norm x)))) (fun o => (1, FMsg (txout_encode o))))
    by (intros o; rewrite txout_reencode; reflexivity).
  reflexivity.
Qed.
Print Assumptions tx_hash_stable.

(* two well-formed transactions with the same bytes are the same transaction: every field of every type is
   committed by the encoding -- in particular ParentHash, MixHash and WorkNonce independently of each other,
   the full width of a TxOut lock, the ETX sender / index / type *)
Theorem tx_identity_injective : forall c d t1 t2 m1 m2, tx_nf c d t1 -> tx_nf c d t2 ->
  tx_encode c t1 = Some m1 -> tx_encode c t2 = Some m2 -> len (encode m1) < u64 ->
  encode m1 = encode m2 -> tx_norm t1 = tx_norm t2.
Proof. exact Proofs.C14_Tx3.tx_identity_injective. Qed.
Print Assumptions tx_identity_injective.

(* the converse direction fails on the wire: "two distinct well-formed ProtoTransaction messages never decode to
   the same transaction" is refuted (ETX index narrowed uint32 -> uint16 silently; replayed on the real code by
   the harness mutation etx-index-width) *)
Theorem tx_decode_injective_refuted :
  exists m1 m2, m1 <> m2 /\ wf_msg sc id_block_ProtoTransaction m1 = true /\ wf_msg sc id_block_ProtoTransaction m2 = true /\
                tx_decode (fun _ => None) m1 = tx_decode (fun _ => None) m2 /\ tx_decode (fun _ => None) m1 <> DErr.
Proof.
  pose (e := mkExt (repeat 9 20) 5 21000 [] [] (repeat 7 32) 7 (repeat 3 20) 0).
  exists (build (ext_entries e)),
         (build [(1, Some (FInt 1)); (2, Some (FBytes (repeat 9 20))); (4, Some (FBytes [5])); (5, Some (FInt 21000));
                 (6, Some (FBytes [])); (9, Some (FMsg [])); (13, Some (FMsg (hash_msg (repeat 7 32))));
                 (14, Some (FInt 65543)); (18, Some (FBytes (repeat 3 20))); (22, Some (FInt 0))]).
  split; [vm_compute; discriminate|]. split; [vm_compute; reflexivity|]. split; [vm_compute; reflexivity|].
  split; [vm_compute; reflexivity|vm_compute; discriminate].
Qed.
Print Assumptions tx_decode_injective_refuted.

(* access lists on their own *)
Theorem access_list_roundtrip : forall al, Forall at_nf al ->
  wf_msg sc id_block_ProtoAccessList (al_encode al) = true /\ al_decode (al_encode al) = al.
Proof. intros al H. split; [exact (al_wf al H)|exact (al_roundtrip al H)]. Qed.
Print Assumptions access_list_roundtrip.

(* ---- non-vacuity ---- *)
Example proto_roundtrip_nonvacuous :
  let m := [(1, FInt 2); (7, FBytes [1]); (15, FMsg [(1, FMsg [(1, FMsg [(1, FMsg [(1, FBytes (repeat 7 32))]); (2, FInt 65535)]); (2, FBytes (repeat 2 33))])]);
            (16, FMsg [(1, FMsg [(1, FInt 0); (2, FBytes (repeat 9 20)); (3, FBytes [])])]); (17, FBytes (repeat 1 64)); (6, FBytes [])] in
  wf_msg sc id_block_ProtoTransaction [(1, FInt 2); (6, FBytes []); (7, FBytes [1])] = true /\
  decode sc id_block_ProtoTransaction (encode [(1, FInt 2); (6, FBytes []); (7, FBytes [1])]) = Some [(1, FInt 2); (6, FBytes []); (7, FBytes [1])] /\
  wf_msg sc id_block_ProtoTransaction m = false.   (* out of marshal order: not a normal form *)
Proof. vm_compute. repeat split. Qed.

Example txout_roundtrip_nonvacuous :
  let o := mkTxOut 14 (Some (repeat 171 20)) None in
  txout_nf o /\ len (encode (txout_encode o)) < u64 /\
  encode (txout_encode o) = [8; 14; 18; 20] ++ repeat 171 20 ++ [26; 0].
Proof. split; [split; [reflexivity|repeat constructor]|split; reflexivity]. Qed.

Example outpoint_roundtrip_nonvacuous :
  let o := mkOutPoint (repeat 5 32) 65535 in
  hash_nf (op_hash o) /\ op_index o < 65536 /\
  obj_decode id_block_ProtoOutPoint outpoint_decode (encode (outpoint_encode o)) = DOk o.
Proof.
  intros o. assert (Hh : hash_nf (op_hash o)) by (split; [reflexivity|apply wf_bytesb_iff; reflexivity]).
  split; [exact Hh|]. split; [reflexivity|]. apply outpoint_roundtrip; [exact Hh|reflexivity|vm_compute; reflexivity].
Qed.

Example termini_roundtrip_nonvacuous :
  termini_nf (mkTermini (repeat (repeat 1 32) 16) (repeat (repeat 2 32) 16)).
Proof. repeat split; apply Forall_forall; intros h Hh; apply repeat_spec in Hh; subst h; reflexivity. Qed.

Example rlp_roundtrip_nonvacuous :
  rlp_decode (rlp_encode (Lst [Str [1]; Str (repeat 200 60); Lst [Str []; Str [128]]])) =
  Some (Lst [Str [1]; Str (repeat 200 60); Lst [Str []; Str [128]]]).
Proof. vm_compute. reflexivity. Qed.

Example lockup_roundtrip_nonvacuous :
  let l := mkLockup (2 ^ 200 + 5) 1171500 365 (Some (repeat 9 20)) in
  lockup_nf l /\ (exists b, lockup_encode l = DOk b /\ length b = 58%nat /\ lockup_decode b = l).
Proof.
  intros l. assert (Hnf : lockup_nf l) by (repeat split; reflexivity).
  split; [exact Hnf|]. destruct (lockup_record_roundtrip l Hnf) as (b & E & D & L). exists b. auto.
Qed.

Example utxokey_roundtrip_nonvacuous :
  utxo_key (repeat 3 32) 513 = [117; 116] ++ repeat 3 32 ++ [2; 1].
Proof. vm_compute. reflexivity. Qed.

Example pool_sites_nonvacuous :
  existsb (fun s => String.eqb (pool_site_name s) site_tx_encode_rlp) C14Sites.pool_sites = true /\
  existsb (fun s => String.eqb (pool_site_name s) site_receipt_encode_rlp) C14Sites.pool_sites = true /\
  existsb (fun s => String.eqb (pool_site_name s) site_derive_sha) C14Sites.pool_sites = true.
Proof. vm_compute. repeat split. Qed.

(* the conflict test does fire on the shape of the blind change C14_2 (ExternalTx.Value := common.Big0) *)
Example conflicts_nonvacuous :
  live_shared [etx_value_store] C14Sites.inplace_writers <> [].
Proof. vm_compute. discriminate. Qed.

(* a Quai transaction carrying only a ParentHash (no WorkNonce) and the same transaction without work fields:
   both well-formed, different bytes (the shape of the blind change C14_4) *)
Example tx_work_fields_nonvacuous :
  let w0 := mkWork None None None in
  let w1 := mkWork (Some (repeat 7 32)) None None in
  let q w := mkQuai (Some (repeat 9 20)) 3 1000 21000 [1; 2] 9000 5 [mkAT (repeat 4 20) [repeat 6 32]] 0 0 0 w in
  tx_nf (fun _ => None) (fun _ => None) (TQuai (q w0)) /\ tx_nf (fun _ => None) (fun _ => None) (TQuai (q w1)) /\
  (exists m0 m1, tx_encode (fun _ => None) (TQuai (q w0)) = Some m0 /\ tx_encode (fun _ => None) (TQuai (q w1)) = Some m1 /\
                 encode m0 <> encode m1 /\
                 obj_decode id_block_ProtoTransaction (tx_decode (fun _ => None)) (encode m1) = DOk (TQuai (q w1))).
Proof.
  intros w0 w1 q. set (c := fun _ : bytes => @None bytes).
  assert (Hb : forall b, wf_bytesb b = true -> wf_bytes b) by (intro b; apply wf_bytesb_iff).
  assert (Hnf : forall w, work_nf w -> tx_nf c c (TQuai (q w))).
  { intros w Hw. repeat split; try reflexivity; try (apply Hb; reflexivity); try apply Hw.
    - repeat constructor; try (apply Hb; reflexivity).
    - left. repeat split. }
  assert (N0 : tx_nf c c (TQuai (q w0))) by (apply Hnf; repeat split).
  assert (N1 : tx_nf c c (TQuai (q w1))) by (apply Hnf; repeat split; apply Hb; reflexivity).
  split; [exact N0|]. split; [exact N1|].
  exists (build (quai_entries (q w0))), (build (quai_entries (q w1))).
  split; [reflexivity|]. split; [reflexivity|].
  assert (L0 : len (encode (build (quai_entries (q w0)))) < u64) by (vm_compute; reflexivity).
  assert (L1 : len (encode (build (quai_entries (q w1)))) < u64) by (vm_compute; reflexivity).
  split.
  - (* equal bytes would make the two transactions equal *)
    intros E. discriminate (tx_identity_injective c c _ _ _ _ N0 N1 eq_refl eq_refl L0 E).
  - destruct (tx_roundtrip c c _ N1) as (m & Em & R). injection Em as <-. exact (R L1).
Qed.

(* a Qi output lock above 2^64 is committed in full width (the shape of the blind change C14_3) *)
Example txout_wide_lock_nonvacuous :
  encode (txout_encode (mkTxOut 3 (Some (repeat 9 20)) (Some 0))) <>
  encode (txout_encode (mkTxOut 3 (Some (repeat 9 20)) (Some (2 ^ 64)))).
Proof. vm_compute. discriminate. Qed.
