(* Finite maps keyed by byte strings, as strictly sorted association lists.
   Iteration order = ascending byte order (what every ethdb backend promises). *)
From Coq Require Import List NArith Lia Bool.
From GQ Require Import Lib.Key.
Import ListNotations.

(* closes a goal that has a hypothesis [kcmp a a = Lt] or [kcmp a a = Gt] *)
Ltac krefl := match goal with H : kcmp ?a ?a = _ |- _ => rewrite kcmp_refl in H; discriminate end.

Section SMap.
Context {V : Type}.

Definition smap := list (key * V).

Fixpoint get (k : key) (m : smap) : option V :=
  match m with
  | [] => None
  | (k', v) :: m' =>
      match kcmp k k' with
      | Eq => Some v
      | Lt => None
      | Gt => get k m'
      end
  end.

Fixpoint put (k : key) (v : V) (m : smap) : smap :=
  match m with
  | [] => [(k, v)]
  | (k', v') :: m' =>
      match kcmp k k' with
      | Eq => (k, v) :: m'
      | Lt => (k, v) :: m
      | Gt => (k', v') :: put k v m'
      end
  end.

Fixpoint del (k : key) (m : smap) : smap :=
  match m with
  | [] => []
  | (k', v') :: m' =>
      match kcmp k k' with
      | Eq => m'
      | Lt => m
      | Gt => (k', v') :: del k m'
      end
  end.

Definition lb (k : key) (m : smap) : Prop := forall k' v, In (k', v) m -> kltb k k' = true.

Fixpoint sorted (m : smap) : Prop :=
  match m with
  | [] => True
  | (k, _) :: m' => lb k m' /\ sorted m'
  end.

Fixpoint sortedb (m : smap) : bool :=
  match m with
  | [] => true
  | (k, _) :: m' =>
      match m' with
      | [] => true
      | (k', _) :: _ => kltb k k' && sortedb m'
      end
  end.

Lemma lb_trans k k' m : kltb k k' = true -> lb k' m -> lb k m.
Proof. intros H L a v Hin. eapply kltb_trans; eauto. Qed.

Lemma sortedb_sorted m : sortedb m = true -> sorted m.
Proof.
  induction m as [|[k v] m IH]; cbn; [auto|].
  destruct m as [|[k' v'] m']; [intros _; split; [intros ? ? []|exact I]|].
  intros H. apply andb_prop in H as [H1 H2]. specialize (IH H2).
  split; [|exact IH]. intros a w [E|Hin].
  - inversion E; subst; exact H1.
  - destruct IH as [L _]. eapply kltb_trans; [exact H1|]. eapply L; eauto.
Qed.

Lemma get_lb_none k m : lb k m -> get k m = None.
Proof.
  destruct m as [|[k' v'] m']; cbn; [reflexivity|]. intros L.
  specialize (L k' v' (or_introl eq_refl)). apply kltb_lt in L. rewrite L. reflexivity.
Qed.

Lemma get_below k k' m : sorted m -> lb k' m -> kleb k k' = true -> get k m = None.
Proof.
  intros S L H. apply get_lb_none. apply kleb_spec in H as [H| ->]; [|exact L].
  eapply lb_trans; eauto.
Qed.

Lemma get_in k v m : sorted m -> (get k m = Some v <-> In (k, v) m).
Proof.
  induction m as [|[k' v'] m IH]; cbn; [intros _; split; [discriminate|tauto]|].
  intros [L S]. destruct (kcmp k k') eqn:E.
  - apply kcmp_eq in E; subst k'. split.
    + intros H; inversion H; subst; left; reflexivity.
    + intros [H|H]; [inversion H; reflexivity|].
      apply L in H. rewrite kltb_irrefl in H. discriminate.
  - split; [discriminate|]. intros [H|H].
    + inversion H; subst. krefl.
    + apply L, kltb_lt in H. pose proof (kcmp_lt_trans _ _ _ E H). krefl.
  - rewrite (IH S). split; [tauto|]. intros [H|H]; [|exact H].
    inversion H; subst. krefl.
Qed.

(* Two keys and two maps: m2 may be m1 with its entries filtered and its keys renamed. *)
Lemma get_in_ext k1 k2 m1 m2 : sorted m1 -> sorted m2 ->
  (forall v, In (k1, v) m1 <-> In (k2, v) m2) -> get k1 m1 = get k2 m2.
Proof.
  intros S1 S2 H. destruct (get k1 m1) as [v|] eqn:E1.
  - symmetry. apply get_in, H, get_in; assumption.
  - destruct (get k2 m2) as [v|] eqn:E2; [|reflexivity].
    apply get_in, H, get_in in E2; [congruence|assumption..].
Qed.

Lemma get_put k k' v m : get k (put k' v m) = if keqb k k' then Some v else get k m.
Proof.
  unfold keqb. induction m as [|[k0 v0] m IH]; cbn.
  - destruct (kcmp k k'); reflexivity.
  - destruct (kcmp k' k0) eqn:E; cbn.
    + apply kcmp_eq in E; subst k0. destruct (kcmp k k'); reflexivity.
    + destruct (kcmp k k') eqn:E2; try reflexivity.
      rewrite (kcmp_lt_trans _ _ _ E2 E). reflexivity.
    + rewrite IH. destruct (kcmp k k') eqn:E2; try reflexivity.
      apply kcmp_eq in E2; subst k'. rewrite E. reflexivity.
Qed.

Lemma get_put_same k v m : get k (put k v m) = Some v.
Proof. rewrite get_put, keqb_refl. reflexivity. Qed.

Lemma get_put_other k k0 v m : k0 <> k -> get k0 (put k v m) = get k0 m.
Proof. intros N. apply keqb_neq in N. rewrite get_put, N. reflexivity. Qed.

Lemma put_in k v m a w : In (a, w) (put k v m) -> (a = k /\ w = v) \/ In (a, w) m.
Proof.
  induction m as [|[k' v'] m IH]; cbn.
  - intros [H|[]]; inversion H; auto.
  - destruct (kcmp k k') eqn:E; cbn.
    + intros [H|H]; [inversion H; auto|auto].
    + intros [H|H]; [inversion H; auto|auto].
    + intros [H|H]; [auto|]. destruct (IH H); auto.
Qed.

Lemma put_sorted k v m : sorted m -> sorted (put k v m).
Proof.
  induction m as [|[k' v'] m IH]; cbn.
  - intros _. split; [intros ? ? []|exact I].
  - intros [L S]. destruct (kcmp k k') eqn:E; cbn.
    + apply kcmp_eq in E; subst k'. auto.
    + split; [|auto]. intros a w [H|H].
      * inversion H; subst. apply kltb_lt, E.
      * eapply kltb_trans; [apply kltb_lt, E|]. eapply L; eauto.
    + split; [|auto]. intros a w H. apply put_in in H as [[-> ->]|H].
      * apply kltb_lt, kcmp_gt_lt, E.
      * eapply L; eauto.
Qed.

Lemma del_in k m a w : In (a, w) (del k m) -> In (a, w) m.
Proof.
  induction m as [|[k' v'] m IH]; cbn; [tauto|].
  destruct (kcmp k k'); cbn; intuition.
Qed.

Lemma del_sorted k m : sorted m -> sorted (del k m).
Proof.
  induction m as [|[k' v'] m IH]; cbn; [auto|].
  intros [L S]. destruct (kcmp k k') eqn:E; cbn; auto.
  split; [|auto]. intros a w H. eapply L. eapply del_in; eauto.
Qed.

Lemma get_del k k' m : sorted m -> get k (del k' m) = if keqb k k' then None else get k m.
Proof.
  unfold keqb. induction m as [|[k0 v0] m IH]; cbn.
  - intros _. destruct (kcmp k k'); reflexivity.
  - intros [L S]. destruct (kcmp k' k0) eqn:E; cbn.
    + (* the entry of k' goes; what is left lies above k' *)
      apply kcmp_eq in E; subst k0. destruct (kcmp k k') eqn:E2; try reflexivity.
      * apply kcmp_eq in E2; subst k'. apply get_lb_none, L.
      * apply get_lb_none. eapply lb_trans; [apply kltb_lt, E2|exact L].
    + destruct (kcmp k k') eqn:E2; try reflexivity.
      apply kcmp_eq in E2; subst k'. rewrite E. reflexivity.
    + rewrite (IH S). destruct (kcmp k k') eqn:E2; try reflexivity.
      apply kcmp_eq in E2; subst k'. rewrite E. reflexivity.
Qed.

Lemma get_del_same k m : sorted m -> get k (del k m) = None.
Proof. intros S. rewrite get_del, keqb_refl by exact S. reflexivity. Qed.

Lemma get_del_other k k0 m : sorted m -> k0 <> k -> get k0 (del k m) = get k0 m.
Proof. intros S N. apply keqb_neq in N. rewrite get_del, N by exact S. reflexivity. Qed.

Lemma sorted_ext m1 m2 :
  sorted m1 -> sorted m2 -> (forall k, get k m1 = get k m2) -> m1 = m2.
Proof.
  revert m2; induction m1 as [|[k1 v1] m1 IH]; intros [|[k2 v2] m2] S1 S2 H.
  - reflexivity.
  - specialize (H k2). cbn in H. rewrite kcmp_refl in H. discriminate.
  - specialize (H k1). cbn in H. rewrite kcmp_refl in H. discriminate.
  - destruct S1 as [L1 S1], S2 as [L2 S2].
    assert (k1 = k2) as ->.
    { (* the smaller of two different first keys is in one map only *)
      destruct (kcmp k1 k2) eqn:E.
      - apply kcmp_eq, E.
      - specialize (H k1). cbn in H. rewrite kcmp_refl, E in H. discriminate.
      - apply kcmp_gt_lt in E. specialize (H k2). cbn in H. rewrite kcmp_refl, E in H. discriminate. }
    assert (v1 = v2) as ->.
    { specialize (H k2). cbn in H. rewrite kcmp_refl in H. congruence. }
    f_equal. apply IH; auto. intros k. specialize (H k). cbn in H.
    (* at or below the common first key both tails answer None; above it H is the claim *)
    assert (B : kleb k k2 = true -> get k m1 = get k m2).
    { intros B. rewrite (get_below k k2 m1 S1 L1 B), (get_below k k2 m2 S2 L2 B). reflexivity. }
    unfold kleb in B. destruct (kcmp k k2); auto.
Qed.

(* get, put and del all stop at the first key >= k, so these hold for arbitrary lists; only [put_del_restore]
   needs sortedness. *)
Lemma put_present k v m : get k m = Some v -> put k v m = m.
Proof.
  induction m as [|[k' v'] m IH]; cbn; [discriminate|].
  destruct (kcmp k k') eqn:E; intros G.
  - apply kcmp_eq in E. inversion G; subst. reflexivity.
  - discriminate G.
  - rewrite IH by exact G. reflexivity.
Qed.

Lemma del_put_absent k v m : get k m = None -> del k (put k v m) = m.
Proof.
  induction m as [|[k' v'] m IH]; cbn.
  - intros _. rewrite kcmp_refl. reflexivity.
  - destruct (kcmp k k') eqn:E; intros G; cbn.
    + discriminate G.
    + rewrite kcmp_refl. reflexivity.
    + rewrite E, IH by exact G. reflexivity.
Qed.

Lemma put_put_same k (v w : V) m : put k v (put k w m) = put k v m.
Proof.
  induction m as [|[k' v'] m IH]; cbn.
  - rewrite kcmp_refl. reflexivity.
  - destruct (kcmp k k') eqn:E; cbn.
    + rewrite kcmp_refl. reflexivity.
    + rewrite kcmp_refl. reflexivity.
    + rewrite E. f_equal. exact IH.
Qed.

Lemma put_restore k (old new : V) m : get k m = Some old -> put k old (put k new m) = m.
Proof. intros G. rewrite put_put_same. apply put_present. exact G. Qed.

Lemma del_absent k m : get k m = None -> del k m = m.
Proof.
  induction m as [|[k' v'] m IH]; cbn; [reflexivity|].
  destruct (kcmp k k') eqn:E.
  - discriminate.
  - reflexivity.
  - intros H. f_equal. apply IH. exact H.
Qed.

Lemma put_del_restore k (old : V) m : sorted m -> get k m = Some old -> put k old (del k m) = m.
Proof.
  intros S G. apply sorted_ext; [apply put_sorted, del_sorted, S|exact S|].
  intros k0. rewrite get_put, get_del by exact S. destruct (keqb k0 k) eqn:E; [|reflexivity].
  apply keqb_eq in E. subst k0. symmetry. exact G.
Qed.

(* NewIterator(prefix, start) of ethdb (ethdb/iterator.go): start is relative to the prefix, as in
   bytesPrefixRange of ethdb/leveldb/leveldb.go. *)
Definition in_range (prefix start k : key) : bool :=
  has_prefix prefix k && kleb (prefix ++ start) k.

Definition iterate (prefix start : key) (m : smap) : smap :=
  filter (fun kv => in_range prefix start (fst kv)) m.

Lemma filter_sorted f (m : smap) : sorted m -> sorted (filter f m).
Proof.
  induction m as [|[k v] m IH]; cbn; [auto|]. intros [L S].
  destruct (f (k, v)); cbn; auto. split; auto.
  intros a w H. apply filter_In in H as [H _]. eapply L; eauto.
Qed.

Lemma iterate_sorted p s m : sorted m -> sorted (iterate p s m).
Proof. apply filter_sorted. Qed.

Lemma iterate_exact p s m k v : sorted m ->
  (In (k, v) (iterate p s m) <-> get k m = Some v /\ in_range p s k = true).
Proof.
  intros S. unfold iterate. rewrite filter_In. cbn. rewrite (get_in k v m S). tauto.
Qed.

Definition keys (m : smap) : list key := map fst m.
Definition size (m : smap) : nat := length m.

End SMap.
Arguments smap : clear implicits.
