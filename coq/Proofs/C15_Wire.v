(* C15 (A) — lemmas about the length-prefixed parsers of Lib/C15_Wire.v *)
From Coq Require Import List NArith Lia.
From GQ Require Import Lib.C15_Wire.
Import ListNotations.
Local Open Scope N_scope.

Lemma len_app : forall a b : list N, len (a ++ b) = len a + len b.
Proof. intros a b. unfold len. rewrite app_length. lia. Qed.

Lemma take_drop : forall n (b : list N), b = take n b ++ drop n b.
Proof. intros n b. unfold take, drop. symmetry. apply firstn_skipn. Qed.

Lemma len_take : forall n (b : list N), n <= len b -> len (take n b) = n.
Proof. intros n b H. unfold len, take in *. rewrite firstn_length. lia. Qed.

Lemma len_take_le : forall n (b : list N), len (take n b) <= len b.
Proof. intros n b. unfold len, take. rewrite firstn_length. lia. Qed.

Lemma len_drop : forall n (b : list N), len (drop n b) = len b - n.
Proof. intros n b. unfold len, drop. rewrite skipn_length. lia. Qed.

Definition suffix (r b : list N) : Prop := exists pre, b = pre ++ r.

Lemma suffix_refl : forall b, suffix b b.
Proof. intros b. exists []. reflexivity. Qed.

Lemma suffix_drop : forall n b, suffix (drop n b) b.
Proof. intros n b. exists (take n b). apply take_drop. Qed.

Lemma suffix_trans : forall a b c, suffix a b -> suffix b c -> suffix a c.
Proof. intros a b c (p & Hp) (q & Hq). exists (q ++ p). subst. rewrite app_assoc. reflexivity. Qed.

Lemma suffix_cons : forall x b, suffix b (x :: b).
Proof. intros x b. exists [x]. reflexivity. Qed.

Lemma suffix_len : forall r b, suffix r b -> len r <= len b.
Proof. intros r b (p & Hp). subst. rewrite len_app. lia. Qed.

Definition infix (s b : list N) : Prop := exists pre post, b = pre ++ s ++ post.

Lemma infix_take_suffix : forall n r b, suffix r b -> infix (take n r) b.
Proof.
  intros n r b (p & Hp). exists p, (drop n r). subst. f_equal. apply take_drop.
Qed.

Lemma infix_len : forall s b, infix s b -> len s <= len b.
Proof. intros s b (p & q & H). subst. rewrite !len_app. lia. Qed.

Lemma infix_nil : forall b, infix [] b.
Proof. intros b. exists [], b. reflexivity. Qed.

Lemma infix_trans : forall a b c, infix a b -> infix b c -> infix a c.
Proof.
  intros a b c (p & q & H1) (p' & q' & H2). exists (p' ++ p), (q ++ q'). subst.
  rewrite <- !app_assoc. reflexivity.
Qed.

Lemma read_fixed_suffix : forall k b v r, read_fixed k b = Some (v, r) -> suffix r b /\ len r + k = len b.
Proof.
  intros k b v r. unfold read_fixed.
  destruct (N.ltb_spec (len b) k) as [|E]; [discriminate|].
  intros [= _ <-]. split; [apply suffix_drop|]. rewrite len_drop. lia.
Qed.

Lemma read_varint_suffix : forall b v r,
  read_varint b = Some (v, r) -> suffix r b /\ len r < len b.
Proof.
  intros b v r H. destruct b as [|x b']; [discriminate|]. cbn [read_varint] in H.
  assert (Hl : len (x :: b') = len b' + 1) by (unfold len; cbn [length]; lia).
  assert (Hf : forall k, read_fixed k b' = Some (v, r) -> suffix r (x :: b') /\ len r < len (x :: b')).
  { intros k Hk. destruct (read_fixed_suffix _ _ _ _ Hk) as (Hs & Hn).
    split; [exact (suffix_trans _ _ _ Hs (suffix_cons x b'))|lia]. }
  destruct (x =? 253); [exact (Hf _ H)|].
  destruct (x =? 254); [exact (Hf _ H)|].
  destruct (x =? 255); [exact (Hf _ H)|].
  injection H as _ <-. split; [apply suffix_cons|lia].
Qed.

(* the read behind the k skipped bytes succeeded, so the skip stayed inside the input *)
Lemma skip_varint : forall k b v r,
  read_varint (drop k b) = Some (v, r) -> suffix r b /\ len r + k + 1 <= len b.
Proof.
  intros k b v r H. destruct (read_varint_suffix _ _ _ H) as (Hs & Hn).
  split; [exact (suffix_trans _ _ _ Hs (suffix_drop k b))|]. rewrite len_drop in Hn. lia.
Qed.

(* the empty scriptSig included: both CompactSize reads have succeeded before its length is looked at *)
Lemma script_sig_in_input : forall tx s,
  extract_script_sig tx = Some s -> infix s tx /\ len s + 42 <= len tx.
Proof.
  intros tx s H. unfold extract_script_sig in H.
  destruct (read_varint (drop 4 tx)) as [[c r1]|] eqn:E1; [|discriminate].
  destruct (read_varint (drop 36 r1)) as [[n r3]|] eqn:E2; [|discriminate].
  destruct (skip_varint _ _ _ _ E1) as (S1 & L1).
  destruct (skip_varint _ _ _ _ E2) as (S2 & L2).
  destruct (n =? 0).
  - injection H as <-. split; [apply infix_nil|]. change (len []) with 0. lia.
  - destruct (N.ltb_spec (len r3) n) as [|El]; [discriminate|]. injection H as <-.
    split; [exact (infix_take_suffix n r3 tx (suffix_trans _ _ _ S2 S1))|].
    rewrite (len_take n r3 El). lia.
Qed.

Lemma parse_push_spec : forall s d r,
  parse_push s = Some (d, r) -> exists op, s = op :: d ++ r /\ len d = op /\ op <= 75.
Proof.
  intros s d r H. destruct s as [|op s']; [discriminate|]. cbn [parse_push] in H.
  destruct (N.ltb_spec 75 op) as [|E1]; [discriminate|].
  destruct (N.ltb_spec (len s') op) as [|E2]; [discriminate|].
  injection H as <- <-. exists op. split; [f_equal; apply take_drop|]. split; [apply len_take; exact E2|exact E1].
Qed.

Lemma seal_hash_in_input : forall ss hsh,
  extract_seal_hash ss = Some hsh -> len hsh = 32 /\ infix hsh ss.
Proof.
  intros ss hsh H. unfold extract_seal_hash in H.
  destruct (len ss =? 0); [discriminate|].
  destruct (parse_push ss) as [[height r1]|] eqn:E1; [|discriminate].
  destruct (5 <? len height); [discriminate|].
  destruct (parse_push r1) as [[payload r2]|] eqn:E2; [|discriminate].
  destruct (N.eqb_spec (len payload) 44) as [E3|]; [|discriminate].
  destruct (negb (bytes_eqb (take 4 payload) magic)); [discriminate|].
  injection H as <-.
  destruct (parse_push_spec _ _ _ E1) as (op1 & -> & _ & _).
  destruct (parse_push_spec _ _ _ E2) as (op2 & -> & _ & _).
  split.
  - rewrite len_take; [reflexivity|]. rewrite len_drop. lia.
  - apply infix_trans with (b := payload).
    + apply infix_take_suffix. apply suffix_drop.
    + exists (op1 :: height ++ [op2]), r2. cbn. f_equal.
      rewrite <- !app_assoc. reflexivity.
Qed.
