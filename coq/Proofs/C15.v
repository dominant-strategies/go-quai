(* C15 (B) — lemmas about the metered machine of Model/C15.v: what a successful step has found and charged
   ([passes], [step_inv]); lastGasCost is the fee of the words paid for ([paid]), and gas left + lastGasCost
   never rises along a run ([run_acct]) nor, summed over the live frames, along calls and returns ([finv]) *)
From Coq Require Import List NArith Bool Lia ZifyN.
From GQ Require Import Lib.C15_Row Model.C15.
Import ListNotations.
Local Open Scope N_scope.

Lemma mem_gas_monotone : forall a b, a <= b -> mem_gas a <= mem_gas b.
Proof.
  intros a b Hab. unfold mem_gas.
  apply N.add_le_mono.
  - apply N.mul_le_mono_l; exact Hab.
  - apply N.div_le_mono; [discriminate|]. apply N.mul_le_mono; exact Hab.
Qed.

Lemma mem_gas_0 : mem_gas 0 = 0.
Proof. reflexivity. Qed.

Lemma mem_gas_linear : forall w, 3 * w <= mem_gas w.
Proof. intros w. unfold mem_gas. lia. Qed.

Lemma mem_gas_quadratic : forall w, w * w <= 512 * mem_gas w + 511.
Proof. intros w. unfold mem_gas. lia. Qed.

Lemma mem_gas_bound_words : forall w G, mem_gas w <= G -> w <= N.sqrt (512 * G + 511) /\ 3 * w <= G.
Proof.
  intros w G H. split.
  - apply N.sqrt_le_square. pose proof (mem_gas_quadratic w). lia.
  - pose proof (mem_gas_linear w). lia.
Qed.

Lemma mem_gas_fits_u64 : forall w, w * 32 <= MAXMEM -> mem_gas w < U64.
Proof.
  (* MAXMEM = 32 * (2^32 - 1), and the fee of 2^32 - 1 words is below 2^64 *)
  intros w H. apply N.le_lt_trans with (mem_gas 4294967295); [|reflexivity].
  apply mem_gas_monotone. unfold MAXMEM in H. lia.
Qed.

(* the uint64 subtraction of memoryGasCost does not wrap *)
Lemma sub_mod_U64 : forall a b, b <= a -> a < U64 -> (a + U64 - b) mod U64 = a - b.
Proof.
  intros a b Hb Ha. replace (a + U64 - b) with (a - b + 1 * U64) by lia.
  rewrite N.mod_add by discriminate. apply N.mod_small. lia.
Qed.

Lemma to_words_mul32 : forall w, to_words (w * 32) = w.
Proof. intros w. unfold to_words. lia. Qed.

Lemma to_words_ge : forall b, b <= to_words b * 32.
Proof. intros b. unfold to_words. lia. Qed.

Lemma resize_max : forall mem ms, resize mem ms = N.max mem ms.
Proof. intros mem ms. unfold resize. destruct (N.ltb_spec 0 ms); lia. Qed.

Lemma words_of_32 : forall s k, m_mem s = 32 * k -> words_of s = k.
Proof. intros s k H. unfold words_of. rewrite H. lia. Qed.

Lemma lookup_spec : forall T op r, lookup T op = Some r -> In r T /\ r_op r = op.
Proof.
  induction T as [|r0 T IH]; intros op r H; [discriminate|].
  cbn in H. destruct (N.eqb_spec (r_op r0) op) as [E|_].
  - injection H as <-. split; [left; reflexivity|exact E].
  - destruct (IH op r H) as (A & B). split; [right; exact A|exact B].
Qed.

Lemma lookup_forallb : forall (f : row -> bool) T op r,
  forallb f T = true -> lookup T op = Some r -> f r = true /\ r_op r = op.
Proof.
  intros f T op r Hf Hl. destruct (lookup_spec T op r Hl) as (Hin & Hop).
  split; [exact (proj1 (forallb_forall f T) Hf r Hin)|exact Hop].
Qed.

Lemma mem_size_of_shape : forall r req ms,
  mem_size_of r req = Some ms -> exists w0, ms = w0 * 32 /\ ms < U64.
Proof.
  intros r req ms. unfold mem_size_of.
  destruct (r_has_mem r).
  - destruct req as [m|]; [|discriminate].
    destruct (N.leb_spec U64 (to_words m * 32)) as [|E]; [discriminate|].
    intros [= <-]. exists (to_words m). split; [reflexivity|exact E].
  - intros [= <-]. exists 0. split; reflexivity.
Qed.

Lemma mem_size_of_nomem : forall r req, r_has_mem r = false -> mem_size_of r req = Some 0.
Proof. intros r req H. unfold mem_size_of. rewrite H. reflexivity. Qed.

(* k = the words paid for so far; U bounds what was asked of rows that do not pay for memory *)
Definition paid (U : N) (s : mstate) : Prop :=
  exists k, m_last s = mem_gas k /\ 32 * k <= m_mem s /\ m_mem s <= N.max (32 * k) U.

Lemma paid_init : forall U G, paid U (init G).
Proof. intros U G. exists 0. cbn. lia. Qed.

Lemma memory_gas_cost_spec : forall U s w0 fee l' g,
  paid U s ->
  memory_gas_cost s (w0 * 32) = Some (fee, l') ->
  fee + m_last s = l' /\ paid U (mkM g (resize (m_mem s) (w0 * 32)) l').
Proof.
  intros U s w0 fee l' g Hp. pose proof Hp as (k & Hl & Hlo & Hhi).
  unfold memory_gas_cost, paid. cbn [m_mem m_last]. rewrite to_words_mul32, resize_max.
  destruct (N.eqb_spec (w0 * 32) 0) as [->|E0].
  - intros [= <- <-]. rewrite N.max_0_r. split; [reflexivity|exact Hp].
  - destruct (N.ltb_spec MAXMEM (w0 * 32)) as [|Emax]; [discriminate|].
    destruct (N.ltb_spec (m_mem s) (w0 * 32)) as [Egrow|Egrow]; intros [= <- <-].
    + (* memory grows: the words asked for become the words paid for *)
      assert (Hm : mem_gas k <= mem_gas w0) by (apply mem_gas_monotone; lia).
      rewrite Hl, (sub_mod_U64 _ _ Hm (mem_gas_fits_u64 _ Emax)), (N.max_r _ _ (N.lt_le_incl _ _ Egrow)).
      split; [apply N.sub_add, Hm|]. rewrite (N.mul_comm w0 32).
      exists w0. repeat split; [apply N.le_refl|apply N.le_max_l].
    + rewrite (N.max_l _ _ Egrow). split; [reflexivity|exact Hp].
Qed.

(* what the row of [op] charges of [a_other] *)
Definition other_of (T : table) (op : N) (a : args) : N :=
  match lookup T op with
  | Some r => if r_has_dyn r then match a_other a with Some o => o | None => 0 end else 0
  | None => 0
  end.

Lemma charge_acct : forall T U op r a s ms d l' g,
  paid U s ->
  lookup T op = Some r ->
  mem_size_of r (a_req a) = Some ms ->
  (row_metered r = false -> ms <= U) ->
  (if r_has_dyn r then dyn_gas r a s ms else Some (0, m_last s)) = Some (d, l') ->
  other_of T op a + l' <= d + m_last s /\ paid U (mkM g (resize (m_mem s) ms) l').
Proof.
  intros T U op r a s ms d l' g Hp Hrow Hms Hreq Hd.
  (* a row that does not charge memory leaves lastGasCost, and asks for 0 (no memorySize) or at most U *)
  assert (Hunm : r_has_dyn r && r_charges r = false ->
                 paid U (mkM g (resize (m_mem s) ms) (m_last s))).
  { intros Hc. assert (ms <= U).
    { unfold row_metered in Hreq. rewrite Hc in Hreq. destruct (r_has_mem r) eqn:Ehm.
      - apply Hreq. reflexivity.
      - rewrite (mem_size_of_nomem r _ Ehm) in Hms. injection Hms as <-. apply N.le_0_l. }
    destruct Hp as (k & Hl & Hlo & Hhi). exists k. cbn [m_mem m_last]. rewrite resize_max. lia. }
  unfold other_of. rewrite Hrow. destruct (r_has_dyn r).
  - unfold dyn_gas in Hd. destruct (a_other a) as [o|]; [|discriminate].
    destruct (r_charges r).
    + destruct (mem_size_of_shape _ _ _ Hms) as (w0 & -> & _).
      destruct (memory_gas_cost s (w0 * 32)) as [[fee l0]|] eqn:Emgc; [|discriminate].
      destruct (U64 <=? fee + o); [discriminate|]. injection Hd as <- <-.
      destruct (memory_gas_cost_spec U s w0 fee l0 g Hp Emgc) as (Hfee & Hp').
      split; [lia|exact Hp'].
    + injection Hd as <- <-. split; [apply N.le_refl|exact (Hunm eq_refl)].
  - injection Hd as <- <-. split; [apply N.le_refl|exact (Hunm eq_refl)].
Qed.

(* closes a branch of [step] that returns a failure verdict and a state with the memory of [s] *)
Ltac step_failed H :=
  injection H as <- <-; cbn; split; [reflexivity|apply N.le_refl || apply N.le_sub_l].

(* what a [step] that returns VOk has found and charged; its two stack checks are left out *)
Variant passes (T : table) (op : N) (a : args) (s : mstate) : mstate -> Prop :=
| Passes r ms d l' :
    lookup T op = Some r ->
    mem_size_of r (a_req a) = Some ms ->
    (if r_has_dyn r then dyn_gas r a s ms else Some (0, m_last s)) = Some (d, l') ->
    a_cgas a + d <= m_gas s ->
    passes T op a s (mkM (m_gas s - a_cgas a - d) (resize (m_mem s) ms) l').

Lemma step_inv : forall T op a s v s',
  step T op a s = (v, s') ->
  match v with
  | VOk => passes T op a s s'
  | _ => m_mem s' = m_mem s /\ m_gas s' <= m_gas s
  end.
Proof.
  intros T op a s v s' H. unfold step in H.
  destruct (lookup T op) as [r|] eqn:Hl; [|step_failed H].
  destruct (a_stack a <? r_min r); [step_failed H|].
  destruct (r_max r <? a_stack a); [step_failed H|].
  destruct (N.ltb_spec (m_gas s) (a_cgas a)) as [|Hc]; [step_failed H|].
  destruct (mem_size_of r (a_req a)) as [ms|] eqn:Hms; [|step_failed H].
  destruct (if r_has_dyn r then _ else _) as [[d l']|] eqn:Hd; [|step_failed H].
  cbn [m_gas m_mem] in H.
  destruct (N.ltb_spec (m_gas s - a_cgas a) d) as [|Hdg]; [step_failed H|].
  injection H as <- <-. apply (Passes T op a s r ms d l' Hl Hms Hd). lia.
Qed.

Lemma step_gas_le : forall T op a s v s', step T op a s = (v, s') -> m_gas s' <= m_gas s.
Proof.
  intros T op a s v s' H. pose proof (step_inv _ _ _ _ _ _ H) as Hi.
  destruct v; [|exact (proj2 Hi)..].
  destruct Hi as [r ms d l' _ _ _ Hg]. cbn. lia.
Qed.

Definition req_le (T : table) (U : N) (op : N) (a : args) : Prop :=
  forall r ms, lookup T op = Some r -> mem_size_of r (a_req a) = Some ms -> row_metered r = false -> ms <= U.

Lemma step_acct : forall T U op a s s',
  paid U s ->
  req_le T U op a ->
  step T op a s = (VOk, s') ->
  paid U s' /\ m_mem s <= m_mem s' /\
  m_gas s' + a_cgas a + other_of T op a + m_last s' <= m_gas s + m_last s.
Proof.
  intros T U op a s s' Hp Hreq Hstep.
  destruct (step_inv _ _ _ _ _ _ Hstep) as [r ms d l' Hl Hms Hd Hg].
  destruct (charge_acct T U op r a s ms d l' (m_gas s - a_cgas a - d) Hp Hl Hms (Hreq r ms Hl Hms) Hd)
    as (Hacc & Hp').
  split; [exact Hp'|]. cbn [m_gas m_mem m_last]. rewrite resize_max. lia.
Qed.

(* [s1] is where the successful steps end; at most one failed step lies between it and [s'] *)
Lemma run_ends : forall T (P : mstate -> Prop) p,
  (forall op a s s', In (op, a) p -> P s -> step T op a s = (VOk, s') -> P s') ->
  forall s v s', P s -> run T p s = (v, s') ->
  exists s1, P s1 /\ m_mem s' = m_mem s1 /\ m_gas s' <= m_gas s1 /\ (v = VOk -> s' = s1).
Proof.
  intros T P p. induction p as [|[op a] p IH]; intros HP s v s' Hs Hrun.
  - injection Hrun as <- <-. exists s. repeat split; [exact Hs|apply N.le_refl].
  - cbn [run] in Hrun. destruct (step T op a s) as [v1 s1] eqn:Hstep.
    pose proof (step_inv _ _ _ _ _ _ Hstep) as Hi.
    destruct v1.
    (* a failed step ends the run *)
    2-6: injection Hrun as <- <-; exists s; repeat split; [exact Hs|apply Hi..|discriminate].
    apply (IH (fun op' a' s0 s0' Hin => HP op' a' s0 s0' (or_intror Hin)) s1 v s'); [|exact Hrun].
    exact (HP op a s s1 (or_introl eq_refl) Hs Hstep).
Qed.

Lemma run_gas_le : forall T p s v s', run T p s = (v, s') -> m_gas s' <= m_gas s.
Proof.
  intros T p s v s' Hrun.
  destruct (run_ends T (fun s1 => m_gas s1 <= m_gas s) p) with (3 := Hrun) as (s1 & H1 & _ & H2 & _).
  - intros op a s0 s0' _ H0 Hstep. exact (N.le_trans _ _ _ (step_gas_le _ _ _ _ _ _ Hstep) H0).
  - apply N.le_refl.
  - exact (N.le_trans _ _ _ H2 H1).
Qed.

Lemma run_acct : forall T U G p s v s',
  paid U s -> m_last s + m_gas s <= G ->
  (forall op a, In (op, a) p -> req_le T U op a) ->
  run T p s = (v, s') ->
  exists k', 32 * k' <= m_mem s' /\ m_mem s' <= N.max (32 * k') U /\
             mem_gas k' + m_gas s' <= G /\
             (v = VOk -> m_last s' = mem_gas k').
Proof.
  intros T U G p s v s' Hp HG Hreq Hrun.
  destruct (run_ends T (fun s1 => paid U s1 /\ m_last s1 + m_gas s1 <= G) p)
    with (3 := Hrun) as (s1 & ((k1 & Hl & Hlo & Hhi) & Hg) & Hm & Hgas & Hv).
  - intros op a s0 s0' Hin (Hp0 & Hg0) Hstep.
    destruct (step_acct T U op a s0 s0' Hp0 (Hreq op a Hin) Hstep) as (Hp' & _ & Hacc).
    split; [exact Hp'|lia].
  - split; [exact Hp|exact HG].
  - exists k1. rewrite Hm. repeat split; [exact Hlo|exact Hhi|lia|].
    intros Hok. rewrite (Hv Hok). exact Hl.
Qed.

Lemma metered_req_le : forall T U op a, jumptable_metered T = true -> req_le T U op a.
Proof.
  intros T U op a Hm r ms Hl _ E. rewrite (proj1 (lookup_forallb row_metered T op r Hm Hl)) in E. discriminate.
Qed.

Definition frame_ok (s : mstate) : Prop := exists k, m_mem s = 32 * k /\ m_last s = mem_gas k.

Lemma paid_0 : forall s, paid 0 s <-> frame_ok s.
Proof. intros s. split; intros (k & H); exists k; lia. Qed.

Lemma frame_ok_fresh : forall g, frame_ok (mkM g 0 0).
Proof. intros g. exists 0. split; reflexivity. Qed.

Lemma frame_ok_words : forall s, frame_ok s -> m_mem s = 32 * words_of s /\ m_last s = mem_gas (words_of s).
Proof. intros s (k & Hm & Hl). rewrite (words_of_32 s k Hm). split; [exact Hm|exact Hl]. Qed.

Lemma metered_step_acct : forall T, jumptable_metered T = true ->
  forall op a s s', frame_ok s -> step T op a s = (VOk, s') ->
    frame_ok s' /\ words_of s <= words_of s' /\
    m_gas s' + a_cgas a + other_of T op a + mem_gas (words_of s') <= m_gas s + mem_gas (words_of s).
Proof.
  intros T Hm op a s s' Hs Hstep.
  destruct (step_acct T 0 op a s s' (proj2 (paid_0 s) Hs) (metered_req_le T 0 op a Hm) Hstep)
    as (Hs' & Hmem & Hacc).
  apply paid_0 in Hs'.
  destruct (frame_ok_words s Hs) as (Hm0 & <-), (frame_ok_words s' Hs') as (Hm1 & <-).
  rewrite Hm0, Hm1 in Hmem.
  repeat split; [exact Hs'|exact (proj2 (N.mul_le_mono_pos_l _ _ 32 eq_refl) Hmem)|exact Hacc].
Qed.

Definition finv (G : N) (fs : list mstate) : Prop :=
  Forall frame_ok fs /\ total_mem_gas fs + total_gas fs <= G.

Lemma finv_init : forall G, finv G [init G].
Proof.
  intros G. split.
  - constructor; [apply frame_ok_fresh|constructor].
  - cbn. lia.
Qed.

Lemma finv_fstep : forall T, jumptable_metered T = true ->
  forall G f fs fs', finv G fs -> fstep T f fs = Some fs' -> finv G fs'.
Proof.
  intros T Hm G f fs fs' (Hall & Hsum) Hf.
  destruct f as [op a|op a g1 g2|refund]; cbn in Hf.
  - destruct fs as [|s rest]; [discriminate|].
    destruct (step T op a s) as [[] s1] eqn:Hstep; try discriminate.
    injection Hf as <-. inversion Hall as [|x l Hs Hrest]; subst.
    destruct (metered_step_acct T Hm op a s s1 Hs Hstep) as (Hok1 & _ & Hacc).
    split; [constructor; assumption|].
    cbn [total_mem_gas total_gas sumN map fold_right] in *. lia.
  - destruct fs as [|s rest]; [discriminate|].
    destruct (lookup T op) as [r0|] eqn:Hl0; [|discriminate].
    destruct (step T op a s) as [[] s1] eqn:Hstep; try discriminate.
    destruct (a_other a) as [o|] eqn:Ho; [|discriminate].
    destruct (r_has_dyn r0) eqn:Ehd; [|discriminate].
    destruct (N.leb_spec g1 o) as [Eg1|]; [|discriminate].
    destruct (N.leb_spec g2 (m_gas s1)) as [Eg2|]; [|discriminate].
    injection Hf as <-. inversion Hall as [|x l Hs Hrest]; subst.
    destruct (metered_step_acct T Hm op a s s1 Hs Hstep) as (Hok1 & _ & Hacc).
    (* the step charged o, and g1 <= o: the child's gas comes out of what the parent paid or holds *)
    unfold other_of in Hacc. rewrite Hl0, Ehd, Ho in Hacc.
    split.
    + constructor; [apply frame_ok_fresh|]. constructor; [exact Hok1|exact Hrest].
    + cbn [total_mem_gas total_gas sumN map fold_right m_gas] in *.
      change (words_of (mkM (g1 + g2) 0 0)) with 0.
      change (words_of (mkM (m_gas s1 - g2) (m_mem s1) (m_last s1))) with (words_of s1).
      rewrite mem_gas_0. lia.
  - destruct fs as [|c [|p rest]]; try discriminate.
    destruct (N.leb_spec refund (m_gas c)) as [Er|]; [|discriminate].
    injection Hf as <-.
    inversion Hall as [|x l Hc Hrest]; subst. inversion Hrest as [|x l Hp Hrest']; subst.
    split.
    + constructor; [exact Hp|exact Hrest'].
    + cbn [total_mem_gas total_gas sumN map fold_right m_gas] in *.
      change (words_of (mkM (m_gas p + refund) (m_mem p) (m_last p))) with (words_of p). lia.
Qed.

Lemma finv_frun : forall T, jumptable_metered T = true ->
  forall G fp fs fs', finv G fs -> frun T fp fs = Some fs' -> finv G fs'.
Proof.
  intros T Hm G fp. induction fp as [|f fp IH]; intros fs fs' Hinv Hrun.
  - injection Hrun as <-. exact Hinv.
  - cbn in Hrun. destruct (fstep T f fs) as [fs1|] eqn:Hf; [|discriminate].
    apply (IH fs1 fs' (finv_fstep T Hm G f fs fs1 Hinv Hf) Hrun).
Qed.

Lemma total_words_linear : forall fs, 3 * total_words fs <= total_mem_gas fs.
Proof.
  induction fs as [|s fs IH]; [cbn; lia|].
  change (3 * (words_of s + total_words fs) <= mem_gas (words_of s) + total_mem_gas fs).
  pose proof (mem_gas_linear (words_of s)). lia.
Qed.

Definition ex_req_bounded (ex : list N) (U : N) (p : prog) : bool :=
  forallb (fun oa => negb (existsb (N.eqb (fst oa)) ex) ||
                     match a_req (snd oa) with Some m => to_words m * 32 <=? U | None => true end) p.

Lemma except_req_le : forall ex T U p,
  jumptable_metered_except ex T = true -> ex_req_bounded ex U p = true ->
  forall op a, In (op, a) p -> req_le T U op a.
Proof.
  intros ex T U p Hex Hp op a Hin r ms Hl Hms E.
  apply (proj1 (forallb_forall _ _) Hp) in Hin.
  destruct (lookup_forallb _ T op r Hex Hl) as (HinT & <-).
  (* the row is not metered, so its opcode is excepted, so the program bounds what it asks *)
  rewrite E in HinT. cbn in Hin, HinT. rewrite HinT in Hin. cbn in Hin.
  unfold mem_size_of in Hms. destruct (r_has_mem r); [|injection Hms as <-; apply N.le_0_l].
  destruct (a_req a) as [m|]; [|discriminate].
  destruct (U64 <=? to_words m * 32); [discriminate|]. injection Hms as <-. apply N.leb_le, Hin.
Qed.

Lemma excepted_memory_bound : forall ex T U G p v s,
  jumptable_metered_except ex T = true ->
  ex_req_bounded ex U p = true ->
  run T p (init G) = (v, s) ->
  m_mem s <= N.max (32 * N.sqrt (512 * G + 511)) U /\ m_gas s <= G.
Proof.
  intros ex T U G p v s Hex Hp Hrun.
  destruct (run_acct T U G p (init G) v s (paid_init U G) (N.le_refl G) (except_req_le ex T U p Hex Hp) Hrun)
    as (k & _ & Hhi & Hg & _).
  destruct (mem_gas_bound_words k G) as (Hsq & _); lia.
Qed.
