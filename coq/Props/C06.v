(* C06 — Block execution is deterministic and header commitments equal stored state.
   Property theorems, each followed by [Print Assumptions], and non-vacuity examples.
   Model: Model/C06.v   Lemmas: Proofs/C06_Acc.v, C06_Db.v, C06.v, C06_Sto.v, C06_R3.v, C06_Sw.v *)
From Coq Require Import List NArith ZArith Bool Permutation Lia.
From GQ Require Import Model.C06 Proofs.C06_Acc Proofs.C06_Db Proofs.C06 Proofs.C06_Sto Proofs.C06_R3 Proofs.C06_Sw.
Import ListNotations.
Local Open Scope N_scope.

(* ---- 1. order independence: the algebraic reason goroutine completion order cannot matter ---- *)

(* The accumulator after a block is the same element of the free abelian group for ANY permutation of the
   created list, ANY permutation of the deleted list and ANY interleaving of the per-denomination TrimBlock
   result lists (each goroutine appends under the mutex in an arbitrary global order). *)
Theorem acc_order_independent : forall a cr cr' de de' trs tr',
  Permutation cr cr' -> Permutation de de' -> interleave trs tr' ->
  ceq (acc_removes (acc_adds a cr) (de ++ concat trs)) (acc_removes (acc_adds a cr') (de' ++ tr')).
Proof.
  intros a cr cr' de de' trs tr' P1 P2 Hi.
  exact (block_acc_perm a cr cr' de de' (concat trs) tr' P1 P2 (interleave_perm _ trs tr' Hi)).
Qed.
Print Assumptions acc_order_independent.

(* Equal in the free abelian group implies equal under every homomorphism into an abelian group; MuHash
   (multiSet.Add = multiply by H(e), multiSet.Remove = multiply by its inverse, in the multiplicative group modulo a prime) is one. *)
Theorem accumulator_value_respects_group_equality :
  forall (G : Type) (op : G -> G -> G) (inv : G -> G) (one : G) (H : elem -> G),
  (forall x y z, op x (op y z) = op (op x y) z) -> (forall x y, op x y = op y x) ->
  (forall x, op one x = x) -> (forall x, op (inv x) x = one) ->
  forall a b, ceq a b -> mu G op inv one H a = mu G op inv one H b.
Proof. exact mu_ceq. Qed.
Print Assumptions accumulator_value_respects_group_equality.

(* hence the UTXO root computed by Finalize does not depend on list order or goroutine interleaving *)
Theorem root_order_independent :
  forall (G : Type) (op : G -> G -> G) (inv : G -> G) (one : G) (H : elem -> G),
  (forall x y z, op x (op y z) = op (op x y) z) -> (forall x y, op x y = op y x) ->
  (forall x, op one x = x) -> (forall x, op (inv x) x = one) ->
  forall a cr cr' de de' trs tr',
  Permutation cr cr' -> Permutation de de' -> interleave trs tr' ->
  mu G op inv one H (acc_removes (acc_adds a cr) (de ++ concat trs))
  = mu G op inv one H (acc_removes (acc_adds a cr') (de' ++ tr')).
Proof.
  intros G op inv one H A C O I a cr cr' de de' trs tr' P1 P2 Hi.
  exact (mu_ceq G op inv one H A C O I _ _ (acc_order_independent a cr cr' de de' trs tr' P1 P2 Hi)).
Qed.
Print Assumptions root_order_independent.

(* the database content and the set size after trimming do not depend on the interleaving either *)
Theorem trim_interleaving_irrelevant : forall trs tr' d, db_ok d -> interleave trs tr' ->
  dels (concat trs) d = dels tr' d /\ length (concat trs) = length tr'.
Proof.
  intros trs tr' d Hok Hi. pose proof (interleave_perm _ trs tr' Hi) as P.
  split; [apply dels_perm; assumption|apply Permutation_length, P].
Qed.
Print Assumptions trim_interleaving_irrelevant.

(* all of Finalize's outputs at once: for any interleaving tr' of the goroutines' (key, element) results the
   content written, the set size decrement and the accumulator (as a group element) are the same *)
Theorem finalize_schedule_independent : forall s ops (trs : list (list (key * elem))) tr',
  db_ok (s_db s) -> interleave trs tr' ->
  let d1 := fst (fst (run_ops (s_db s) ops)) in
  let cr := snd (fst (run_ops (s_db s) ops)) in
  let de := snd (run_ops (s_db s) ops) in
  dels (concat trs) d1 = dels tr' d1
  /\ length (concat trs) = length tr'
  /\ ceq (acc_removes (acc_adds (s_acc s) cr) (de ++ map snd (concat trs)))
         (acc_removes (acc_adds (s_acc s) cr) (de ++ map snd tr')).
Proof.
  intros s ops trs tr' Hok Hi d1 cr de.
  destruct (trim_interleaving_irrelevant trs tr' d1 (run_ops_ok ops _ Hok) Hi) as [A B].
  split; [exact A|]. split; [exact B|].
  apply block_acc_perm; [reflexivity|reflexivity|apply Permutation_map, interleave_perm, Hi].
Qed.
Print Assumptions finalize_schedule_independent.

Example interleave_nonvacuous :
  interleave [[1; 2]; [3]; [4; 5]] [4; 1; 3; 5; 2] /\ [4; 1; 3; 5; 2] <> concat [[1; 2]; [3]; [4; 5]].
Proof.
  split; [|discriminate].
  apply (il_step [[1; 2]; [3]] 4 [5] []).
  apply (il_step [] 1 [2] [[3]; [5]]).
  apply (il_step [[2]] 3 [] [[5]]).
  apply (il_step [[2]; []] 5 [] []).
  apply (il_step [] 2 [] [[]; []]).
  apply il_done. repeat constructor.
Qed.

(* ---- 2. commitment = content ---- *)

(* One block: if the parent commitment describes the parent content (accumulator = sum of live elements,
   size = their number) and the block's lists are exactly its database delta (created keys fresh, candidate
   keys distinct, NO ELEMENT BOTH TRIMMED AND TOUCHED BY THE BLOCK'S OWN OPERATIONS), the child commitment
   describes the child content. *)
Theorem commitment_equals_content_step : forall s ops cands,
  Inv s -> creates_fresh (s_db s) ops -> NoDup (map fst (concat cands)) ->
  trim_disjoint s ops cands -> fits64 ParentDb s ops cands ->
  exists s', finalize ParentDb s ops cands = Some (s', map fst (trimmed ParentDb s ops cands)) /\ Inv s'.
Proof.
  intros s ops cands HI Hf Hnd Hd Hfit.
  exact (delta_faithful_inv ParentDb s (ops, cands) HI (conj Hf (conj Hnd (conj Hd Hfit)))).
Qed.
Print Assumptions commitment_equals_content_step.

(* Every chain of faithful blocks from genesis. *)
Theorem commitment_equals_content : forall bs,
  chain_faithful ParentDb genesis bs ->
  exists s, run_chain ParentDb genesis bs = Some s /\ Inv s.
Proof. intros bs H. exact (chain_faithful_inv ParentDb bs genesis genesis_inv H). Qed.
Print Assumptions commitment_equals_content.

(* ... and the stored root is then the MuHash of exactly the live entries *)
Theorem root_is_muhash_of_content :
  forall (G : Type) (op : G -> G -> G) (inv : G -> G) (one : G) (H : elem -> G),
  (forall x y z, op x (op y z) = op (op x y) z) -> (forall x y, op x y = op y x) ->
  (forall x, op one x = x) -> (forall x, op (inv x) x = one) ->
  forall s, Inv s -> mu G op inv one H (s_acc s) = mu G op inv one H (of_content (content (s_db s))).
Proof.
  intros G op inv one H A C O I s [_ [Hc _]]. exact (mu_ceq G op inv one H A C O I _ _ Hc).
Qed.
Print Assumptions root_is_muhash_of_content.

(* the boolean the correspondence check evaluates is exactly the commitment part of Inv *)
Theorem commit_ok_decides_commitment : forall s, commit_ok s = true <->
  (ceq (s_acc s) (of_content (content (s_db s))) /\ s_size s = N.of_nat (length (s_db s))).
Proof. intros s. unfold commit_ok. rewrite andb_true_iff, acc_eqb_spec, N.eqb_eq. reflexivity. Qed.
Print Assumptions commit_ok_decides_commitment.

Definition ex_s : st := mkSt [(1, 10); (2, 20); (3, 30)] (of_content [10; 20; 30]) 3.
Definition ex_ops : list op := [Spend 1; Create 4 40; Update 5 50; Update 5 51].
Definition ex_cands : list (list cand) := [[(2, true); (9, true)]; [(3, false)]].

Example commitment_step_nonvacuous :
  Inv ex_s /\ creates_fresh (s_db ex_s) ex_ops /\ NoDup (map fst (concat ex_cands))
  /\ trim_disjoint ex_s ex_ops ex_cands /\ fits64 ParentDb ex_s ex_ops ex_cands
  /\ trimmed ParentDb ex_s ex_ops ex_cands = [(2, 20)]
  /\ exists s' tr, finalize ParentDb ex_s ex_ops ex_cands = Some (s', tr)
       /\ s_db s' = [(3, 30); (4, 40); (5, 51)] /\ s_size s' = 3 /\ tr = [2].
Proof.
  split; [apply (inv_of_content [(1, 10); (2, 20); (3, 30)]); cbn; repeat split; reflexivity|].
  split; [cbn; repeat split; reflexivity|].
  split; [cbn; repeat constructor; cbn; intuition discriminate|].
  split.
  { intros kv Hi. vm_compute in Hi. destruct Hi as [<-|[]]. vm_compute. reflexivity. }
  split; [split; vm_compute; reflexivity|].
  split; [vm_compute; reflexivity|].
  eexists _, _. split; [vm_compute; reflexivity|]. repeat split; reflexivity.
Qed.

Example chain_nonvacuous :
  chain_faithful ParentDb genesis
    [([Create 1 10; Create 2 20; Create 3 30], []); (ex_ops, ex_cands)].
Proof.
  eapply chain_faithful_cons; [|vm_compute; reflexivity|].
  { split; [cbn; repeat split; reflexivity|]. split; [constructor|]. split; [intros kv []|].
    split; vm_compute; reflexivity. }
  (* the first block leaves [ex_s] *)
  destruct commitment_step_nonvacuous as (_ & Hf & Hnd & Hd & Hfit & _).
  eapply chain_faithful_cons; [exact (conj Hf (conj Hnd (conj Hd Hfit)))|vm_compute; reflexivity|exact I].
Qed.

(* ---- 3. the set-size counter ---- *)

(* Under the same hypotheses Finalize's uint64 arithmetic is exact: the "size < deletes" error cannot
   fire and no decrement wraps around. *)
Theorem size_never_underflows : forall s ops cands,
  Inv s -> creates_fresh (s_db s) ops -> NoDup (map fst (concat cands)) ->
  trim_disjoint s ops cands -> fits64 ParentDb s ops cands ->
  exists s' tr, finalize ParentDb s ops cands = Some (s', tr)
    /\ (Z.of_nat (length (ops_deleted s ops)) <= Z.of_N (s_size s) + Z.of_nat (length (ops_created s ops)))%Z
    /\ (Z.of_nat (length tr) <= Z.of_N (s_size s) + Z.of_nat (length (ops_created s ops)) - Z.of_nat (length (ops_deleted s ops)))%Z
    /\ Z.of_N (s_size s') = (Z.of_N (s_size s) + Z.of_nat (length (ops_created s ops))
                             - Z.of_nat (length (ops_deleted s ops)) - Z.of_nat (length tr))%Z.
Proof.
  intros s ops cands HI Hf Hnd Hd Hfit.
  destruct (step_live ParentDb s ops cands HI Hf Hnd Hd Hfit) as (s' & E & (_ & _ & Hsz') & L1 & L2).
  exists s', (map fst (trimmed ParentDb s ops cands)). split; [exact E|].
  destruct HI as (_ & _ & Hsz). rewrite Hsz', Hsz, map_length. lia.
Qed.
Print Assumptions size_never_underflows.

(* ---- 4. the converse: trimmed and spent in the same block (finding F5) ---- *)

(* FULL STATEMENT that one would want and that is FALSE for the code as it is (TrimBlock reads the
   committed parent database, not the block's batch):
     forall s ops cands, Inv s -> creates_fresh (s_db s) ops -> NoDup (map fst (concat cands)) ->
       fits64 ParentDb s ops cands -> exists s' tr, finalize ParentDb s ops cands = Some (s', tr) /\ Inv s'.
   Witness: content {1->10, 2->20}; the block spends key 1, and key 1 (unlocked, trimmable denomination)
   was created at height number - depth, so TrimBlock of the same block trims it as well. *)
Definition f5_s : st := mkSt [(1, 10); (2, 20)] (of_content [10; 20]) 2.
Definition f5_ops : list op := [Spend 1].
Definition f5_cands : list (list cand) := [[(1, true)]].

Theorem trim_and_spend_same_block_refuted :
  exists s ops cands,
    Inv s /\ creates_fresh (s_db s) ops /\ NoDup (map fst (concat cands)) /\ fits64 ParentDb s ops cands
    /\ exists s' tr, finalize ParentDb s ops cands = Some (s', tr)
         /\ s_db s' = [(2, 20)]                 (* one live entry ... *)
         /\ s_size s' = 0                       (* ... but the committed size is 0 *)
         /\ count (s_acc s') 10 = (-1)%Z        (* ... and the spent element was removed twice *)
         /\ commit_ok s' = false /\ ~ Inv s'.
Proof.
  exists f5_s, f5_ops, f5_cands.
  split; [apply (inv_of_content [(1, 10); (2, 20)]); cbn; repeat split; reflexivity|].
  split; [cbn; repeat split|].
  split; [cbn; repeat constructor; cbn; intuition|].
  split; [split; vm_compute; reflexivity|].
  eexists _, _. split; [vm_compute; reflexivity|].
  split; [reflexivity|]. split; [reflexivity|]. split; [vm_compute; reflexivity|].
  split; [vm_compute; reflexivity|].
  intros [_ [_ Hs]]. vm_compute in Hs. discriminate.
Qed.
Print Assumptions trim_and_spend_same_block_refuted.

(* with a single live entry the second decrement wraps the uint64 counter *)
Theorem size_wraps_refuted :
  exists s ops cands,
    Inv s /\ creates_fresh (s_db s) ops /\ NoDup (map fst (concat cands)) /\ fits64 ParentDb s ops cands
    /\ exists s' tr, finalize ParentDb s ops cands = Some (s', tr)
         /\ s_db s' = [] /\ s_size s' = 18446744073709551615.
Proof.
  exists (mkSt [(1, 10)] (of_content [10]) 1), [Spend 1], [[(1, true)]].
  split; [apply (inv_of_content [(1, 10)]); cbn; repeat split|].
  split; [cbn; repeat split|].
  split; [cbn; repeat constructor; cbn; intuition|].
  split; [split; vm_compute; reflexivity|].
  eexists _, _. split; [vm_compute; reflexivity|]. split; reflexivity.
Qed.
Print Assumptions size_wraps_refuted.

(* Strongest true statement about the code as it is (_partial): for every block whose operations do not
   re-write a candidate key, the child accumulator is the child content MINUS exactly the elements that
   were both spent and trimmed ([doubled]), and the child size is the number of live entries minus their
   number, modulo 2^64.  [commitment_equals_content_step] is the case doubled = []. *)
Theorem commitment_divergence_exact_partial : forall s ops cands,
  Inv s -> creates_fresh (s_db s) ops -> NoDup (map fst (concat cands)) ->
  (forall c, In c (concat cands) -> ~ In (fst c) (put_keys ops)) ->
  fits64 ParentDb s ops cands ->
  exists s', finalize ParentDb s ops cands = Some (s', map fst (trimmed ParentDb s ops cands))
    /\ db_ok (s_db s')
    /\ (forall x, count (s_acc s') x = (occ (content (s_db s')) x - occ (doubled ParentDb s ops cands) x)%Z)
    /\ Z.of_N (s_size s')
       = ((Z.of_nat (length (s_db s')) - Z.of_nat (length (doubled ParentDb s ops cands))) mod W64z)%Z.
Proof.
  intros s ops cands HI Hf Hnd Hnp Hfit.
  destruct (finalize_general ParentDb s ops cands HI Hf Hnd) as (s' & E & Hok & _ & _ & Hc & Hs);
    [|exact (proj2 Hfit)|exists s'; auto].
  (* a trimmed entry is live in the parent; its key is a candidate key, which the block does not write *)
  intros kv Hi. apply in_trimmed in Hi. destruct Hi as [Hcand Hv].
  destruct (ops_db_get s ops (fst kv) (proj1 HI) (Hnp _ Hcand)) as [G|G]; rewrite G;
    [left; exact Hv|right; reflexivity].
Qed.
Print Assumptions commitment_divergence_exact_partial.

Example divergence_nonvacuous :
  doubled ParentDb f5_s f5_ops f5_cands = [10]
  /\ (forall c, In c (concat f5_cands) -> ~ In (fst c) (put_keys f5_ops)).
Proof. split; [vm_compute; reflexivity|]. intros c _ []. Qed.

(* ---- 5. the proposed repair ---- *)

(* If TrimBlock looks the candidates up in the state AFTER the block's own operations (skips what the
   block already deleted), commitment = content holds for every block with fresh created keys, with no
   disjointness hypothesis, and so for every chain. *)
Theorem repaired_trim_restores_commitment : forall s ops cands,
  Inv s -> creates_fresh (s_db s) ops -> NoDup (map fst (concat cands)) ->
  fits64 AfterOps s ops cands ->
  exists s', finalize AfterOps s ops cands = Some (s', map fst (trimmed AfterOps s ops cands)) /\ Inv s'.
Proof.
  intros s ops cands HI Hf Hnd Hfit.
  exact (delta_faithful_inv AfterOps s (ops, cands) HI (conj Hf (conj Hnd (conj I Hfit)))).
Qed.
Print Assumptions repaired_trim_restores_commitment.

Theorem repaired_trim_chain : forall bs,
  chain_faithful AfterOps genesis bs ->
  exists s, run_chain AfterOps genesis bs = Some s /\ Inv s.
Proof. intros bs H. exact (chain_faithful_inv AfterOps bs genesis genesis_inv H). Qed.
Print Assumptions repaired_trim_chain.

Example repaired_nonvacuous :
  exists s' tr, finalize AfterOps f5_s f5_ops f5_cands = Some (s', tr)
    /\ tr = [] /\ s_db s' = [(2, 20)] /\ s_size s' = 1 /\ commit_ok s' = true.
Proof. eexists _, _. split; [vm_compute; reflexivity|]. repeat split; vm_compute; reflexivity. Qed.

(* ---- 6. state commitments do not depend on the snapshot configuration / cache warmth ---- *)

(* One block on one account: any sequence of SLOADs, SSTOREs and re-creations of the account (CreateAccount over
   the existing or self-destructed object) followed by the single updateTrie of IntermediateRoot.  Whether
   state.New found a snapshot layer for the parent root (words read from the layer, zero word for an account
   destructed in this block), found one whose reads fail because the generator is still running after a restart
   (fall back to the trie), or found none (words read from the trie): the storage content committed, the account's
   Size field and every word the EVM read are the same.  [p] = storage of the account in the parent state, which
   is also what the layer holds for it; [sz] = its Size there. *)
Theorem storage_commitment_independent_of_snapshot_layer : forall src p sz pre,
  forallb not_root pre = true ->
  sto_block src p sz (pre ++ [SRoot]) = sto_block NoSnap p sz (pre ++ [SRoot]).
Proof.
  intros src p sz pre Hn. destruct (has_layer src) eqn:Hl; [|destruct src; [reflexivity|discriminate Hl..]].
  unfold sto_block. symmetry. apply run_sto_sim; [exact Hl|exact Hn|]. apply srel_same; reflexivity.
Qed.
Print Assumptions storage_commitment_independent_of_snapshot_layer.

(* deployment at a pre-existing account with storage, old slots overwritten, a fresh slot set and cleared again *)
Example storage_independent_nonvacuous :
  let p := [(1, 9); (2, 8)] in
  let pre := [SGet 1; SSet 3 4; SCreate true; SSet 1 5; SSet 2 6; SGet 3; SSet 3 7; SSet 3 0; SGet 9] in
  forallb not_root pre = true
  /\ sto_block SnapLayer p 2%Z (pre ++ [SRoot]) = ([(1, 5); (2, 6)], 4%Z, [9; 0; 0])
  /\ sto_block SnapFails p 2%Z (pre ++ [SRoot]) = ([(1, 5); (2, 6)], 4%Z, [9; 0; 0])
  /\ sto_block NoSnap p 2%Z (pre ++ [SRoot]) = ([(1, 5); (2, 6)], 4%Z, [9; 0; 0]).
Proof. repeat split; vm_compute; reflexivity. Qed.

(* The hypothesis "one updateTrie per StateDB" is needed by the code as it is: with a second IntermediateRoot
   in the lifetime of the same StateDB the Size of a re-created account depends on the layer (the destructed
   early return of GetCommittedState does not cache the zero word in originStorage; after uniqueNewKeysStorage was
   reset the slot is probed and counted again, while the run without a layer answers from originStorage and does
   not count it).  Process / ValidateState / the worker call IntermediateRoot once, after the last transaction;
   the harness replays this witness on the real StateDB (storage corpus, kind "two-epochs").
   Full statement (refuted): forall src p sz ops, sto_block src p sz ops = sto_block NoSnap p sz ops. *)
Theorem storage_second_update_depends_on_layer_refuted :
  exists p sz ops, sto_block SnapLayer p sz ops <> sto_block NoSnap p sz ops.
Proof.
  exists [], 0%Z, [SCreate false; SGet 1; SSet 2 5; SRoot; SSet 1 7; SRoot].
  (* Size 2 with a layer, 1 without *)
  vm_compute. discriminate.
Qed.
Print Assumptions storage_second_update_depends_on_layer_refuted.

(* ---- 8. after the node switched its head BACK: the header of the new head describes the stored state ---- *)

(* One iteration of the rollback loop of HeaderChain.SetCurrentHeader (restore ReadSpentUTXOs ++ ReadTrimmedUTXOs, then
   delete ReadCreatedUTXOKeys, both into one batch) applied to the database the block left gives back EXACTLY the
   parent's UTXO set - hence the parent header's UTXORoot / set size, which described that set, describe the database
   again.  For every block of Qi operations whose created keys are new (fresh transaction hashes), INCLUDING blocks in
   which a transaction spends an output created earlier in the same block (listed in both undo records), and with the
   outputs the block trimmed. *)
Theorem head_switch_restores_parent_utxo_set : forall s ops cands d',
  db_ok (s_db s) -> forallb is_ut ops = true -> creates_new (s_db s) ops ->
  rollback_block RestoreThenDelete ParentDb s ops cands = Some d' -> d' = s_db s.
Proof.
  intros s ops cands d' Hok Hut Hnew H. rewrite rollback_block_eq in H.
  destruct (finalize ParentDb s ops cands) as [[s' trk]|] eqn:F; [|discriminate H].
  injection H as <-. exact (undo_block_restores s ops cands s' trk Hok Hut Hnew F).
Qed.
Print Assumptions head_switch_restores_parent_utxo_set.

(* the same for any trimmed record whose entries are entries of the parent's set (covers the repaired trim view) *)
Theorem rollback_restores_committed_content : forall d ops tr,
  db_ok d -> forallb is_ut ops = true -> creates_new d ops ->
  (forall kv, In kv tr -> db_get d (fst kv) = Some (snd kv)) ->
  let '(d1, _, _) := run_ops d ops in
  let '(sp, cr) := undo_records d ops in
  undo RestoreThenDelete (sp ++ tr) cr (dels tr d1) = d.
Proof.
  intros d ops tr Hok Hut Hnew Htr. pose proof (rollback_restores d ops tr Hok Hut Hnew Htr) as R.
  destruct (run_ops d ops) as [[d1 c1] x1]. destruct (undo_records d ops) as [sp cr]. exact R.
Qed.
Print Assumptions rollback_restores_committed_content.

(* parent {1->10, 2->20}; the block spends 1, creates 3, spends 3 again (intra-block chain), creates 4; output 2 is trimmed *)
Example head_switch_nonvacuous :
  let s := mkSt [(1, 10); (2, 20)] (of_content [10; 20]) 2 in
  let ops := [Spend 1; Create 3 30; Spend 3; Create 4 40] in
  let cands := [[(2, true)]] in
  db_ok (s_db s) /\ forallb is_ut ops = true /\ creates_new (s_db s) ops
  /\ undo_records (s_db s) ops = ([(1, 10); (3, 30)], [3; 4])
  /\ option_map (fun r => s_db (fst r)) (finalize ParentDb s ops cands) = Some [(4, 40)]
  /\ rollback_block RestoreThenDelete ParentDb s ops cands = Some [(1, 10); (2, 20)].
Proof.
  cbn zeta. split; [cbn; repeat split; lia|]. split; [reflexivity|]. split.
  - apply creates_new_Forall. repeat constructor.
  - repeat split; vm_compute; reflexivity.
Qed.

(* The order of the two loops is part of the property.  Full statement for the swapped order (refuted):
     forall d ops, db_ok d -> forallb is_ut ops = true -> creates_new d ops ->
       undo DeleteThenRestore (spent records) (created keys) (database after the block) = d.
   Witness: empty parent set, a block that creates an output and spends it again: the swapped order resurrects it. *)
Theorem swapped_rollback_order_resurrects_output_refuted :
  exists d ops, db_ok d /\ forallb is_ut ops = true /\ creates_new d ops /\
    let '(d1, _, _) := run_ops d ops in
    let '(sp, cr) := undo_records d ops in
    undo RestoreThenDelete sp cr d1 = d /\ undo DeleteThenRestore sp cr d1 = [(1, 10)] /\ d = [].
Proof.
  exists [], [Create 1 10; Spend 1]. split; [exact I|]. split; [reflexivity|]. split; [intros k e _; reflexivity|].
  vm_compute. repeat split.
Qed.
Print Assumptions swapped_rollback_order_resurrects_output_refuted.

(* strongest true statement about the swapped order: it agrees with the source order exactly when no key is in both
   undo records, i.e. it is only wrong for outputs created and spent / trimmed inside the rolled-back block *)
Theorem rollback_order_only_matters_for_intra_block_chains_partial : forall sp cr d, db_ok d ->
  (forall k, In k cr -> ~ In k (map fst sp)) ->
  undo DeleteThenRestore sp cr d = undo RestoreThenDelete sp cr d.
Proof.
  intros sp cr d Hok Hdis. cbn [undo].
  apply db_ext; [apply puts_ok, delks_ok, Hok|apply delks_ok, puts_ok, Hok|].
  intros k. rewrite get_puts by (apply delks_ok, Hok).
  rewrite !get_delks by (try apply puts_ok; exact Hok).
  rewrite get_puts by exact Hok.
  destruct (memN k cr) eqn:M; [|reflexivity].
  apply memN_In in M. rewrite (last_bind_none sp k (Hdis k M)). reflexivity.
Qed.
Print Assumptions rollback_order_only_matters_for_intra_block_chains_partial.

(* ---- 9. the block batch shared by the TrimBlock goroutines ---- *)

(* With every batch.Delete inside the trim lock (the source as it is) the batch hands exactly the trimmed keys to
   the database: for ANY attribution of the deletes to goroutines and ANY order in which the goroutines get the
   lock the database after the block is the one [finalize] computes (so theorems 4/4b/5 speak about what is stored). *)
Theorem locked_trim_deletes_schedule_independent : forall d tr ks,
  db_ok d -> Permutation (map snd ks) (map fst tr) ->
  sched_wf [] (locked_sched ks) = true
  /\ delks (written (run_sched empty_buf [] (locked_sched ks))) d = dels tr d.
Proof.
  intros d tr ks Hok P. split; [apply locked_sched_wf|].
  rewrite locked_written, dels_delks. apply delks_perm; assumption.
Qed.
Print Assumptions locked_trim_deletes_schedule_independent.

Example locked_trim_deletes_nonvacuous :
  let ks := [(5, 7); (0, 1); (5, 9); (3, 4)] in
  written (run_sched empty_buf [] (locked_sched ks)) = [7; 1; 9; 4]
  /\ delks [7; 1; 9; 4] [(1, 10); (4, 40); (6, 60); (7, 70); (9, 90)] = [(6, 60)].
Proof. split; vm_compute; reflexivity. Qed.

(* The lock is part of the property.  Full statement without it (refuted): for every well-formed schedule of the
   goroutines' read-length / write-record steps the committed state describes the database.  Witness: two
   denominations with one output each; both goroutines read the buffer length before either writes: the second record
   overwrites the first, one Delete never reaches the database, while multiset and set size (updated under the
   lock) account for both: UTXO root and set size no longer describe the stored set. *)
Theorem unlocked_batch_loses_delete_refuted :
  exists s ops cands sched s' trk,
    commit_ok s = true /\ finalize ParentDb s ops cands = Some (s', trk) /\ commit_ok s' = true /\
    sched_wf [] sched = true /\ ewrites sched = trk /\
    let d1 := fst (fst (run_ops (s_db s) ops)) in
    commit_ok (mkSt (delks (written (run_sched empty_buf [] sched)) d1) (s_acc s') (s_size s')) = false.
Proof.
  exists (mkSt [(1, 10); (2, 20)] (of_content [10; 20]) 2), [], [[(1, true)]; [(2, true)]],
         [ERead 0; ERead 1; EWrite 0 1; EWrite 1 2].
  eexists. eexists. split; [reflexivity|]. split; [vm_compute; reflexivity|]. repeat split; reflexivity.
Qed.
Print Assumptions unlocked_batch_loses_delete_refuted.

(* ---- 10. the WHOLE rollback loop of SetCurrentHeader, any number of blocks ---- *)

(* [switch_back o tv s bs]: the blocks bs are appended on s, then the loop of SetCurrentHeader undoes them newest
   first, one batch per block, every iteration applied to the database the previous one left.  For every branch of
   blocks of Qi operations whose created keys are new when the block is appended (intra-block chains, trimmed outputs,
   outputs spent and trimmed in one block (F5), outputs created in one block of the branch and spent or trimmed in a
   later one) the loop ends with exactly the UTXO set of the common ancestor. *)
Theorem head_switch_restores_ancestor_utxo_set : forall bs s d,
  db_ok (s_db s) -> chain_rollbackable s bs ->
  switch_back RestoreThenDelete ParentDb s bs = Some d -> d = s_db s.
Proof. exact switch_back_restores. Qed.
Print Assumptions head_switch_restores_ancestor_utxo_set.

(* "undo . do = id" for the commitment: the header of the common ancestor (accumulator = UTXORoot, set size, both
   stored per block hash and not rewritten by the loop) describes the database again after the switch *)
Theorem head_switch_ancestor_header_describes_database : forall bs s d,
  Inv s -> chain_rollbackable s bs ->
  switch_back RestoreThenDelete ParentDb s bs = Some d ->
  commit_ok (mkSt d (s_acc s) (s_size s)) = true.
Proof.
  intros bs s d (Hok & Hacc & Hsz) Hc H.
  rewrite (switch_back_restores bs s d Hok Hc H).
  apply commit_ok_decides_commitment. split; assumption.
Qed.
Print Assumptions head_switch_ancestor_header_describes_database.

(* one iteration is theorem 18's rollback_block; the loop is defined for every branch that could be appended *)
Theorem head_switch_loop_generalises_one_iteration : forall o tv s,
  (forall b, switch_back o tv s [b] = rollback_block o tv s (fst b) (snd b))
  /\ (forall bs s', run_chain tv s bs = Some s' -> exists d, switch_back o tv s bs = Some d).
Proof.
  intros o tv s. split; [apply switch_back_one|].
  intros bs. revert s. induction bs as [|b t IH]; intros s s' R.
  - exists (s_db s). reflexivity.
  - cbn [run_chain] in R. cbn [switch_back].
    destruct (finalize tv s (fst b) (snd b)) as [[s1 trk]|]; [|discriminate R].
    destruct (IH s1 s' R) as [d Hd]. rewrite Hd. eexists. reflexivity.
Qed.
Print Assumptions head_switch_loop_generalises_one_iteration.

(* the swapped loop order over a branch of two blocks: the newer block is undone correctly, the output created and
   spent inside the OLDER block is resurrected (full statement for the swapped order refuted for branches too) *)
Theorem swapped_rollback_order_two_blocks_refuted :
  exists s bs, Inv s /\ chain_rollbackable s bs /\ length bs = 2%nat /\
    switch_back RestoreThenDelete ParentDb s bs = Some (s_db s) /\
    switch_back DeleteThenRestore ParentDb s bs = Some (s_db s ++ [(3, 30)]).
Proof.
  exists (mkSt [(1, 10)] (of_content [10]) 1),
         [([Create 3 30; Spend 3; Create 4 40], []); ([Spend 4; Create 5 50], [])].
  split.
  - apply (inv_of_content [(1, 10)]). cbn. repeat split.
  - split.
    + eapply chain_rollbackable_cons;
        [reflexivity|apply creates_new_Forall; repeat constructor|vm_compute; reflexivity|].
      eapply chain_rollbackable_cons;
        [reflexivity|apply creates_new_Forall; repeat constructor|vm_compute; reflexivity|].
      exact I.
    + split; [reflexivity|]. split; vm_compute; reflexivity.
Qed.
Print Assumptions swapped_rollback_order_two_blocks_refuted.

(* parent {1,2,6}; block A spends 1, creates 3 and spends it again, creates 4, output 2 is trimmed; block B spends 4
   (created by A), creates 5, output 6 is trimmed; block C spends 5: three iterations of the loop *)
Example head_switch_three_blocks_nonvacuous :
  let s := mkSt [(1, 10); (2, 20); (6, 60)] (of_content [10; 20; 60]) 3 in
  let bs := [([Spend 1; Create 3 30; Spend 3; Create 4 40], [[(2, true)]]);
             ([Spend 4; Create 5 50], [[(6, true)]]);
             ([Spend 5], [])] in
  Inv s /\ chain_rollbackable s bs
  /\ option_map s_db (run_chain ParentDb s bs) = Some []
  /\ switch_back RestoreThenDelete ParentDb s bs = Some [(1, 10); (2, 20); (6, 60)].
Proof.
  cbn zeta. split.
  - apply (inv_of_content [(1, 10); (2, 20); (6, 60)]). cbn. repeat split.
  - split.
    + eapply chain_rollbackable_cons;
        [reflexivity|apply creates_new_Forall; repeat constructor|vm_compute; reflexivity|].
      eapply chain_rollbackable_cons;
        [reflexivity|apply creates_new_Forall; repeat constructor|vm_compute; reflexivity|].
      eapply chain_rollbackable_cons;
        [reflexivity|apply creates_new_Forall; repeat constructor|vm_compute; reflexivity|].
      exact I.
    + split; vm_compute; reflexivity.
Qed.
