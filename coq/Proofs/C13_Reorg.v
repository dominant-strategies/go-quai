(* C13 — rolling a block of rewards back (HeaderChain.SetCurrentHeader with the undo records
   StateProcessor.Process writes) restores the lockup ledger exactly. *)
From Coq Require Import List NArith ZArith.
From GQ Require Import Lib.Key Lib.SMap Lib.Lists Generated.C13Params Model.C13 Proofs.C13.
Import ListNotations.
Import C13Params.
Local Open Scope N_scope.

(* the ledger after a block and the undo records of the block *)
Fixpoint collect (L : ledger) (ops : list op) : ledger * list leff :=
  match ops with
  | [] => (L, [])
  | o :: t => let '(L1, es) := collect (fst (step L o)) t in (L1, effects_of L o ++ es)
  end.

Definition no_claim (o : op) : Prop := match o with OClaim _ _ => False | _ => True end.

Definition is_created (k0 : key) (es : list leff) : bool :=
  existsb (fun e => match e with ECreated k => keqb k0 k | _ => false end) es.
Fixpoint first_del (k0 : key) (es : list leff) : option lkrec :=
  match es with
  | [] => None
  | EDeleted k r :: t => if keqb k0 k then Some r else first_del k0 t
  | _ :: t => first_del k0 t
  end.

Definition putf (l : ledger) (e : leff) : ledger := match e with EDeleted k r => put k r l | _ => l end.
Definition delf (l : ledger) (e : leff) : ledger := match e with ECreated k => del k l | _ => l end.

Lemma undo_block_eq es L : undo_block es L = fold_left delf es (fold_left putf (rev es) L).
Proof. reflexivity. Qed.

Lemma puts_sorted es L : sorted L -> sorted (fold_left putf es L).
Proof. apply fold_left_inv. intros M [k|k r] _ S; [exact S|apply put_sorted, S]. Qed.

Lemma dels_sorted es M : sorted M -> sorted (fold_left delf es M).
Proof. apply fold_left_inv. intros L [k|k r] _ S; [apply del_sorted, S|exact S]. Qed.

(* the first record of es is put back last *)
Lemma puts_get es k0 L :
  get k0 (fold_left putf (rev es) L) = match first_del k0 es with Some r => Some r | None => get k0 L end.
Proof.
  induction es as [|e t IH]; [reflexivity|]. cbn [rev first_del]. rewrite fold_left_app. cbn [fold_left].
  destruct e as [k|k r]; cbn [putf]; [exact IH|].
  rewrite get_put. destruct (keqb k0 k); [reflexivity|exact IH].
Qed.

Lemma dels_get es k0 : forall M, sorted M ->
  get k0 (fold_left delf es M) = if is_created k0 es then None else get k0 M.
Proof.
  induction es as [|e t IH]; intros M S; [reflexivity|]. cbn [fold_left is_created existsb].
  destruct e as [k|k r]; cbn [delf].
  - rewrite IH, get_del by (try apply del_sorted; exact S). fold (is_created k0 t).
    destruct (keqb k0 k), (is_created k0 t); reflexivity.
  - apply IH. exact S.
Qed.

Definition undone (es : list leff) (L : ledger) (k0 : key) : option lkrec :=
  if is_created k0 es then None else match first_del k0 es with Some r => Some r | None => get k0 L end.

Lemma undo_block_get es L k0 : sorted L -> get k0 (undo_block es L) = undone es L k0.
Proof.
  intros S. rewrite undo_block_eq, dels_get by (apply puts_sorted; exact S). rewrite puts_get. reflexivity.
Qed.

Lemma undo_block_sorted es L : sorted L -> sorted (undo_block es L).
Proof. intros S. apply dels_sorted, puts_sorted, S. Qed.

Lemma effects_add L a : nonzero_heights L ->
  effects_of L (OAdd a) =
    if add_guards L a then
      [match get (add_key a) L with Some r => EDeleted (add_key a) r | None => ECreated (add_key a) end]
    else [].
Proof.
  intros NZ. cbn [effects_of]. rewrite add_core_spec by exact NZ.
  destruct (add_guards L a); [|reflexivity]. cbn zeta.
  destruct (r_unlock (read L (add_key a)) =? 0) eqn:U.
  - rewrite (read_zero_none L _ NZ) by (apply N.eqb_eq; exact U). reflexivity.
  - rewrite (read_nonzero_some L (add_key a)) by (apply N.eqb_neq; exact U). reflexivity.
Qed.

Lemma collect_ledger ops : forall L, fst (collect L ops) = run_state L ops.
Proof.
  induction ops as [|o t IH]; intros L; [reflexivity|].
  cbn [collect]. rewrite run_state_cons, <- IH. destruct (collect (fst (step L o)) t). reflexivity.
Qed.

Lemma collect_undone ops : forall L, Inv L -> Forall op_wf ops -> Forall no_claim ops ->
  forall k0, undone (snd (collect L ops)) (fst (collect L ops)) k0 = get k0 L.
Proof.
  induction ops as [|o t IH]; intros L I W NC k0; [reflexivity|].
  inversion W as [|? ? Wo Wt]; subst. inversion NC as [|? ? NCo NCt]; subst.
  specialize (IH (fst (step L o)) (step_preserves_inv L o I Wo) Wt NCt k0).
  cbn [collect]. destruct (collect (fst (step L o)) t) as [L1 es]. cbn [fst snd] in *.
  destruct I as [S NZ]. destruct o as [a|m c|ow mi lb ep|ow mi lb h|].
  3-5: rewrite step_no_key in IH by reflexivity; exact IH.
  - rewrite effects_add by exact NZ. rewrite step_add_ledger in IH by exact NZ.
    destruct (add_guards L a); [|exact IH].
    unfold undone in *. rewrite get_put in IH. destruct (keqb k0 (add_key a)) eqn:Ek.
    + apply keqb_eq in Ek. subst k0.
      destruct (get (add_key a) L) as [r|]; cbn [app is_created existsb first_del]; rewrite keqb_refl; [|reflexivity].
      (* the key is present after this reward, so by IH the rest of the block has not recorded it as created *)
      fold (is_created (add_key a) es). destruct (is_created (add_key a) es); [discriminate|reflexivity].
    + destruct (get (add_key a) L); cbn [app is_created existsb first_del]; rewrite Ek; exact IH.
  - destruct NCo.
Qed.

(* the order matters: deleting the created keys FIRST and restoring afterwards leaves the first
   reward of an orphaned block in the ledger *)
Definition undo_block_swapped (es : list leff) (L : ledger) : ledger :=
  let L1 := fold_left delf es L in
  fold_left putf (rev es) L1.

Definition rw_add (v : Z) : addargs :=
  mkAdd (0 :: 1 :: repeat 0 18) (0 :: 16 :: repeat 0 18) zero_addr true 0 (100 + nth 0 depths 0) 1 v.
Definition rw_ops : list op := [OAdd (rw_add 100); OAdd (rw_add 50)].
