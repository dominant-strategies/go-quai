(* C18 -- several handles on one trie (SecureTrie.Copy / state.Database.CopyTrie / StateDB.Copy).
   In the model a handle is a tree and operations are pure functions, so persistence is immediate:
   an operation addressed to one handle leaves every other handle as it was, and each handle is the
   result of its own linear history (what was written through it and, before it was taken, through the
   handle it was copied from).  The real code shares node pointers and key slices between the
   handles; that it nevertheless behaves like these pure functions is what the harness'
   copy/persistence monitors check. *)
From Coq Require Import List Arith Lia.
From GQ Require Import Lib.Key Lib.Lists Model.C18 Proofs.C18_History.
Import ListNotations.

Lemma set_nth_h_length hs i x : length (set_nth_h hs i x) = length hs.
Proof. revert i. induction hs as [|y r IH]; intros [|i]; cbn; auto. Qed.

Lemma nth_error_set_nth_h_eq hs i x : i < length hs -> nth_error (set_nth_h hs i x) i = Some x.
Proof.
  revert i. induction hs as [|y r IH]; intros [|i] Hl; cbn in *; try lia; auto.
  apply IH. lia.
Qed.

Lemma nth_error_set_nth_h_neq hs i j x : i <> j -> nth_error (set_nth_h hs i x) j = nth_error hs j.
Proof.
  revert i j. induction hs as [|y r IH]; intros [|i] [|j] Hn; cbn; auto; try congruence.
Qed.

Definition wf_mops (ops : list mop) : Prop :=
  Forall (fun o => match o with MUpd _ k _ => wf_bytes k | MCopy _ => True end) ops.

Fixpoint in_range (n : nat) (ops : list mop) : bool :=
  match ops with
  | [] => true
  | MUpd h _ _ :: r => (h <? n) && in_range n r
  | MCopy h :: r => (h <? n) && in_range (S n) r
  end.

Lemma Forall_set_nth (P : node -> Prop) hs i t : Forall P hs -> P t -> Forall P (set_nth hs i t).
Proof.
  intros Hf Ht. revert i. induction Hf as [|x r Hx Hr IH]; intros [|i]; cbn; auto.
Qed.

Lemma Forall2_set_nth (R : node -> hist -> Prop) hs xs i t x :
  Forall2 R hs xs -> R t x -> Forall2 R (set_nth hs i t) (set_nth_h xs i x).
Proof.
  intros Hf Hr. revert i. induction Hf as [|a b r1 r2 Hab Hrr IH]; intros [|i]; cbn; auto.
Qed.

Definition tracks (t : node) (x : hist) : Prop := run Nil x = Some t /\ wf_hist x.

Lemma mrun_linear ops : forall hs xs hs',
  wf_mops ops -> Forall2 tracks hs xs -> mrun hs ops = Some hs' ->
  Forall2 tracks hs' (mhist xs ops).
Proof.
  induction ops as [|o ops IH]; intros hs xs hs' Hw Hf Hr; cbn [mrun] in Hr; cbn [mhist].
  - injection Hr as <-. exact Hf.
  - inversion Hw as [|? ? Ho Hw']; subst.
    destruct o as [h k v|h].
    + destruct (nth_error hs h) as [t|] eqn:Et; [|discriminate].
      destruct (update t k v) as [t'|] eqn:Eu; [|discriminate].
      destruct (Forall2_nth_l _ _ _ _ _ Hf Et) as (x & Ex & Hx & Hwx). cbn [mhist]. unfold hist in Ex. rewrite Ex.
      apply (IH (set_nth hs h t') _ hs' Hw'); [|exact Hr].
      apply Forall2_set_nth; [exact Hf|]. split.
      * rewrite run_app, Hx. cbn [run]. rewrite Eu. reflexivity.
      * apply Forall_app. split; [exact Hwx|]. constructor; [exact Ho|constructor].
    + destruct (nth_error hs h) as [t|] eqn:Et; [|discriminate].
      destruct (Forall2_nth_l _ _ _ _ _ Hf Et) as (x & Ex & Hx). cbn [mhist]. unfold hist in Ex. rewrite Ex.
      apply (IH (hs ++ [t]) _ hs' Hw'); [|exact Hr].
      apply Forall2_app; [exact Hf|]. constructor; [exact Hx|constructor].
Qed.
