(* C14 — messages that are a struct with optional fields ([build], Model/C14.v section 3b) or one repeated
   message field; what a ProtoEncode / ProtoDecode pair has to satisfy for the wire theorems to reach its objects
   ([codec_sound]), and that those of OutPoint, TxOut and UtxoEntry do; the access-list layer of
   Transaction.ProtoEncode / ProtoDecode. *)
From Coq Require Import List NArith Lia Bool ZifyBool.
From GQ Require Import Lib.Key Lib.C14_Varint Lib.C14_ProtoWire Lib.C14_ProtoWireFacts
  Lib.C14_ProtoWireNF Generated.C14Schemas Model.C14 Proofs.C14.
Import ListNotations.
Local Open Scope N_scope.

Fixpoint lookup (l : list (N * option fval)) (k : N) : option fval :=
  match l with
  | [] => None
  | (k', o) :: t => if k' =? k then match o with Some v => Some v | None => lookup t k end else lookup t k
  end.

Lemma get_field_build l k : get_field (build l) k = lookup l k.
Proof.
  induction l as [|[k' [v|]] t IH]; [reflexivity| |].
  - cbn [build get_field lookup fst snd]. destruct (k' =? k); [reflexivity|exact IH].
  - cbn [build lookup]. rewrite IH. destruct (k' =? k); reflexivity.
Qed.

(* what [lookup] leaves of an optional field that is last with its number *)
Lemma lookup_some_none (o : option fval) : match o with Some v => Some v | None => None end = o.
Proof. destruct o; reflexivity. Qed.

Lemma lookup_above b l l' k : forallb (fun e => fst e <? b) l = true -> b <= k -> lookup (l ++ l') k = lookup l' k.
Proof.
  intros H Hk. induction l as [|[k' o] t IH]; [reflexivity|].
  cbn [forallb fst] in H. apply andb_prop in H as [H1 H2]. cbn [app lookup].
  replace (k' =? k) with false by lia. exact (IH H2).
Qed.

Fixpoint incr (prev : N) (ks : list N) : bool :=
  match ks with [] => true | k :: t => (prev <? k) && incr k t end.

Lemma incr_weaken p q ks : p <= q -> incr q ks = true -> incr p ks = true.
Proof. destruct ks as [|k t]; [reflexivity|]. cbn [incr]. intros H E. apply andb_true_iff in E as [E1 E2]. rewrite E2. lia. Qed.

Lemma ordered_build desc l : forall p, incr p (map fst l) = true ->
  ordered desc (build l) = true /\ forall e, In e (build l) -> p < fst e.
Proof.
  induction l as [|[k o] t IH]; intros p H; [split; [reflexivity|intros ? []]|].
  cbn [map fst incr] in H. apply andb_true_iff in H as [H1 H2]. apply N.ltb_lt in H1.
  destruct (IH k H2) as [Ho Hk].
  assert (Ht : forall e, In e (build t) -> p < fst e) by (intros e He; exact (N.lt_trans _ _ _ H1 (Hk e He))).
  destruct o as [v|]; [|exact (conj Ho Ht)]. cbn [build]. split.
  - destruct (build t) as [|e' r]; [reflexivity|]. rewrite ordered_cons, Ho.
    specialize (Hk e' (or_introl eq_refl)). apply N.ltb_lt in Hk. cbn [fst]. rewrite Hk. reflexivity.
  - intros e [<-|He]; [exact H1|exact (Ht e He)].
Qed.

Definition no_oneofs (desc : msgdesc) : bool := forallb (fun fd => f_oneof fd =? 0) desc.

Lemma oneof_ok_none desc m : no_oneofs desc = true -> oneof_ok desc m = true.
Proof.
  intros H. apply oneof_ok_iff. intros e1 e2 _ _ Z. exfalso. apply Z.
  unfold oneof_of. destruct (find_field desc (fst e1)) as [fd|] eqn:E; [|reflexivity].
  apply find_field_some in E as [Hin _]. unfold no_oneofs in H. rewrite forallb_forall in H.
  apply N.eqb_eq, H, Hin.
Qed.

Lemma wf_msg_parts id desc m : nth_error sc (N.to_nat id) = Some desc -> no_oneofs desc = true ->
  forallb (entry_ok sc desc) m = true -> ordered desc m = true -> wf_msg sc id m = true.
Proof. intros Hn Ho He Hord. rewrite wf_msg_eq, Hn, He, Hord, (oneof_ok_none desc m Ho). reflexivity. Qed.

Definition val_ok (k : kind) (v : fval) : Prop :=
  match k, v with
  | KU32, FInt n => n < u32
  | KU64, FInt n => n < u64
  | KBytes, FBytes b => wf_bytes b
  | KMsg ref, FMsg m => wf_msg sc ref m = true
  | _, _ => False
  end.

Definition field_val_ok (desc : msgdesc) (e : N * option fval) : Prop :=
  match snd e, find_field desc (fst e) with
  | None, _ => True
  | Some v, Some fd => val_ok (f_kind fd) v
  | Some _, None => False
  end.

(* the part of a struct's well-formedness that its field numbers decide *)
Definition explicit (desc : msgdesc) (k : N) : bool :=
  match find_field desc k with Some fd => match f_label fd with LOpt => true | _ => false end | None => false end.
Definition struct_keys_ok (desc : msgdesc) (ks : list N) : bool :=
  no_oneofs desc && incr 0 ks && forallb (explicit desc) ks.

Lemma entry_ok_build desc l : forallb (explicit desc) (map fst l) = true -> Forall (field_val_ok desc) l ->
  forallb (entry_ok sc desc) (build l) = true.
Proof.
  intros E H. induction H as [|[k o] t Hx _ IH]; [reflexivity|].
  cbn [map fst forallb] in E. apply andb_prop in E as [Ek Et]. specialize (IH Et).
  destruct o as [v|]; [|exact IH]. cbn [build forallb]. rewrite IH, andb_true_r.
  unfold field_val_ok in Hx. unfold explicit in Ek. cbn [fst snd] in *.
  destruct (find_field desc k) as [fd|] eqn:F; [|discriminate Ek]. apply entry_ok_iff. exists fd. split; [exact F|]. split.
  - destruct (f_kind fd), v; try contradiction; cbn [val_ok wf_val] in *;
      [apply N.ltb_lt|apply N.ltb_lt|apply wf_bytesb_iff|]; exact Hx.
  - unfold nonzero_ok. destruct (f_label fd); try discriminate Ek. reflexivity.
Qed.

Lemma wf_msg_build id desc l : nth_error sc (N.to_nat id) = Some desc -> struct_keys_ok desc (map fst l) = true ->
  Forall (field_val_ok desc) l -> wf_msg sc id (build l) = true.
Proof.
  intros Hn Hk Hl. apply andb_prop in Hk as [Hk He]. apply andb_prop in Hk as [Ho Hi].
  apply (wf_msg_parts _ _ _ Hn Ho); [apply entry_ok_build; assumption|exact (proj1 (ordered_build _ _ 0 Hi))].
Qed.

Lemma rep_wf id ref (ms : list msg) : nth_error sc (N.to_nat id) = Some [mkField 1 (KMsg ref) LRep 0] ->
  Forall (fun m => wf_msg sc ref m = true) ms -> wf_msg sc id (map (fun m => (1, FMsg m)) ms) = true.
Proof.
  intros Hd H. apply (wf_msg_parts _ _ _ Hd); [reflexivity| |].
  - apply forallb_forall. intros e He. apply in_map_iff in He as (m & <- & Hm).
    rewrite Forall_forall in H. apply entry_ok_iff. exists (mkField 1 (KMsg ref) LRep 0).
    split; [reflexivity|]. split; [exact (H m Hm)|reflexivity].
  - apply (ordered_same_key _ 1); [|discriminate]. intros e He. apply in_map_iff in He as (m & <- & _). reflexivity.
Qed.

(* A ProtoEncode / ProtoDecode pair for the objects of one message type of the schema; [enc] may fail (a Qi public
   key that does not compress), [norm] is what a round trip makes of an object. *)
Section ObjCodec.
  Context {A : Type}.
  Variables (id : N) (enc : A -> option msg) (dec : msg -> dres A) (nf : A -> Prop) (norm : A -> A).

  Definition codec_sound : Prop :=
    forall a, nf a -> exists m, enc a = Some m /\ wf_msg sc id m = true /\ dec m = DOk (norm a).

  Hypothesis S : codec_sound.

  Lemma codec_bytes a : nf a ->
    exists m, enc a = Some m /\ (len (encode m) < u64 -> obj_decode id dec (encode m) = DOk (norm a)).
  Proof.
    intros H. destruct (S a H) as (m & E & W & D). exists m. split; [exact E|]. intros L.
    rewrite obj_wire by assumption. exact D.
  Qed.

  Lemma codec_identity a1 a2 m1 m2 : nf a1 -> nf a2 -> enc a1 = Some m1 -> enc a2 = Some m2 ->
    len (encode m1) < u64 -> encode m1 = encode m2 -> norm a1 = norm a2.
  Proof.
    intros H1 H2 E1 E2 L E.
    destruct (S a1 H1) as (m1' & E1' & W1 & D1). destruct (S a2 H2) as (m2' & E2' & W2 & D2).
    assert (m1' = m1) by congruence. assert (m2' = m2) by congruence. subst m1' m2'.
    assert (m1 = m2) by (eapply sc_inj; eassumption). subst m2. congruence.
  Qed.

  (* the wrapper message that is one repeated field of such objects (ProtoTxIns, ProtoTxOuts) *)
  Variable wid : N.
  Hypothesis Hw : nth_error sc (N.to_nat wid) = Some [mkField 1 (KMsg id) LRep 0].

  Lemma rep_sound l : Forall nf l ->
    exists ms, all_some (map enc l) = Some ms /\ wf_msg sc wid (map (fun m => (1, FMsg m)) ms) = true /\
               all_ok (map (fun v => dec (as_msg v)) (get_all (map (fun m => (1, FMsg m)) ms) 1)) = DOk (map norm l).
  Proof.
    intros H.
    assert (R : exists ms, all_some (map enc l) = Some ms /\ Forall (fun m => wf_msg sc id m = true) ms /\
                           all_ok (map (fun v => dec (as_msg v)) (map FMsg ms)) = DOk (map norm l)).
    { induction H as [|a l Ha _ (ms & E & W & D)]; [exists []; repeat split; constructor|].
      destruct (S a Ha) as (m & Em & Wm & Dm). exists (m :: ms). cbn [map all_some all_ok as_msg].
      rewrite Em, E, Dm, D. repeat split. constructor; assumption. }
    destruct R as (ms & E & W & D). exists ms. split; [exact E|]. split; [exact (rep_wf _ _ ms Hw W)|].
    rewrite <- (map_map FMsg (fun v => (1, v))), get_all_same. exact D.
  Qed.
End ObjCodec.

Lemma all_some_total {A B} (f : A -> B) l : all_some (map (fun x => Some (f x)) l) = Some (map f l).
Proof. induction l as [|x l IH]; [reflexivity|]. cbn [map all_some]. rewrite IH. reflexivity. Qed.

Lemma outpoint_desc : nth_error sc (N.to_nat id_block_ProtoOutPoint) =
  Some [mkField 1 (KMsg id_common_ProtoHash) LOpt 0; mkField 2 KU32 LOpt 0].
Proof. vm_compute. reflexivity. Qed.

Lemma outpoint_wf o : hash_nf (op_hash o) -> wf_msg sc id_block_ProtoOutPoint (outpoint_encode o) = true.
Proof.
  intros Hh. apply (wf_msg_build _ _ [(1, Some _); (2, Some _)] outpoint_desc); [reflexivity|].
  repeat (apply Forall_cons || apply Forall_nil).
  - exact (hash_msg_wf _ Hh).
  - eapply N.lt_trans; [apply N.mod_lt; discriminate|reflexivity].
Qed.

Lemma outpoint_sound : codec_sound id_block_ProtoOutPoint (fun o => Some (outpoint_encode o)) outpoint_decode
                         (fun o => hash_nf (op_hash o) /\ op_index o < 65536) (fun o => o).
Proof.
  intros o [Hh Hi]. eexists. split; [reflexivity|]. split; [exact (outpoint_wf o Hh)|].
  exact (outpoint_tree_roundtrip o (proj1 Hh) Hi).
Qed.

Lemma txout_sound : codec_sound id_block_ProtoTxOut (fun o => Some (txout_encode o)) txout_decode txout_nf txout_norm.
Proof.
  intros o H. eexists. split; [reflexivity|]. split; [exact (txout_wf o H)|exact (proj1 (txout_tree_roundtrip o (proj1 H)))].
Qed.

Lemma utxo_sound : codec_sound id_block_ProtoTxOut (fun o => Some (txout_encode o)) utxo_decode txout_nf txout_norm.
Proof.
  intros o H. eexists. split; [reflexivity|]. split; [exact (txout_wf o H)|exact (proj2 (txout_tree_roundtrip o (proj1 H)))].
Qed.

Definition addr_nf (a : bytes) : Prop := length a = addr_len /\ wf_bytes a.
Definition at_nf (t : acctuple) : Prop := addr_nf (at_addr t) /\ Forall hash_nf (at_keys t).

Lemma addr_roundtrip a : length a = addr_len -> addr_of_bytes a = a.
Proof. apply set_bytes_exact. Qed.

Lemma at_roundtrip t : at_nf t -> at_decode (at_encode t) = t.
Proof.
  intros [[Ha _] Hk]. destruct t as [a ks]. cbn [at_addr at_keys] in *.
  destruct a as [|x a]; [discriminate|]. unfold at_encode, at_decode. cbn [at_addr at_keys].
  unfold get_bytes. cbn [app get_field fst snd N.eqb Pos.eqb as_bytes].
  rewrite addr_roundtrip by exact Ha.
  change (get_all ((1, FBytes (x :: a)) :: ?l) 2) with (get_all l 2).
  rewrite <- (map_map (fun h => FMsg (hash_msg h)) (fun v => (2, v))), get_all_same.
  rewrite map_hash_roundtrip; [reflexivity|]. eapply Forall_impl; [|exact Hk]. intros h [H _]. exact H.
Qed.

Lemma al_roundtrip al : Forall at_nf al -> al_decode (al_encode al) = al.
Proof.
  intros H. unfold al_decode, al_encode.
  rewrite <- (map_map (fun t => FMsg (at_encode t)) (fun v => (1, v))), get_all_same, map_map.
  rewrite <- (map_id al) at 2. apply map_ext_Forall. eapply Forall_impl; [|exact H]. exact at_roundtrip.
Qed.

Lemma at_desc : nth_error sc (N.to_nat id_block_ProtoAccessTuple) =
  Some [mkField 1 KBytes LImp 0; mkField 2 (KMsg id_common_ProtoHash) LRep 0].
Proof. vm_compute. reflexivity. Qed.
Lemma al_desc : nth_error sc (N.to_nat id_block_ProtoAccessList) = Some [mkField 1 (KMsg id_block_ProtoAccessTuple) LRep 0].
Proof. vm_compute. reflexivity. Qed.

Lemma at_wf t : at_nf t -> wf_msg sc id_block_ProtoAccessTuple (at_encode t) = true.
Proof.
  intros [[Ha Hw] Hk]. destruct t as [a ks]. cbn [at_addr at_keys] in *.
  destruct a as [|x a]; [discriminate|]. unfold at_encode. cbn [at_addr at_keys].
  apply (wf_msg_parts _ _ _ at_desc); [reflexivity| |].
  - rewrite forallb_app. apply andb_true_intro. split.
    + cbn [forallb]. rewrite andb_true_r. apply entry_ok_iff. exists (mkField 1 KBytes LImp 0).
      split; [reflexivity|]. split; [apply wf_bytesb_iff; exact Hw|reflexivity].
    + apply forallb_forall. intros e He. apply in_map_iff in He as (h & <- & Hh).
      rewrite Forall_forall in Hk. apply entry_ok_iff. exists (mkField 2 (KMsg id_common_ProtoHash) LRep 0).
      split; [reflexivity|]. split; [exact (hash_msg_wf h (Hk h Hh))|reflexivity].
  - apply ordered_app; [reflexivity| |].
    + apply (ordered_same_key _ 2); [|discriminate]. intros e He. apply in_map_iff in He as (h & <- & _). reflexivity.
    + intros e1 e2 [<-|[]] He. apply in_map_iff in He as (h & <- & _). reflexivity.
Qed.

Lemma al_wf al : Forall at_nf al -> wf_msg sc id_block_ProtoAccessList (al_encode al) = true.
Proof.
  intros H. unfold al_encode. rewrite <- (map_map at_encode (fun m => (1, FMsg m))).
  apply (rep_wf _ _ _ al_desc), Forall_map. eapply Forall_impl; [|exact H]. exact at_wf.
Qed.
