(* C02 — the message level: TransitionDb (gas purchase, intrinsic gas, the three branches, refund),
   Finalize, and the staging of an inbound ETX on the zero address.  [transition] is inverted once
   ([transition_cases]); every property of a message is a case analysis on its six outcomes. *)
From Coq Require Import List ZArith NArith Bool Lia.
From GQ Require Import Lib.Lists Lib.C02_BMap Generated.C02Sites Model.C02 Proofs.C02_Exec.
Import ListNotations.
Local Open Scope Z_scope.

(* what the fee payer loses to gas *)
Definition charge (m : msg) (r : result) : Z :=
  match r with
  | RInvalid => 0
  | RDone used _ =>
      if m_isETX m then 0
      else match m_kind m with KNormal => used * m_price m | _ => m_gas m * m_price m end
  end.

Lemma charge_of_eq m r : charge_of m r = charge m r.
Proof. reflexivity. Qed.

Lemma charge_etx m r : m_isETX m = true -> charge m r = 0.
Proof. intros X. unfold charge. rewrite X. now destruct r. Qed.

(* an inbound ETX carries no gas price (types.ExternalTx.gasPrice() is the constant 0) *)
Definition wf_msg (m : msg) : Prop := m_isETX m = true -> m_price m = 0.

(* what the interpreter guarantees about its opaque outputs *)
Definition wf_opq (m : msg) (o : opaque) : Prop :=
  0 <= o_gleft o <= m_gas m /\ 0 <= o_refctr o.

Definition wf_shape (m : msg) : Prop := 0 <= m_nz m /\ 0 <= m_z m /\ 0 <= m_al m /\ 0 <= m_keys m.

(* buyGas; subGasETX for an inbound ETX, which does not pay for gas *)
Definition buy (m : msg) (s : st) : st :=
  if m_isETX m then s else p_sub (m_from m) (m_gas m * m_price m) s.

(* the balance check of buyGas *)
Definition affordable (m : msg) (s : st) : Prop :=
  m_isETX m = false -> m_gas m * m_price m + m_value m <= bget (m_from m) (bal s).

(* the gas refundGas hands back *)
Definition gas_back (m : msg) (o : opaque) : Z :=
  o_gleft o + Z.min ((m_gas m - o_gleft o) / C02Sites.refund_quotient) (o_refctr o).

(* the transaction-level Suicide branch *)
Definition tx_suicide (e : env) (a ben : addr) (s : st) : st :=
  let mint := e_prefork e || negb (mem a (sui s)) in
  let s3 := p_add ben (if mint then bget a (bal s) + e_rent e else bget a (bal s)) (p_suicide a s) in
  if mint then add_rent a s3 else s3.

(* [tdb_refused]: before the gas purchase; [tdb_etx_gas]: inbound ETX above the ETX gas limit; [tdb_bought]:
   after the purchase (intrinsic gas, clause 6, Suicide without beneficiary) *)
Inductive tdb (e : env) (m : msg) (o : opaque) (top : action) (s : st) : st -> result -> Prop :=
| tdb_refused : tdb e m o top s s RInvalid
| tdb_etx_gas : m_isETX m = true -> tdb e m o top s s (RDone C02Sites.tx_gas true)
| tdb_bought : affordable m s -> tdb e m o top s (buy m s) RInvalid
| tdb_kquai err : affordable m s -> intrinsic m <= m_gas m -> m_kind m = KKQuai err ->
    tdb e m o top s (buy m s) (RDone (intrinsic m) err)
| tdb_suicide ben : affordable m s -> intrinsic m <= m_gas m -> m_kind m = KSuicide (Some ben) ->
    tdb e m o top s (tx_suicide e (m_from m) ben (buy m s)) (RDone (intrinsic m) false)
| tdb_normal : affordable m s -> intrinsic m <= m_gas m -> m_kind m = KNormal ->
    tdb e m o top s (p_add (m_from m) (gas_back m o * m_price m) (exec e top (buy m s)))
        (RDone (m_gas m - gas_back m o) (top_failed top (buy m s) o)).

Lemma transition_cases {e m o top s s' r} : transition e m o top s = (s', r) -> tdb e m o top s s' r.
Proof.
  assert (AB : forall s1, buy m s = s1 -> affordable m s -> after_buy e m o top s1 = (s', r) -> tdb e m o top s s' r).
  { intros s1 <- A. unfold after_buy.
    destruct (m_gas m <? intrinsic m) eqn:I; [intros [= <- <-]; now apply tdb_bought|]. apply Z.ltb_ge in I.
    destruct ((0 <? m_value m) && _); [intros [= <- <-]; now apply tdb_bought|].
    destruct (m_kind m) as [|err|[ben|]] eqn:K; intros [= <- <-]; now constructor. }
  revert AB. unfold transition, affordable, buy. destruct (m_isETX m) eqn:X; intros AB.
  - destruct (e_maxetxgas e <? m_gas m).
    + destruct (e_gp e <? C02Sites.tx_gas); intros [= <- <-]; now constructor.
    + destruct (e_gp e <? m_gas m); [intros [= <- <-]; constructor|]. now apply AB.
  - destruct (negb (o_pre_ok o)); [intros [= <- <-]; constructor|].
    destruct (m_price m <? e_basefee e); [intros [= <- <-]; constructor|].
    destruct (bget (m_from m) (bal s) <? m_gas m * m_price m + m_value m) eqn:B; [intros [= <- <-]; constructor|].
    apply Z.ltb_ge in B.
    destruct (e_gp e <? m_gas m); [intros [= <- <-]; constructor|]. now apply AB.
Qed.

Lemma params_ok_true : params_ok = true.
Proof. vm_compute. reflexivity. Qed.

Lemma intrinsic_ge m : wf_shape m -> C02Sites.tx_gas <= intrinsic m /\ 0 < C02Sites.tx_gas.
Proof.
  intros (H1 & H2 & H3 & H4). pose proof params_ok_true as P. unfold params_ok in P.
  rewrite !andb_true_iff, Z.eqb_eq, !Z.ltb_lt, !Z.leb_le in P.
  unfold intrinsic. destruct (m_create m); nia.
Qed.

Lemma gas_back_bounds m o : wf_opq m o -> 0 <= gas_back m o <= m_gas m.
Proof.
  intros [[G0 G1] HR]. unfold gas_back. change C02Sites.refund_quotient with 5.
  assert (0 <= (m_gas m - o_gleft o) / 5 <= m_gas m - o_gleft o).
  { split; [apply Z.div_pos; lia|apply Z.div_le_upper_bound; lia]. }
  lia.
Qed.

Lemma ledger_buy e m s : ledger e (buy m s) = ledger e s - (if m_isETX m then 0 else m_gas m * m_price m).
Proof. unfold buy. destruct (m_isETX m); [lia|apply ledger_sub]. Qed.

Lemma buy_only_payer m s :
  (forall a, a <> m_from m -> bget a (bal (buy m s)) = bget a (bal s))
  /\ sui (buy m s) = sui s /\ etx (buy m s) = etx s /\ burn (buy m s) = burn s /\ rent (buy m s) = rent s.
Proof. unfold buy. destruct (m_isETX m); repeat split; auto. intros a Ha. now apply bget_bset_other. Qed.

Lemma grows_buy m s : 0 <= m_value m -> affordable m s -> grows s (buy m s).
Proof.
  intros HV A. unfold buy. destruct (m_isETX m) eqn:X; [apply grows_refl|].
  specialize (A X). apply grows_sub. right. lia.
Qed.

Lemma tx_suicide_destructs e a ben s : destructs e a s (tx_suicide e a ben s).
Proof.
  unfold tx_suicide. split.
  1-3: now destruct (e_prefork e || negb (mem a (sui s))).
  - destruct (e_prefork e || negb (mem a (sui s))); cbv iota zeta;
      rewrite ?ledger_add_rent, ledger_add, ledger_suicide; lia.
  - intros Hr NN. assert (Hb : 0 <= bget a (bal s)) by apply NN.
    destruct (e_prefork e || negb (mem a (sui s))).
    + refine (grows_trans (grows_suicide a s) (grows_trans (grows_add ben _ _ _) (grows_add_rent a _)) NN). lia.
    + exact (grows_trans (grows_suicide a s) (grows_add ben _ _ Hb) NN).
Qed.

Theorem transition_ledger {e m o top s s' used failed} :
  wf top = true -> wf_msg m ->
  transition e m o top s = (s', RDone used failed) ->
  ledger e s' = ledger e s - charge m (RDone used failed).
Proof.
  intros W WM T. apply transition_cases in T. unfold charge.
  inversion T as [|X| |err _ _ K|ben _ _ K|_ _ K]; subst.
  - rewrite X. lia.
  - rewrite ledger_buy, K. destruct (m_isETX m); lia.
  - rewrite (d_ledger (tx_suicide_destructs e _ ben _)), ledger_buy, K. destruct (m_isETX m); lia.
  - rewrite ledger_add, exec_ledger, ledger_buy, K by exact W.
    destruct (m_isETX m) eqn:X; [rewrite (WM X)|]; lia.
Qed.

Lemma charge_nonneg {e m o top s s' r} :
  0 <= m_price m -> wf_opq m o -> transition e m o top s = (s', r) -> 0 <= charge m r.
Proof.
  intros HP WO T. pose proof (gas_back_bounds m o WO) as GB.
  destruct (transition_cases T) as [|X| |err _ _ K|ben _ _ K|_ _ K]; cbn [charge]; try lia;
    rewrite ?X, ?K; destruct (m_isETX m); nia.
Qed.

Theorem transition_rent_once {e m o top s s' r} :
  e_prefork e = false -> wf top = true ->
  transition e m o top s = (s', r) -> rent_inv s -> rent_inv s'.
Proof.
  intros PF W T I. destruct (buy_only_payer m s) as (_ & Bs & _ & _ & Br).
  pose proof (rent_inv_same s (buy m s) Bs Br I) as IB.
  destruct (transition_cases T) as [|X|A|err A _ K|ben A _ K|A _ K]; auto.
  - exact (destructs_rent_inv PF (tx_suicide_destructs e _ ben _) IB).
  - apply (rent_inv_same (exec e top (buy m s))); [reflexivity..|]. now apply exec_rent_once.
Qed.

Theorem transition_grows {e m o top s s' r} :
  0 <= e_rent e -> wf top = true -> 0 <= m_price m -> 0 <= m_value m -> wf_opq m o ->
  transition e m o top s = (s', r) -> grows s s'.
Proof.
  intros Hr W HP HV WO T.
  destruct (transition_cases T) as [|X|A|err A _ K|ben A _ K|A _ K].
  1, 2: apply grows_refl.
  1, 2: exact (grows_buy m s HV A).
  - exact (grows_trans (grows_buy m s HV A) (d_grows (tx_suicide_destructs e _ ben _) Hr)).
  - apply (grows_trans (grows_buy m s HV A)), (grows_trans (exec_grows e top Hr W _)), grows_add.
    pose proof (gas_back_bounds m o WO). nia.
Qed.

(* EVM.create returned ErrCodeStoreOutOfGas: the frame failed but was NOT reverted *)
Definition store_oog (a : action) : bool :=
  match a with
  | ACreate f _ v r _ out => negb (out =? 0)%N && negb (out =? 1)%N
  | _ => false
  end.

(* a top-level frame that failed either never moved value or was rolled back *)
Lemma top_failed_neutral e top s o :
  is_top top = true -> store_oog top = false -> top_failed top s o = true -> core (exec e top s) = core s.
Proof.
  destruct (exec_outcome e top s) as [a s|a s rv|f t v r mk body rv s G R|f v r rv s G R|self v c r body rv s
                                     |f n v r body out s G R|a b s|a v f s _ _|a v f s _ _];
    cbn [is_top store_oog top_failed]; intros T SO F; try discriminate; rewrite ?core_frame_end.
  - reflexivity.
  - now destruct rv.
  - rewrite G, R in F. cbn [orb] in F. now rewrite F.
  - rewrite G, R, andb_false_r in F. cbn [negb orb] in F. now rewrite F.
  - rewrite G, R in F. cbn [negb orb] in F. destruct (out =? 0)%N; [discriminate|].
    apply negb_false_iff in SO. now rewrite SO.
Qed.

Lemma ledger_stage e z v s : ledger e (stage z v s) = ledger e s + v - bget z (bal s).
Proof. unfold ledger, stage. cbn [bal etx burn rent]. rewrite bsum_bset. lia. Qed.
Lemma ledger_unstage e z p s : ledger e (unstage z p s) = ledger e s + p.
Proof. unfold ledger, unstage. cbn [bal etx burn rent]. rewrite bsum_bset. lia. Qed.

Lemma grows_stage z v s : 0 <= v -> grows s (stage z v s).
Proof. intros Hv. apply grows_steady; auto. intros NN. split; [now apply nonneg_bset|apply Z.le_refl]. Qed.

Lemma grows_unstage z p s : 0 <= p -> grows s (unstage z p s).
Proof.
  intros Hv. apply grows_steady; auto. intros NN. cbn [bal burn unstage].
  split; [now apply nonneg_bset|specialize (NN z); lia].
Qed.

(* deleting an account is [unstage] at 0: balance to 0, what it held to [burn] *)
Lemma finalise_eq s : finalise s = fold_left (fun x a => unstage a 0 x) (sui s) s.
Proof. reflexivity. Qed.

Lemma finalise_inv (P : st -> Prop) : (forall x a, P x -> P (unstage a 0 x)) -> forall s, P s -> P (finalise s).
Proof. intros H s. rewrite finalise_eq. apply fold_left_inv. intros x a _. apply H. Qed.

Lemma finalise_fields s : sui (finalise s) = sui s /\ etx (finalise s) = etx s /\ rent (finalise s) = rent s.
Proof. apply (finalise_inv (fun x => sui x = sui s /\ etx x = etx s /\ rent x = rent s)); auto. Qed.

(* applyTransaction: Finalize runs unless the message was refused *)
Definition finalised (r : result) (s : st) : st := if is_invalid r then s else finalise s.

Lemma finalised_fields r s :
  sui (finalised r s) = sui s /\ etx (finalised r s) = etx s /\ rent (finalised r s) = rent s.
Proof. destruct r; [cbn; auto|apply finalise_fields]. Qed.

Lemma finalise_burns s : bsum (bal (finalise s)) + burn (finalise s) = bsum (bal s) + burn s.
Proof.
  apply (finalise_inv (fun x => bsum (bal x) + burn x = bsum (bal s) + burn s)); [|reflexivity].
  intros x a <-. cbn [bal burn unstage]. rewrite bsum_bset. lia.
Qed.

Theorem finalise_ledger e s : ledger e (finalise s) = ledger e s.
Proof.
  unfold ledger. destruct (finalise_fields s) as (_ & -> & ->). pose proof (finalise_burns s). lia.
Qed.

Theorem finalise_bal s a : bget a (bal (finalise s)) = if mem a (sui s) then 0 else bget a (bal s).
Proof.
  rewrite finalise_eq. generalize (sui s). intros l. revert s.
  induction l as [|x l IH]; intros s; cbn [fold_left]; [reflexivity|].
  rewrite IH, mem_cons. cbn [bal unstage]. rewrite bget_bset.
  destruct (N.eqb a x); [now destruct (mem a l)|reflexivity].
Qed.

Lemma finalise_grows s : grows s (finalise s).
Proof.
  apply (finalise_inv (grows s)); [|apply grows_refl].
  intros x a G. exact (grows_trans G (grows_unstage a 0 x (Z.le_refl 0))).
Qed.

Lemma finalised_grows r s : grows s (finalised r s).
Proof. destruct r; [apply grows_refl|apply finalise_grows]. Qed.

(* [ib]: an inbound ETX; the choice is written as in [run_tx], so that the induction over a block has one step *)
Lemma tx_cases (ib : bool) {e m o top s s' r} :
  (if ib then apply_etx else apply_tx) e m o top s = (s', r) ->
  exists s1, transition e m o top (if ib then stage (e_zero e) (m_value m) s else s) = (s1, r)
    /\ s' = if ib then unstage (e_zero e) (bget (e_zero e) (bal s)) (finalised r s1) else finalised r s1.
Proof.
  destruct ib; unfold apply_etx, apply_tx; destruct (transition e m o top _) as [s1 r1];
    intros [= <- <-]; now exists s1.
Qed.

Theorem tx_ledger (ib : bool) {e m o top s s' used failed} :
  wf top = true -> wf_msg m ->
  (if ib then apply_etx else apply_tx) e m o top s = (s', RDone used failed) ->
  ledger e s' = ledger e s - charge m (RDone used failed) + (if ib then m_value m else 0).
Proof.
  intros W WM A. destruct (tx_cases ib A) as (s1 & T & ->). cbn [finalised is_invalid].
  pose proof (transition_ledger W WM T) as L. rewrite <- (finalise_ledger e s1) in L.
  destruct ib; [rewrite ledger_unstage, L, ledger_stage|rewrite L]; lia.
Qed.
