(* C10 — the propositions the statements of Props/C10.v are written in ([db_ok], [wf_effect],
   [wf_branch]: what the booleans of Model/C10.v decide; [no_intra_spend], [run], [heights_ok],
   [no_add_after_claim]), the blocks its refutations use ([ic_*], [f6_*]), and the lemmas: lookups
   after [put_all]/[del_all], the undo log of one map, the components of [rollback (apply d e) e],
   the canonical map of a branch, the booleans of the correspondence check, and the undo records
   the lockup part of Process writes. *)
From Coq Require Import List NArith Bool.
From GQ Require Import Lib.Lists Lib.Key Lib.SMap Model.C10.
Import ListNotations.
Local Open Scope N_scope.

Lemma kmem_In (k : key) (l : list key) : kmem k l = true <-> In k l.
Proof. exact (existsb_eqb_In keqb keqb_eq k l). Qed.

Lemma kmem_dec (k : key) (l : list key) : In k l \/ ~ In k l.
Proof. rewrite <- kmem_In. destruct (kmem k l); [left; reflexivity|right; discriminate]. Qed.

Lemma kmem_notin (k : key) (l : list key) : ~ In k l -> kmem k l = false.
Proof. exact (proj2 (existsb_eqb_not_In keqb keqb_eq k l)). Qed.

Lemma kmem_app (k : key) l l' : kmem k (l ++ l') = kmem k l || kmem k l'.
Proof. apply existsb_app. Qed.

Lemma kmem_snoc (k : key) l k' : kmem k (l ++ [k']) = kmem k l || keqb k k'.
Proof. rewrite kmem_app. cbn. rewrite orb_false_r. reflexivity. Qed.

Lemma in_map_fst {A B} (k : A) (l : list (A * B)) : In k (map fst l) -> exists v, In (k, v) l.
Proof. intros H. apply in_map_iff in H as [[k0 v] [E H]]. cbn in E; subst k0. exists v. exact H. Qed.

Lemma first_rec_app {V} k (a b : list (key * V)) :
  first_rec k (a ++ b) = match first_rec k a with Some v => Some v | None => first_rec k b end.
Proof.
  induction a as [|[k' v] a IH]; cbn; [reflexivity|]. destruct (keqb k k'); auto.
Qed.

Lemma first_rec_spec {V} k (l : list (key * V)) :
  match first_rec k l with Some v => In (k, v) l | None => ~ In k (map fst l) end.
Proof.
  induction l as [|[k' w] l IH]; cbn; [intros []|].
  destruct (keqb k k') eqn:E.
  - apply keqb_eq in E; subst k'. left; reflexivity.
  - apply keqb_neq in E. destruct (first_rec k l); [right; exact IH|].
    intros [H|H]; [congruence|exact (IH H)].
Qed.

Lemma first_rec_In {V} k v (l : list (key * V)) : first_rec k l = Some v -> In (k, v) l.
Proof. intros H. pose proof (first_rec_spec k l) as S. rewrite H in S. exact S. Qed.

Lemma first_rec_None {V} k (l : list (key * V)) : first_rec k l = None <-> ~ In k (map fst l).
Proof.
  pose proof (first_rec_spec k l) as S. destruct (first_rec k l) as [v|].
  - apply (in_map fst) in S. split; [discriminate|contradiction].
  - split; [intros _; exact S|reflexivity].
Qed.

Lemma first_rec_rev_None {V} k (l : list (key * V)) : first_rec k (rev l) = None <-> ~ In k (map fst l).
Proof. rewrite first_rec_None. rewrite map_rev. rewrite <- in_rev. tauto. Qed.

Lemma put_all_cons {V} k v (l : list (key * V)) m : put_all ((k, v) :: l) m = put_all l (put k v m).
Proof. reflexivity. Qed.
Lemma del_all_cons {V} k (l : list key) (m : smap V) : del_all (k :: l) m = del_all l (del k m).
Proof. reflexivity. Qed.

Lemma put_all_sorted {V} (l : list (key * V)) m : sorted m -> sorted (put_all l m).
Proof. unfold put_all. apply fold_left_inv. intros a kv _. apply put_sorted. Qed.

Lemma del_all_sorted {V} (l : list key) (m : smap V) : sorted m -> sorted (del_all l m).
Proof. unfold del_all. apply fold_left_inv. intros a k _. apply del_sorted. Qed.

Lemma get_put_all {V} k (l : list (key * V)) m :
  get k (put_all l m) = match first_rec k (rev l) with Some v => Some v | None => get k m end.
Proof.
  revert m; induction l as [|[k' v] l IH]; intros m; [reflexivity|].
  rewrite put_all_cons, IH. cbn [rev]. rewrite first_rec_app. cbn [first_rec].
  destruct (first_rec k (rev l)); [reflexivity|].
  rewrite get_put. destruct (keqb k k'); reflexivity.
Qed.

Lemma get_put_all_notin {V} k (l : list (key * V)) m : ~ In k (map fst l) -> get k (put_all l m) = get k m.
Proof. intros H. apply first_rec_rev_None in H. rewrite get_put_all, H. reflexivity. Qed.

Lemma get_put_all_rev {V} k (l : list (key * V)) m :
  get k (put_all (rev l) m) = match first_rec k l with Some v => Some v | None => get k m end.
Proof. rewrite get_put_all, rev_involutive. reflexivity. Qed.

Lemma get_del_all {V} k (l : list key) (m : smap V) : sorted m ->
  get k (del_all l m) = if kmem k l then None else get k m.
Proof.
  revert m; induction l as [|k' l IH]; intros m S; [reflexivity|].
  rewrite del_all_cons, IH by (apply del_sorted; exact S). rewrite get_del by exact S.
  change (kmem k (k' :: l)) with (keqb k k' || kmem k l).
  destruct (keqb k k'), (kmem k l); reflexivity.
Qed.

Lemma get_del_all_in {V} k (l : list key) (m : smap V) : sorted m -> In k l -> get k (del_all l m) = None.
Proof. intros S H. apply kmem_In in H. rewrite get_del_all, H by exact S. reflexivity. Qed.

Lemma get_del_all_notin {V} k (l : list key) (m : smap V) : sorted m -> ~ In k l -> get k (del_all l m) = get k m.
Proof.
  intros S H. rewrite get_del_all, (kmem_notin k l H) by exact S. reflexivity.
Qed.

(* The look-up after the rollback batch of one map [X] ([get_undo]).  SetCurrentHeader puts the
   deleted lockups back in reverse record order, so for them [recs] is the record as stored; the
   spent and trimmed outputs in record order, so for them it is its reverse. *)
Definition undone {V} (cr : list key) (recs : list (key * V)) (X : smap V) (k : key) : option V :=
  if kmem k cr then None else match first_rec k recs with Some v => Some v | None => get k X end.

Lemma get_undo {V} cr (recs : list (key * V)) X k : sorted X ->
  get k (del_all cr (put_all (rev recs) X)) = undone cr recs X k.
Proof. intros S. rewrite get_del_all, get_put_all_rev by (apply put_all_sorted; exact S). reflexivity. Qed.

Lemma undone_created {V} cr (recs : list (key * V)) X k : In k cr -> undone cr recs X k = None.
Proof. intros H. apply kmem_In in H. unfold undone. rewrite H. reflexivity. Qed.

Lemma undone_recorded {V} cr (recs : list (key * V)) X k v :
  ~ In k cr -> first_rec k recs = Some v -> undone cr recs X k = Some v.
Proof. intros N F. unfold undone. rewrite (kmem_notin _ _ N), F. reflexivity. Qed.

(* [m] is the map before the block, [X] the map after it *)
Lemma undo_exact {V} (m X : smap V) recs cr : sorted m -> sorted X ->
  (forall k, In k cr -> get k m = None) ->
  (forall k, ~ In k cr -> get k (put_all recs X) = get k m) ->
  del_all cr (put_all recs X) = m.
Proof.
  intros Sm SX fresh restored. pose proof (put_all_sorted recs X SX) as SP.
  apply sorted_ext; [apply del_all_sorted; exact SP|exact Sm|].
  intros k. destruct (kmem_dec k cr) as [H|H].
  - rewrite get_del_all_in, fresh by assumption. reflexivity.
  - rewrite get_del_all_notin by assumption. apply restored; exact H.
Qed.

(* On one map [X] the batches of the two wrong rollbacks of Model/C10.v are [rollback]'s, unless a key
   is both restored and created. *)
Section WrongBatches.
Context {V : Type} (X : smap V) (recs : list (key * V)) (cr : list key).
Hypothesis SX : sorted X.
Hypothesis disjoint : forall k, In k (map fst recs) -> ~ In k cr.

Lemma delete_first_same : put_all recs (del_all cr X) = del_all cr (put_all recs X).
Proof.
  pose proof (put_all_sorted recs X SX) as SP. pose proof (del_all_sorted cr X SX) as SD.
  apply sorted_ext; [apply put_all_sorted; exact SD|apply del_all_sorted; exact SP|].
  intros k. rewrite get_del_all, !get_put_all, get_del_all by assumption.
  destruct (first_rec k (rev recs)) as [v|] eqn:F; [|reflexivity].
  rewrite kmem_notin; [reflexivity|]. apply disjoint.
  apply first_rec_In, in_rev in F. apply (in_map fst) in F. exact F.
Qed.

Lemma skip_absent_same :
  del_all (filter (fun k => presentb k X) cr) (put_all recs X) = del_all cr (put_all recs X).
Proof.
  pose proof (put_all_sorted recs X SX) as SP.
  apply sorted_ext; [apply del_all_sorted; exact SP..|].
  intros k. destruct (kmem_dec k cr) as [Hc|Hc].
  - rewrite (get_del_all_in k cr) by assumption. destruct (presentb k X) eqn:P.
    + apply get_del_all_in; [exact SP|]. apply filter_In. split; assumption.
    + (* the delete of [k] is skipped: absent in [X], and no record restores it *)
      rewrite get_del_all_notin; [|exact SP|intros H; apply filter_In in H as [_ H]; congruence].
      rewrite get_put_all_notin by (intros H; exact (disjoint k H Hc)).
      unfold presentb in P. destruct (get k X); [discriminate|reflexivity].
  - rewrite !get_del_all_notin; [reflexivity|exact SP|exact Hc|exact SP|].
    intros H. apply filter_In in H as [H _]. exact (Hc H).
Qed.
End WrongBatches.

Section Generic.
Context {L : Type}.
Notation db := (db L).
Notation effect := (effect L).

Definition db_ok (d : db) : Prop := sorted (utxo d) /\ sorted (lockups d) /\ sorted (canon d).

Definition created_keys (e : effect) : list key := map strip_den (e_created_keys e).

Definition wf_utxo (d : db) (e : effect) : Prop :=
  (forall k, In k (created_keys e) -> get k (utxo d) = None) /\
  (forall k v, In (k, v) (e_spent e ++ e_trimmed e) -> In k (created_keys e) \/ get k (utxo d) = Some v) /\
  (forall k v, In (k, v) (e_created e) -> In k (created_keys e)).

Definition wf_lk (d : db) (e : effect) : Prop :=
  (forall k, In k (e_lk_created e) -> get k (lockups d) = None) /\
  (forall k, In k (map fst (e_lk_deleted e)) ->
             In k (e_lk_created e) \/ first_rec k (e_lk_deleted e) = get k (lockups d)) /\
  (forall k w, In (k, w) (e_lk_writes e) -> In k (e_lk_created e) \/ In k (map fst (e_lk_deleted e))).

Definition wf_chain (d : db) (e : effect) : Prop :=
  0 < e_num e /\ head d = e_parent e /\
  get (nkey (e_num e - 1)) (canon d) = Some (e_parent e) /\ get (nkey (e_num e)) (canon d) = None.

Definition wf_effect (d : db) (e : effect) : Prop := wf_utxo d e /\ wf_lk d e /\ wf_chain d e.

Fixpoint wf_branch (d : db) (es : list effect) : Prop :=
  match es with
  | [] => True
  | e :: es' => wf_effect d e /\ wf_branch (apply d e) es'
  end.

Definition no_intra_spend (e : effect) : Prop :=
  forall k, In k (map fst (e_spent e ++ e_trimmed e)) -> ~ In k (created_keys e).

Lemma db_ext (a b : db) :
  utxo a = utxo b -> lockups a = lockups b -> canon a = canon b -> head a = head b -> a = b.
Proof. destruct a, b; cbn. intros -> -> -> ->. reflexivity. Qed.

Lemma lk_write_sorted m (w : key * option L) : sorted m -> sorted (lk_write m w).
Proof. destruct w as [k [v|]]; [apply put_sorted|apply del_sorted]. Qed.

Lemma get_lk_write k0 k (w : option L) m : sorted m ->
  get k0 (lk_write m (k, w)) = if keqb k0 k then w else get k0 m.
Proof. destruct w as [v|]; intros S; [apply get_put|apply get_del; exact S]. Qed.

Lemma lk_writes_sorted (ws : list (key * option L)) m : sorted m -> sorted (fold_left lk_write ws m).
Proof. apply fold_left_inv. intros a w _. apply lk_write_sorted. Qed.

Lemma lk_writes_untouched k (ws : list (key * option L)) m :
  sorted m -> ~ In k (map fst ws) -> get k (fold_left lk_write ws m) = get k m.
Proof.
  intros S N.
  refine (proj2 (fold_left_inv (fun a => sorted a /\ get k a = get k m) _ ws _ m (conj S eq_refl))).
  intros a [k' w] Hin [Sa <-]. split; [apply lk_write_sorted; exact Sa|].
  rewrite get_lk_write by exact Sa. destruct (keqb k k') eqn:E; [|reflexivity].
  apply keqb_eq in E; subst k'. destruct N. apply (in_map fst) in Hin. exact Hin.
Qed.

Lemma utxo_apply_sorted (d : db) (e : effect) : sorted (utxo d) -> sorted (utxo (apply d e)).
Proof. intros S. unfold apply; cbn. repeat apply del_all_sorted. apply put_all_sorted. exact S. Qed.

Lemma apply_ok d e : db_ok d -> db_ok (apply d e).
Proof.
  intros (Su & Sl & Sc). repeat split.
  - apply utxo_apply_sorted; exact Su.
  - apply lk_writes_sorted; exact Sl.
  - apply put_sorted; exact Sc.
Qed.

Lemma rollback_ok d e : db_ok d -> db_ok (rollback d e).
Proof.
  intros (Su & Sl & Sc). unfold rollback, db_ok; cbn. repeat split.
  - apply del_all_sorted. apply put_all_sorted. exact Su.
  - apply del_all_sorted. apply put_all_sorted. exact Sl.
  - apply put_sorted. apply del_sorted. exact Sc.
Qed.

Lemma get_utxo_rollback (d : db) (e : effect) k : sorted (utxo d) ->
  get k (utxo (rollback d e)) = undone (created_keys e) (rev (e_spent e ++ e_trimmed e)) (utxo d) k.
Proof. intros S. rewrite <- get_undo, rev_involutive by exact S. reflexivity. Qed.

Lemma get_lockups_rollback (d : db) (e : effect) k : sorted (lockups d) ->
  get k (lockups (rollback d e)) = undone (e_lk_created e) (e_lk_deleted e) (lockups d) k.
Proof. apply get_undo. Qed.

Lemma wrong_rollbacks_same (d : db) (e : effect) : sorted (utxo d) -> no_intra_spend e ->
  rollback_delete_first d e = rollback d e /\ rollback_skip_absent d e = rollback d e.
Proof.
  intros S N. split; (apply db_ext; [|reflexivity..]).
  - apply delete_first_same; assumption.
  - apply skip_absent_same; assumption.
Qed.

Lemma get_utxo_apply (d : db) (e : effect) k : sorted (utxo d) -> ~ In k (map fst (e_created e)) ->
  get k (utxo (apply d e))
  = if kmem k (map fst (e_spent e ++ e_trimmed e)) then None else get k (utxo d).
Proof.
  intros S N. unfold apply; cbn [utxo].
  pose proof (put_all_sorted (e_created e) (utxo d) S) as SP.
  rewrite !get_del_all by (try apply del_all_sorted; exact SP). rewrite get_put_all_notin by exact N.
  rewrite map_app, kmem_app.
  destruct (kmem k (map fst (e_spent e))), (kmem k (map fst (e_trimmed e))); reflexivity.
Qed.

Lemma utxo_rollback_apply d e : sorted (utxo d) -> wf_utxo d e ->
  utxo (rollback (apply d e) e) = utxo d.
Proof.
  intros S W. apply undo_exact; [exact S|apply utxo_apply_sorted; exact S|apply W|].
  (* at a key the block did not create, putting the records back reads what the state before the block held *)
  destruct W as (_ & W2 & W3). intros k Hc.
  rewrite get_put_all. destruct (first_rec k (rev (e_spent e ++ e_trimmed e))) as [v|] eqn:F.
  - apply first_rec_In, in_rev in F. destruct (W2 _ _ F) as [H|H]; [contradiction|]. symmetry; exact H.
  - apply first_rec_rev_None in F. rewrite get_utxo_apply, (kmem_notin _ _ F); [reflexivity|exact S|].
    intros H. apply in_map_fst in H as [v H]. apply W3 in H. contradiction.
Qed.

Lemma lockups_rollback_apply d e : sorted (lockups d) -> wf_lk d e ->
  lockups (rollback (apply d e) e) = lockups d.
Proof.
  intros S W. apply undo_exact; [exact S|apply lk_writes_sorted; exact S|apply W|].
  destruct W as (_ & W2 & W3). intros k Hc.
  rewrite get_put_all_rev. destruct (first_rec k (e_lk_deleted e)) as [v|] eqn:F.
  - destruct (W2 k) as [H|H]; [|contradiction|congruence].
    apply first_rec_In in F. apply (in_map fst) in F. exact F.
  - apply first_rec_None in F. apply lk_writes_untouched; [exact S|].
    intros H. apply in_map_fst in H as [w H]. destruct (W3 _ _ H); contradiction.
Qed.

Lemma canon_rollback_apply d e : wf_chain d e -> canon (rollback (apply d e) e) = canon d.
Proof.
  intros (_ & _ & Hp & Hnone). unfold rollback, apply; cbn [canon].
  rewrite del_put_absent by exact Hnone. apply put_present. exact Hp.
Qed.

Lemma apply_all_cons (d : db) e es : apply_all d (e :: es) = apply_all (apply d e) es.
Proof. reflexivity. Qed.

Lemma apply_all_ok es : forall d, db_ok d -> db_ok (apply_all d es).
Proof. unfold apply_all. apply fold_left_inv. intros d e _. apply apply_ok. Qed.

Lemma apply_all_app (d : db) a b : apply_all d (a ++ b) = apply_all (apply_all d a) b.
Proof. unfold apply_all. apply fold_left_app. Qed.
Lemma rollback_all_app (d : db) a b : rollback_all d (a ++ b) = rollback_all (rollback_all d a) b.
Proof. unfold rollback_all. apply fold_left_app. Qed.

Lemma apply_all_invariant (P : db -> Prop) (es : list effect) :
  (forall d e, In e es -> db_ok d -> P d -> P (apply d e)) ->
  forall d, db_ok d -> P d -> P (apply_all d es).
Proof.
  intros Hstep d Hok H.
  refine (proj2 (fold_left_inv (fun d => db_ok d /\ P d) _ es _ d (conj Hok H))).
  intros d' e Hin [Hok' H']. split; [apply apply_ok; exact Hok'|apply Hstep; assumption].
Qed.

Section Process.
Variable block : Type.
Variable process : db -> block -> effect.

Fixpoint run (d : db) (bs : list block) : db :=
  match bs with
  | [] => d
  | b :: bs' => run (apply d (process d b)) bs'
  end.
Fixpoint effects_of (d : db) (bs : list block) : list effect :=
  match bs with
  | [] => []
  | b :: bs' => process d b :: effects_of (apply d (process d b)) bs'
  end.

Lemma run_apply_all bs : forall d, run d bs = apply_all d (effects_of d bs).
Proof. induction bs as [|b bs IH]; intros d; cbn; [reflexivity|]. apply IH. Qed.
End Process.

Lemma nkey_inj a b : nkey a = nkey b -> a = b.
Proof. unfold nkey. intros H; inversion H; reflexivity. Qed.

Lemma canon_apply_all_other (es : list effect) n : forall d : db,
  (forall e, In e es -> e_num e <> n) ->
  get (nkey n) (canon (apply_all d es)) = get (nkey n) (canon d).
Proof.
  intros d H.
  apply (fold_left_inv (fun d' : db => get (nkey n) (canon d') = get (nkey n) (canon d))); [|reflexivity].
  intros d' e Hin <-. apply get_put_other. intros E. apply nkey_inj in E. symmetry in E. exact (H e Hin E).
Qed.

Lemma canon_of_branch (es : list effect) : forall d : db, wf_branch d es ->
  (forall n h, get (nkey n) (canon d) = Some h -> get (nkey n) (canon (apply_all d es)) = Some h) /\
  (forall e, In e es -> get (nkey (e_num e)) (canon (apply_all d es)) = Some (e_hash e)).
Proof.
  induction es as [|e es IH]; intros d W; [split; [intros n h G; exact G|intros e []]|].
  destruct W as [We Wes]. destruct (IH _ Wes) as [Stay Own]. rewrite apply_all_cons. split.
  - intros n h G. apply Stay. unfold apply; cbn [canon]. rewrite get_put_other; [exact G|].
    intros E. apply nkey_inj in E. subst n. destruct We as (_ & _ & (_ & _ & _ & Hfree)). congruence.
  - intros e' [<-|Hin]; [|apply Own; exact Hin].
    apply Stay. unfold apply; cbn [canon]. apply get_put_same.
Qed.

Lemma head_apply_all (es : list effect) : forall d : db,
  head (apply_all d es) = last (map (@e_hash L) es) (head d).
Proof.
  induction es as [|e es IH]; intros d; [reflexivity|].
  rewrite apply_all_cons, IH. symmetry. apply last_cons.
Qed.

Variable leqb : L -> L -> bool.
Hypothesis leqb_spec : forall a b, leqb a b = true <-> a = b.

Lemma oeqb_spec {A} (f : A -> A -> bool) (Hf : forall a b, f a b = true <-> a = b) x y :
  oeqb f x y = true <-> x = y.
Proof.
  destruct x, y; cbn; try (split; discriminate); [|split; reflexivity].
  rewrite Hf. split; congruence.
Qed.

Lemma absent_spec {V} k (m : smap V) :
  match get k m with None => true | Some _ => false end = true -> get k m = None.
Proof. destruct (get k m); [discriminate|reflexivity]. Qed.

Lemma wf_utxob_sound d e : wf_utxob d e = true -> wf_utxo d e.
Proof.
  unfold wf_utxob. fold (created_keys e). intros H.
  apply andb_prop in H as [H H3]. apply andb_prop in H as [H1 H2].
  rewrite forallb_forall in H1, H2, H3. repeat split.
  - intros k Hin. apply absent_spec. apply H1; exact Hin.
  - intros k v Hin. specialize (H2 _ Hin). cbn in H2. apply orb_prop in H2 as [H2|H2].
    + left. apply kmem_In; exact H2.
    + right. apply (oeqb_spec keqb keqb_eq) in H2. exact H2.
  - intros k v Hin. apply kmem_In. apply (H3 _ Hin).
Qed.

Lemma wf_lkb_sound d e : wf_lkb leqb d e = true -> wf_lk d e.
Proof.
  unfold wf_lkb. intros H.
  apply andb_prop in H as [H H3]. apply andb_prop in H as [H1 H2].
  rewrite forallb_forall in H1, H2, H3. repeat split.
  - intros k Hin. apply absent_spec. apply H1; exact Hin.
  - intros k Hin. apply in_map_fst in Hin as [v Hin].
    specialize (H2 _ Hin). cbn in H2. apply orb_prop in H2 as [H2|H2].
    + left. apply kmem_In; exact H2.
    + right. apply (oeqb_spec leqb leqb_spec) in H2. exact H2.
  - intros k w Hin. specialize (H3 _ Hin). cbn in H3.
    apply orb_prop in H3 as [H3|H3]; [left|right]; apply kmem_In; exact H3.
Qed.

Lemma wf_chainb_sound d e : wf_chainb d e = true -> wf_chain d e.
Proof.
  unfold wf_chainb. intros H.
  apply andb_prop in H as [H H4]. apply andb_prop in H as [H H3]. apply andb_prop in H as [H1 H2].
  repeat split.
  - apply N.ltb_lt; exact H1.
  - apply keqb_eq; exact H2.
  - apply (oeqb_spec keqb keqb_eq) in H3. exact H3.
  - apply absent_spec; exact H4.
Qed.

Lemma wf_effectb_sound d e : wf_effectb leqb d e = true -> wf_effect d e.
Proof.
  unfold wf_effectb. intros H. apply andb_prop in H as [H H3]. apply andb_prop in H as [H1 H2].
  split; [apply wf_utxob_sound; assumption|split; [apply wf_lkb_sound; assumption|apply wf_chainb_sound; assumption]].
Qed.

Lemma wf_branchb_sound es : forall d, wf_branchb leqb d es = true -> wf_branch d es.
Proof.
  induction es as [|e es IH]; intros d H; cbn in *; [exact I|].
  apply andb_prop in H as [H1 H2]. split; [apply wf_effectb_sound; exact H1|apply IH; exact H2].
Qed.

Lemma smap_eqb_eq {V} (f : V -> V -> bool) (Hf : forall a b, f a b = true <-> a = b) (a b : smap V) :
  smap_eqb f a b = true -> a = b.
Proof.
  revert b; induction a as [|[k v] a IH]; intros [|[k' v'] b] H; cbn in H; try discriminate; [reflexivity|].
  apply andb_prop in H as [H H3]. apply andb_prop in H as [H1 H2].
  apply keqb_eq in H1. apply Hf in H2. subst. f_equal. apply IH; exact H3.
Qed.

Lemma db_eqb_eq (x y : db) : db_eqb leqb x y = true -> x = y.
Proof.
  unfold db_eqb. intros H.
  apply andb_prop in H as [H H4]. apply andb_prop in H as [H H3]. apply andb_prop in H as [H1 H2].
  apply db_ext.
  - apply (smap_eqb_eq keqb keqb_eq); exact H1.
  - apply (smap_eqb_eq leqb leqb_spec); exact H2.
  - apply (smap_eqb_eq keqb keqb_eq); exact H3.
  - apply keqb_eq; exact H4.
Qed.

End Generic.

Lemma db_sortedb_ok {L} (d : db L) : db_sortedb d = true -> db_ok d.
Proof.
  unfold db_sortedb. intros H. apply andb_prop in H as [H H3]. apply andb_prop in H as [H1 H2].
  repeat split; apply sortedb_sorted; assumption.
Qed.

Lemma wf_checked (d : db val) (e : effect val) :
  db_sortedb d = true -> wf_effectb keqb d e = true -> db_ok d /\ wf_effect d e.
Proof.
  intros S W. split; [apply db_sortedb_ok; exact S|apply (wf_effectb_sound keqb keqb_eq); exact W].
Qed.

(* block 5 on [ic_db]: tx1 spends [1] and creates [7] and [8]; tx2 spends [7] (created by tx1 in the
   same block) and creates [9]; tx3 spends [9] and creates [6]; an old output [3] is trimmed *)
Definition ic_db : db val :=
  mkDb [([1], [10]); ([2], [20]); ([3], [30])] [] [([4], [44])] [44].
Definition ic_eff : effect val :=
  mkEff 5 [55] [44] [([7], [70]); ([8], [80]); ([9], [90]); ([6], [60])] [[7]; [8]; [9]; [6]]
        [([1], [10]); ([7], [70]); ([9], [90])] [([3], [30])] [] [] [].

Lemma ic_wf : db_ok ic_db /\ wf_effect ic_db ic_eff.
Proof. apply wf_checked; reflexivity. Qed.

(* the restore record of the lockup says [0;7;2] where the database held [0;7;1]: what AddNewLock
   records when an update changes the delegate *)
Definition f6_db : db val :=
  mkDb [] [([99;108;1], [0;7;1])] [([4], [44])] [44].
Definition f6_eff : effect val :=
  mkEff 5 [55] [44] [] [] [] [] [([99;108;1], Some [0;9;2])] [] [([99;108;1], [0;7;2])].

Lemma f6_shape_refuted :
  db_ok f6_db /\ wf_utxo f6_db f6_eff /\ wf_chain f6_db f6_eff /\
  (forall k, In k (e_lk_created f6_eff) -> get k (lockups f6_db) = None) /\
  (forall k w, In (k, w) (e_lk_writes f6_eff) -> In k (e_lk_created f6_eff) \/ In k (map fst (e_lk_deleted f6_eff))) /\
  rollback (apply f6_db f6_eff) f6_eff <> f6_db.
Proof.
  split; [apply db_sortedb_ok; reflexivity|].
  split; [repeat split; cbn; contradiction|].
  split; [repeat split|].
  split; [intros k []|].
  split; [intros k w [H|[]]; inversion H; right; left; reflexivity|].
  vm_compute. discriminate.
Qed.

Definition heights_ok (m : smap lkrec) : Prop := forall k r, get k m = Some r -> lk_height r <> 0.

Definition no_add_after_claim (rs : list lkreq) : Prop :=
  forall k, In (RClaim k) rs -> forall v uh dg, ~ In (RAdd k v uh dg) rs.

Lemma lkrec_eqb_spec a b : lkrec_eqb a b = true <-> a = b.
Proof.
  destruct a as [a1 a2 a3 a4], b as [b1 b2 b3 b4]. unfold lkrec_eqb; cbn. split.
  - intros H. apply andb_prop in H as [H H4]. apply andb_prop in H as [H H3]. apply andb_prop in H as [H1 H2].
    apply N.eqb_eq in H1, H2, H3. apply keqb_eq in H4. subst. reflexivity.
  - intros H; inversion H; subst. rewrite !N.eqb_refl, keqb_refl. reflexivity.
Qed.

Lemma add_new_lock_old_cases old v uh eb dg :
  match add_new_lock_s true old v uh eb dg with
  | AErr => True
  | ACreated _ => forall r, old = Some r -> lk_height r = 0
  | AUpdated u n => old = Some u /\ lk_height n <> 0
  end.
Proof.
  unfold add_new_lock_s. destruct old as [[b h c g]|]; cbn [lk_height lk_bal lk_elems lk_deleg].
  - destruct (negb (h =? 0) && (uh <? h)); [exact I|].
    destruct (h =? 0) eqn:Eh.
    + intros r E. inversion E; subst r. apply N.eqb_eq. exact Eh.
    + split; [reflexivity|apply N.eqb_neq; exact Eh].
  - intros r E. discriminate E.
Qed.

Section LockupUndo.
Variable m0 : smap lkrec.
Variable noadd : key -> Prop.

(* While Process walks over the requests of a block that starts on [m0], undoing what the
   accumulator holds gives [m0] back; [noadd] = keys no request of the block tops up (a claimed
   key is one): any other record of [m0] is still one AddNewLock would update. *)
Record lk_inv (a : lkacc) : Prop := {
  i_sorted : sorted (a_map a);
  i_undone : forall k, undone (a_created a) (a_deleted a) (a_map a) k = get k m0;
  i_writes : forall k w, In (k, w) (a_writes a) -> In k (a_created a) \/ In k (map fst (a_deleted a));
  i_live : forall k r0, get k m0 = Some r0 ->
           noadd k \/ exists r, get k (a_map a) = Some r /\ lk_height r <> 0
}.

Lemma lk_inv_create a k n : lk_inv a -> ~ noadd k ->
  (forall r, get k (a_map a) = Some r -> lk_height r = 0) ->
  lk_inv (mkAcc (put k n (a_map a)) (a_writes a ++ [(k, Some n)]) (a_created a ++ [k]) (a_deleted a)).
Proof.
  intros I Hk H0.
  constructor; unfold undone; cbn [a_map a_writes a_created a_deleted].
  - apply put_sorted. exact (i_sorted a I).
  - intros k0. rewrite kmem_snoc, get_put. destruct (keqb k0 k) eqn:E.
    + apply keqb_eq in E; subst k0. rewrite orb_true_r.
      (* [m0] holds nothing at the created key: a record there would still be live, and AddNewLock
         creates only over height 0 *)
      destruct (get k m0) as [r0|] eqn:G; [|reflexivity].
      destruct (i_live a I k r0 G) as [Hn|[r [Hr Hh]]]; [contradiction|destruct Hh; apply H0; exact Hr].
    + rewrite orb_false_r. apply (i_undone a I).
  - intros k0 w Hin. apply in_app_or in Hin as [Hin|[E|[]]].
    + destruct (i_writes a I _ _ Hin) as [H|H]; [left; apply in_or_app; left; exact H|right; exact H].
    + inversion E; subst. left. apply in_or_app; right; left; reflexivity.
  - intros k0 r0 G. destruct (i_live a I k0 r0 G) as [Hn|[r [Hr Hh]]]; [left; exact Hn|right].
    exists r. split; [|exact Hh]. rewrite get_put_other; [exact Hr|].
    intros ->. destruct Hh. apply H0. exact Hr.
Qed.

(* [w = Some n]: AddNewLock updates the record; [w = None]: a claim deletes it *)
Lemma lk_inv_record a k w old : lk_inv a -> get k (a_map a) = Some old ->
  match w with Some n => lk_height n <> 0 | None => noadd k end ->
  lk_inv (mkAcc (lk_write (a_map a) (k, w)) (a_writes a ++ [(k, w)]) (a_created a) (a_deleted a ++ [(k, old)])).
Proof.
  intros I Eo Hw. pose proof (i_sorted a I) as S.
  constructor; unfold undone; cbn [a_map a_writes a_created a_deleted].
  - apply lk_write_sorted. exact S.
  - (* at [k] the new record reads [old], which is what the batch held there *)
    intros k0. rewrite <- (i_undone a I k0). unfold undone.
    rewrite first_rec_app, get_lk_write by exact S. cbn [first_rec].
    destruct (kmem k0 (a_created a)); [reflexivity|].
    destruct (first_rec k0 (a_deleted a)); [reflexivity|].
    destruct (keqb k0 k) eqn:E; [|reflexivity]. apply keqb_eq in E; subst k0. symmetry. exact Eo.
  - intros k0 w0 Hin. rewrite map_app. apply in_app_or in Hin as [Hin|[E|[]]].
    + destruct (i_writes a I _ _ Hin) as [H|H]; [left; exact H|right; apply in_or_app; left; exact H].
    + inversion E; subst. right. apply in_or_app; right; left; reflexivity.
  - intros k0 r0 G. rewrite get_lk_write by exact S. destruct (keqb k0 k) eqn:E.
    + apply keqb_eq in E; subst k0. destruct w as [n|]; [right; exists n; split; [reflexivity|exact Hw]|left; exact Hw].
    + exact (i_live a I k0 r0 G).
Qed.

Lemma lk_step_inv eb a r : lk_inv a ->
  match r with RAdd k _ _ _ => ~ noadd k | RClaim k => noadd k end ->
  lk_inv (lk_step true eb a r).
Proof.
  intros I Hr. destruct r as [k v uh dg|k]; cbn [lk_step].
  - pose proof (add_new_lock_old_cases (get k (a_map a)) v uh eb dg) as C.
    destruct (add_new_lock_s true (get k (a_map a)) v uh eb dg) as [|n|u n].
    + exact I.
    + apply lk_inv_create; assumption.
    + destruct C as [Eo Hn]. apply (lk_inv_record a k (Some n) u I Eo Hn).
  - destruct (get k (a_map a)) as [old|] eqn:Eo; [|exact I].
    apply (lk_inv_record a k None old I Eo Hr).
Qed.
End LockupUndo.

Lemma lk_process_inv eb m0 rs : sorted m0 -> heights_ok m0 -> no_add_after_claim rs ->
  lk_inv m0 (fun k => In (RClaim k) rs) (lk_process true eb m0 rs).
Proof.
  intros S0 H0 Hno. unfold lk_process. apply fold_left_inv.
  - intros a r Hin I. apply lk_step_inv; [exact I|].
    destruct r as [k v uh dg|k]; [|exact Hin]. intros Hc. exact (Hno k Hc v uh dg Hin).
  - constructor; cbn; [exact S0|reflexivity|contradiction|].
    intros k r0 G. right. exists r0. split; [exact G|exact (H0 k r0 G)].
Qed.

Lemma lk_effect_wf eb n h p (d : db lkrec) rs :
  sorted (lockups d) -> heights_ok (lockups d) -> no_add_after_claim rs ->
  wf_lk d (lk_effect true eb n h p (lockups d) rs).
Proof.
  intros S H0 Hno. pose proof (lk_process_inv eb (lockups d) rs S H0 Hno) as I.
  unfold lk_effect, wf_lk; cbn [e_lk_created e_lk_deleted e_lk_writes].
  set (a := lk_process true eb (lockups d) rs) in *.
  pose proof (i_undone _ _ _ I) as U.
  split; [|split].
  - intros k H. rewrite <- U. apply undone_created. exact H.
  - intros k H. rewrite <- U. destruct (kmem_dec k (a_created a)) as [Hc|Hc]; [left; exact Hc|right].
    destruct (first_rec k (a_deleted a)) eqn:F; [|apply first_rec_None in F; contradiction].
    symmetry. apply undone_recorded; assumption.
  - exact (i_writes _ _ _ I).
Qed.

Lemma add_new_lock_stable old v uh eb dg :
  (match old with Some r => (lk_height r =? 0) || keqb (lk_deleg r) (norm_deleg dg) | None => true end) = true ->
  add_new_lock_s false old v uh eb dg = add_new_lock_s true old v uh eb dg.
Proof.
  intros H. unfold add_new_lock_s. destruct old as [r|]; cbn in *; [|reflexivity].
  destruct (negb (lk_height r =? 0) && (uh <? lk_height r)); [reflexivity|].
  destruct (lk_height r =? 0) eqn:E; [reflexivity|]. cbn in H. apply keqb_eq in H. rewrite H. reflexivity.
Qed.

Lemma lk_step_map u eb a r :
  a_map (lk_step u eb a r) = a_map (lk_step u eb (mkAcc (a_map a) [] [] []) r).
Proof.
  destruct r as [k v uh dg|k]; cbn.
  - destruct (add_new_lock_s u (get k (a_map a)) v uh eb dg); reflexivity.
  - destruct (get k (a_map a)); reflexivity.
Qed.

Lemma lk_process_stable eb rs : forall a, delegate_stable eb (a_map a) rs = true ->
  fold_left (lk_step false eb) rs a = fold_left (lk_step true eb) rs a.
Proof.
  induction rs as [|r rs IH]; intros a H; cbn in *; [reflexivity|].
  apply andb_prop in H as [H1 H2].
  replace (lk_step false eb a r) with (lk_step true eb a r).
  - apply IH. rewrite lk_step_map. exact H2.
  - destruct r as [k v uh dg|k]; cbn; [|reflexivity]. rewrite add_new_lock_stable; [reflexivity|exact H1].
Qed.

Lemma lk_effect_stable eb n h p m rs : delegate_stable eb m rs = true ->
  lk_effect false eb n h p m rs = lk_effect true eb n h p m rs.
Proof.
  intros H. unfold lk_effect, lk_process. rewrite (lk_process_stable eb rs (mkAcc m [] [] []) H). reflexivity.
Qed.

(* a block whose undo record is wrong when it carries the NEW delegate: a tranche created without
   delegate is topped up by a coinbase naming one *)
Definition f6_key : key := [99; 108; 1].
Definition f6_map : smap lkrec := [(f6_key, mkLk 5000 8 1 [])].
Definition f6_reqs : list lkreq := [RAdd f6_key 5000 9 [58; 214]].
