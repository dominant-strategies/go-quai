(* C19 -- what each operation of the pool model does, once: the transactions it moves through
   limbo (structural invariant Inv0), and what it does to the chain state, the pending lists
   and pendingNonces (the account predicates of Proofs/C19_State.v).  From these, every step
   keeps Inv0 and the state invariants W / T4 (step_inv0, step_IWT). *)
From Coq Require Import List NArith Bool Lia.
From GQ Require Import Lib.Lists Model.C19 Proofs.C19_Lists Proofs.C19_Moves Proofs.C19_Struct Proofs.C19_State.
Import ListNotations.
Local Open Scope N_scope.

(* Forward, Filter, Cap: what leaves the list leaves the hash index *)
Lemma side_drop inq a p keep out : Inv0 p -> splits (aget a (side inq p)) keep out ->
  exists al, all_remove_list out (set_side inq a keep p) = set_all al (set_side inq a keep p) /\
             Inv0 (set_all al (set_side inq a keep p)).
Proof.
  intros H S. destruct (all_remove_list_eq out (set_side inq a keep p)) as [al E]. exists al. split; [exact E|].
  rewrite <- E. apply (invr_drop_all a), invr_to_limbo; assumption.
Qed.

Lemma promote_run_frame c a D p : InvR a D p ->
  let p' := fold_left (fun s t => promote_tx c a t s) D p in
  p_st p' = p_st p /\ forall b, b <> a -> aget b (p_pend p') = aget b (p_pend p) /\ pn_get p' b = pn_get p b.
Proof.
  revert p. induction D as [|x D IH]; intros p H; cbn [fold_left]; [cbn; auto|].
  destruct (IH _ (invr_promote c a x _ p H)) as [B C]. cbn zeta in *.
  pose proof (promote_tx_fresh c _ _ _ (limbo_not_in false _ _ _ _ H)) as Ex. split; [rewrite B, Ex; reflexivity|].
  intros b Hb. destruct (C b Hb) as [C1 C2]. rewrite C1, C2, Ex, pn_get_pn_set. psimpl.
  rewrite aget_aset_other by auto. assert (E : a =? b = false) by lia. rewrite E. auto.
Qed.

Lemma all_remove_list_queue D p : p_queue (all_remove_list D p) = p_queue p.
Proof. destruct (all_remove_list_eq D p) as [al ->]. reflexivity. Qed.
Lemma promote_run_queue c a D p : p_queue (fold_left (fun s t => promote_tx c a t s) D p) = p_queue p.
Proof.
  apply (fold_left_inv (fun q => p_queue q = p_queue p)); [|reflexivity]. intros q x _ <-.
  unfold promote_tx. destruct (l_add _ _ _) as [[pl' [o|]]|]; psimpl; rewrite ?removed_queue; reflexivity.
Qed.

Lemma promote_one_queue c a p : exists q3,
  (forall b, aget b (p_queue (promote_one c a p)) = if a =? b then snd (l_cap (c_aqueue c) q3) else aget b (p_queue p)) /\
  (forall x, In x q3 -> In x (aget a (p_queue p)) /\ payable p a x).
Proof.
  unfold promote_one. destruct (aget a (p_queue p)) as [|q0 qr] eqn:Eq.
  { exists []. split; [|intros x []]. intros b. cbn [l_cap snd]. rewrite firstn_nil.
    destruct (a =? b) eqn:E; [|reflexivity]. assert (b = a) by lia. subst b. exact Eq. }
  rewrite <- Eq. pose proof (l_forward_snd (st_nonce p a) (aget a (p_queue p))) as Ffw.
  destruct (l_forward _ _) as [fw q1]. cbn [snd] in Ffw.
  destruct (l_filter false _ _ q1) as [[drops inv] q2] eqn:EF. pose proof (l_filter_keep _ _ _ _ _ _ _ EF) as Fkeep.
  destruct (l_ready _ q2) as [D q3] eqn:ER. destruct (l_ready_split _ _ _ _ ER) as [Eapp _].
  exists q3. split.
  - intros b. destruct (l_cap (c_aqueue c) q3) as [caps q4]. cbn [snd].
    rewrite removed_queue, all_remove_list_queue. psimpl. rewrite promote_run_queue. psimpl.
    rewrite all_remove_list_queue. psimpl. rewrite all_remove_list_queue. psimpl.
    rewrite !aget_aset. destruct (a =? b); reflexivity.
  - intros x Hx. destruct (proj1 (Fkeep x)) as [Hq1 Hp]; [right; rewrite Eapp; apply in_or_app; auto|].
    apply Ffw in Hq1. split; [apply Hq1|exact Hp].
Qed.

(* what holds of the transactions Ready hands to promoteTx, after Forward and Filter *)
Definition ready_run (p : pool) (a : N) (D : txl) : Prop :=
  (forall x, In x D -> st_nonce p a <= t_nonce x /\ payable p a x) /\
  match D with [] => True | x :: _ => t_nonce x <= pn_get p a /\ contig (t_nonce x) D end.

(* promoteExecutables on account a, up to what the account predicates read *)
Inductive promotes (c : cfg) (a : N) (p p' : pool) : Prop :=
| promotes_run p0 D : same_view p p0 -> InvR a D p0 -> ready_run p0 a D ->
    same_view (fold_left (fun s t => promote_tx c a t s) D p0) p' -> promotes c a p p'.

Lemma promote_one_shape c a p : Inv0 p -> Inv0 (promote_one c a p) /\ promotes c a p (promote_one c a p).
Proof.
  intros H0. unfold promote_one.
  destruct (aget a (p_queue p)) as [|q0 qr] eqn:Eq.
  { split; [exact H0|]. apply (promotes_run c a p p p []); [apply sv_refl|apply (invr_nil a), H0|split; [intros ? []|exact I]|apply sv_refl]. }
  rewrite <- Eq. set (q := aget a (p_queue p)).
  assert (Sq : sorted q) by apply (ir_queue _ _ _ H0 a).
  pose proof (l_forward_splits (st_nonce p a) q Sq) as Sf.
  pose proof (l_forward_snd (st_nonce p a) q) as Ffw.
  destruct (l_forward (st_nonce p a) q) as [fw q1]. cbn [fst snd] in Sf, Ffw.
  destruct (side_drop true a p q1 fw H0 Sf) as [al1 [E1 H1]]. cbn [set_side] in E1, H1. rewrite E1. set (p1 := set_all al1 (set_queue a q1 p)) in *.
  assert (Sq1 : sorted q1) by apply Sf.
  destruct (l_filter false (st_bal p a) (s_maxgas (p_st p)) q1) as [[drops inv] q2] eqn:EF.
  pose proof (l_filter_splits _ _ _ _ _ _ _ Sq1 EF) as SF.
  rewrite (l_filter_nonstrict _ _ _ _ _ _ _ EF eq_refl), app_nil_r in SF.
  pose proof (l_filter_keep _ _ _ _ _ _ _ EF) as Fkeep.
  destruct (side_drop true a p1 q2 drops H1) as [al2 [E2 H2]]; [unfold p1; psimpl; rewrite aget_aset_same; exact SF|].
  cbn [set_side] in E2, H2. rewrite E2.
  set (p2 := set_all al2 (set_queue a q2 p1)) in *.
  assert (Sq2 : sorted q2) by apply SF.
  assert (Hq2 : forall x, In x q2 -> st_nonce p a <= t_nonce x /\ payable p a x).
  { intros x Hx. destruct (proj1 (Fkeep x) (or_intror Hx)) as [Hq1 Hp]. apply Ffw in Hq1. tauto. }
  (* Ready: D waits in limbo until promoteTx has placed it *)
  destruct (l_ready (pn_get p2 a) q2) as [D q3] eqn:ER.
  destruct (l_ready_split _ _ _ _ ER) as [Eapp Hready].
  assert (SR : splits (aget a (p_queue p2)) q3 D).
  { unfold p2. psimpl. rewrite aget_aset_same, Eapp. apply splits_app. rewrite <- Eapp. exact Sq2. }
  pose proof (invr_to_limbo true a p2 q3 D H2 SR) as H3.
  set (p0 := set_queue a q3 p2) in *.
  assert (HR : ready_run p0 a D).
  { split; [|exact Hready]. intros x Hx. apply Hq2. rewrite Eapp. apply in_or_app. auto. }
  pose proof (invr_promote_all c a D p0 H3) as H3'.
  pose proof (promote_run_queue c a D p0) as Fq.
  set (p3 := fold_left (fun s t => promote_tx c a t s) D p0) in *.
  pose proof (l_cap_app (c_aqueue c) q3) as Ecap.
  destruct (l_cap (c_aqueue c) q3) as [caps q4]. cbn [fst snd] in Ecap.
  assert (SC : splits (aget a (p_queue p3)) q4 caps).
  { rewrite Fq. unfold p0. psimpl. rewrite aget_aset_same, Ecap. apply splits_app. rewrite <- Ecap. apply SR. }
  destruct (side_drop true a p3 q4 caps H3' SC) as [al4 [E4 H4]]. cbn [set_side] in E4, H4. rewrite E4.
  destruct (removed_eq (len fw + len drops + len caps) (set_all al4 (set_queue a q4 p3))) as [h [s ->]].
  split; [eapply invr_same; [|exact H4]; repeat split|]. apply (promotes_run c a p _ p0 D); [repeat split|exact H3|exact HR|repeat split].
Qed.

Lemma promote_one_inv0 c a p : Inv0 p -> Inv0 (promote_one c a p).
Proof. intros H. apply promote_one_shape, H. Qed.

Lemma requeue_list_frame c a D p : InvR a D p ->
  let p' := fold_left (fun s t => requeue c t s) D p in
  p_all p' = p_all p /\
  forall b x, In x (aget b (p_queue p')) -> In x (aget b (p_queue p)) \/ (b = a /\ In x D).
Proof.
  revert p. induction D as [|y D IH]; intros p H; cbn [fold_left]; [cbn; auto|].
  destruct (IH _ (invr_requeue c a y _ p H)) as [A B]. cbn zeta in *. pose proof (requeue_eq c _ _ _ _ H) as Ey.
  split; [rewrite A, Ey; reflexivity|]. intros b x Hx. apply B in Hx. destruct Hx as [Hx|[-> Hx]]; [|right; cbn; auto].
  rewrite Ey in Hx. psimpl. rewrite aget_aset in Hx. destruct (a =? b) eqn:E; [|auto].
  assert (b = a) by lia. subst b. apply l_put_in_weak in Hx as [->|Hx]; [right; cbn; auto|auto].
Qed.

Lemma demote_one_view c a p : same_view (demoted a p) (demote_one c a p).
Proof.
  unfold demote_one, demoted, demote_keep. destruct (l_forward _ _) as [olds l1]. cbn [snd].
  destruct (l_filter true _ _ l1) as [[drops invalids] l2]. cbn [snd].
  assert (V4 : same_view (set_pend a l2 p)
                 (fold_left (fun s t => requeue c t s) invalids (all_remove_list drops (set_pend a l2 (all_remove_list olds (set_pend a l1 p)))))).
  { eapply sv_trans; [|apply sv_requeue_list]. destruct (all_remove_list_eq olds (set_pend a l1 p)) as [al1 ->].
    destruct (all_remove_list_eq drops (set_pend a l2 (set_all al1 (set_pend a l1 p)))) as [al2 ->].
    split; [reflexivity|]. split; [apply aset_aset|reflexivity]. }
  destruct l2 as [|y l2']; [exact V4|]. destruct (l_get _ (y :: l2')); [exact V4|].
  eapply sv_trans; [|apply sv_requeue_list]. destruct V4 as [E1 [E2 E3]]. split; [exact E1|]. split; [|exact E3].
  psimpl. rewrite E2. apply aset_aset.
Qed.

Lemma demote_one_shape c a p : Inv0 p ->
  Inv0 (demote_one c a p) /\
  forall b x, In x (aget b (p_queue (demote_one c a p))) ->
    In x (aget b (p_queue p)) \/ (b = a /\ In x (aget a (p_pend p)) /\ payable p a x).
Proof.
  intros H0. unfold demote_one. set (pl := aget a (p_pend p)). assert (Spl : sorted pl) by apply (ir_pend _ _ _ H0 a).
  pose proof (l_forward_splits (st_nonce p a) pl Spl) as Sf.
  pose proof (l_forward_snd (st_nonce p a) pl) as Ffw.
  destruct (l_forward (st_nonce p a) pl) as [olds l1]. cbn [fst snd] in Sf, Ffw.
  destruct (side_drop false a p l1 olds H0 Sf) as [al1 [E1 H1]]. cbn [set_side] in E1, H1. rewrite E1. set (p1 := set_all al1 (set_pend a l1 p)) in *.
  assert (Sl1 : sorted l1) by apply Sf.
  (* strict Filter: the unpayable ones leave the index, the invalids go back to the queue *)
  destruct (l_filter true (st_bal p a) (s_maxgas (p_st p)) l1) as [[drops invalids] l2] eqn:EF.
  assert (SF : splits (aget a (p_pend p1)) l2 (drops ++ invalids)).
  { unfold p1. psimpl. rewrite aget_aset_same. apply (l_filter_splits _ _ _ _ _ _ _ Sl1 EF). }
  assert (Kept : forall x, In x invalids \/ In x l2 -> In x pl /\ payable p a x).
  { intros x Hx. destruct (proj1 (l_filter_keep _ _ _ _ _ _ _ EF x) Hx) as [Hl1 Hp]. apply Ffw in Hl1. tauto. }
  pose proof (invr_to_limbo false a p1 l2 (drops ++ invalids) H1 SF) as H2. cbn [set_side] in H2.
  apply (invr_fold (fun q t => all_remove t q) a (invr_drop_one a)) in H2. fold (all_remove_list drops (set_pend a l2 p1)) in H2.
  destruct (all_remove_list_eq drops (set_pend a l2 p1)) as [al2 E2]. rewrite E2 in *.
  set (p2 := set_all al2 (set_pend a l2 p1)) in *.
  destruct (requeue_list_frame c a invalids p2 H2) as [_ Q4]. apply (invr_requeue_all c) in H2.
  set (p4 := fold_left (fun s t => requeue c t s) invalids p2) in *. cbn zeta in Q4.
  assert (B4 : forall b x, In x (aget b (p_queue p4)) -> In x (aget b (p_queue p)) \/ (b = a /\ In x pl /\ payable p a x)).
  { intros b x Hx. apply Q4 in Hx. destruct Hx as [Hx|[-> Hx]]; [left; exact Hx|right]. split; [reflexivity|]. apply Kept. auto. }
  destruct l2 as [|y l2']; [split; assumption|]. destruct (l_get (st_nonce p a) (y :: l2')); [split; assumption|].
  (* gap in front: the whole list goes back to the queue *)
  assert (E4 : aget a (p_pend p4) = y :: l2').
  { unfold p4. rewrite (proj1 (proj2 (sv_requeue_list c invalids p2))). unfold p2. psimpl. apply aget_aset_same. }
  assert (SG : splits (aget a (p_pend p4)) [] (y :: l2')).
  { rewrite E4. apply splits_all, SF. }
  pose proof (invr_to_limbo false a p4 [] (y :: l2') H2 SG) as H5.
  destruct (requeue_list_frame c a (y :: l2') _ H5) as [_ Q5]. cbn zeta in Q5. split; [apply (invr_requeue_all c a), H5|].
  intros b x Hx. apply Q5 in Hx. destruct Hx as [Hx|[-> Hx]]; [apply B4, Hx|right]. split; [reflexivity|]. apply Kept. auto.
Qed.

Lemma demote_one_inv0 c a p : Inv0 p -> Inv0 (demote_one c a p).
Proof. intros H. apply demote_one_shape, H. Qed.
Lemma demote_all_inv0 c p : Inv0 p -> Inv0 (demote_all c p).
Proof. apply (fold_pres Inv0 (fun s a => demote_one c a s)). intros a q. apply demote_one_inv0. Qed.

Lemma remove_tx_truncates c t ob p : truncates (t_from t) p (remove_tx c t ob p).
Proof.
  destruct (remove_cases c t ob p) as [_|y invalids pl' _ Eg Er|_ _]; [apply truncates_refl| |].
  - pose proof (l_remove_strict_below (t_nonce t) (aget (t_from t) (p_pend p))) as Eb. rewrite Er in Eb. cbn [snd] in Eb. subst pl'.
    apply (truncates_cut _ (t_nonce t)); [apply l_get_hasn; eauto|].
    apply sv_pn_set_if_lower. eapply sv_trans; [|apply sv_requeue_list]. destruct (unindexed_eq ob t p) as [h [s ->]]. repeat split.
  - destruct (unindexed_eq ob t p) as [h [s ->]]. repeat split. left. split; reflexivity.
Qed.

Lemma remove_tx_index c t ob p : Inv0 p ->
  Inv0 (remove_tx c t ob p) /\ forall x, in_all x (remove_tx c t ob p) <-> in_all x p /\ x <> t.
Proof.
  intros H0. set (a := t_from t). pose proof (indexed_where t p H0) as Wh.
  destruct (remove_cases c t ob p) as [Eh|y invalids pl' Eh Eg Er|Eh Eg]; fold a.
  - apply all_has_false in Eh. split; [exact H0|]. intros x. split; [intros Hx; split; [exact Hx|intros ->; auto]|tauto].
  - specialize (Wh Eh). rewrite Eg in Wh. subst y. apply l_get_in in Eg as [Ht _]. destruct (unindexed_eq ob t p) as [h [s ->]].
    pose proof (l_remove_strict_splits (t_nonce t) _ t (proj1 (ir_pend _ _ _ H0 a)) Ht eq_refl) as S. unfold a in S. rewrite Er in S. cbn [fst snd] in S.
    pose proof (invr_to_limbo false a p pl' (t :: invalids) H0 S) as H1. apply invr_drop_one in H1.
    (* the bookkeeping of the price heap does not matter to InvR *)
    apply (invr_same _ _ _ (set_pend a pl' (set_priced h s (all_remove t p)))) in H1; [|repeat split].
    destruct (requeue_list_frame c a invalids _ H1) as [EA _]. cbn zeta in EA. split.
    + eapply invr_same; [apply same_pn_set_if_lower|apply (invr_requeue_all c a), H1].
    + intros x. unfold in_all, pn_set_if_lower. destruct (_ <=? _); psimpl; rewrite EA; apply (in_all_remove t x p).
  - specialize (Wh Eh). rewrite Eg in Wh. destruct (unindexed_eq ob t p) as [h [s ->]].
    pose proof (l_remove_splits (t_nonce t) _ t (proj1 (ir_queue _ _ _ H0 a)) Wh eq_refl) as S.
    pose proof (invr_to_limbo true a p _ [t] H0 S) as H1. apply invr_drop_one in H1. split.
    + apply (invr_nil a). eapply invr_same; [|exact H1]. repeat split.
    + intros x. apply (in_all_remove t x p).
Qed.
Lemma remove_tx_inv0 c t ob : pres Inv0 (remove_tx c t ob).
Proof. intros p H. apply remove_tx_index, H. Qed.

Lemma remove_tx_not_pending c t ob p : l_get (t_nonce t) (aget (t_from t) (p_pend p)) = None -> same_view p (remove_tx c t ob p).
Proof.
  intros Eg. destruct (remove_cases c t ob p) as [_|y invalids pl' _ Ey _|_ _]; [apply sv_refl|congruence|].
  destruct (unindexed_eq ob t p) as [h [s ->]]. repeat split.
Qed.

Lemma remove_tx_queued c t ob p : Inv0 p -> In t (aget (t_from t) (p_queue p)) ->
  p_queue (remove_tx c t ob p) = aset (t_from t) (l_remove (t_nonce t) (aget (t_from t) (p_queue p))) (p_queue p).
Proof.
  intros H0 Ht. pose proof (queued_not_pending p _ t H0 Ht) as Eg.
  destruct (remove_cases c t ob p) as [Eh|y invalids pl' _ Ey _|_ _]; [|congruence|].
  - exfalso. apply all_has_false in Eh. apply Eh, (listed_iff p (t_from t) t H0). auto.
  - destruct (unindexed_eq ob t p) as [h [s ->]]. reflexivity.
Qed.

Definition evict_list (c : cfg) (L : list tx) (p : pool) : pool :=
  fold_left (fun s t => remove_tx c t true s) L p.

Lemma evict_list_inv0 c L : pres Inv0 (evict_list c L).
Proof. apply fold_pres. intros t. apply remove_tx_inv0. Qed.

Lemma evict_list_in_all c L p x : Inv0 p ->
  (in_all x (evict_list c L p) <-> in_all x p /\ ~ In x L).
Proof.
  revert p. induction L as [|t L IH]; intros p H0; cbn [evict_list fold_left In]; [tauto|].
  change (fold_left (fun s u => remove_tx c u true s) L (remove_tx c t true p)) with (evict_list c L (remove_tx c t true p)).
  rewrite IH by (apply remove_tx_inv0; exact H0). rewrite (proj2 (remove_tx_index c t true p H0)).
  intuition congruence.
Qed.

Lemma evict_queued c a L p : Inv0 p -> (forall t, In t L -> In t (aget a (p_queue p))) ->
  same_view p (evict_list c L p) /\
  forall b x, In x (aget b (p_queue (evict_list c L p))) <-> In x (aget b (p_queue p)) /\ ~ In x L.
Proof.
  intros H0 HL.
  assert (V : same_view p (evict_list c L p)).
  { (* no nonce of L is pending, and stays so while the pending map does not move *)
    apply (fold_left_inv (same_view p)); [|apply sv_refl]. intros q t Ht V. apply HL in Ht.
    apply (sv_trans _ _ _ V), remove_tx_not_pending.
    rewrite (proj1 (proj2 V)), (proj2 (ir_queue _ _ _ H0 a) t Ht). exact (queued_not_pending p a t H0 Ht). }
  pose proof (evict_list_inv0 c L p H0) as H'.
  split; [exact V|]. intros b x.
  rewrite (queue_is_rest _ b x H'), (queue_is_rest p b x H0), (evict_list_in_all c L p x H0), (proj1 (proj2 V)). tauto.
Qed.

Lemma evict_queue_queues c a p b : Inv0 p ->
  aget b (p_queue (evict_list c (aget a (p_queue p)) p)) = if a =? b then [] else aget b (p_queue p).
Proof.
  intros H0. destruct (evict_queued c a _ p H0 (fun t Ht => Ht)) as [_ Q].
  pose proof (evict_list_inv0 c (aget a (p_queue p)) p H0) as H'.
  apply sorted_ext; [apply (ir_queue _ _ _ H' b)|destruct (a =? b); [exact I|apply (ir_queue _ _ _ H0 b)]|].
  intros x. rewrite Q. destruct (a =? b) eqn:E.
  - assert (b = a) by lia. subst b. cbn [In]. tauto.
  - (* the evicted transactions are a's *)
    split; [tauto|]. intros Hx. split; [exact Hx|]. intros Hl.
    pose proof (proj2 (ir_queue _ _ _ H0 b) x Hx). pose proof (proj2 (ir_queue _ _ _ H0 a) x Hl). lia.
Qed.

Lemma replace_in_side inq a t o loc p :
  Inv0 p -> In o (aget a (side inq p)) -> t_nonce o = t_nonce t -> t_from t = a -> ~ in_all t p ->
  Inv0 (set_side inq a (l_put t (aget a (side inq p))) (all_add t loc (all_remove o p))).
Proof.
  assert (Pend : forall p, Inv0 p -> In o (aget a (p_pend p)) -> t_nonce o = t_nonce t -> t_from t = a -> ~ in_all t p ->
                 Inv0 (set_pend a (l_put t (aget a (p_pend p))) (all_add t loc (all_remove o p)))).
  { clear p. intros p H Ho En Ht Hn.
    assert (Spl : sorted (aget a (p_pend p))) by apply (ir_pend _ _ _ H a).
    pose proof (l_remove_splits (t_nonce t) _ o Spl Ho En) as S.
    pose proof (invr_to_limbo false a p _ [o] H S) as H1. apply invr_drop_one, (invr_nil a) in H1. psimpl.
    set (pA := all_remove o (set_pend a (l_remove (t_nonce t) (aget a (p_pend p))) p)) in *.
    assert (H2 : InvR a [t] (all_add t loc pA)).
    { apply invr_all_add; auto.
      - unfold pA. rewrite in_all_remove. unfold in_all in *. psimpl. tauto.
      - unfold pA. psimpl. rewrite aget_aset_same. intros y [Hy|Hy].
        + apply l_remove_in in Hy. intros E. apply (proj2 Hy). auto.
        + intros E. apply (ir_disj _ _ _ H a o y); auto. congruence. }
    apply (invr_place false), (invr_nil a) in H2. eapply invr_same; [|exact H2].
    unfold same_lists, pA. psimpl. split; [|split; [reflexivity|reflexivity]].
    intros b. rewrite !aget_aset. destruct (a =? b) eqn:E; [|reflexivity].
    rewrite N.eqb_refl. symmetry. apply l_put_remove. exact Spl. }
  destruct inq; [|apply Pend]. intros H Ho En Ht Hn.
  exact (invr_swap _ _ _ (Pend (swap p) (invr_swap _ _ _ H) Ho En Ht Hn)).
Qed.

Lemma insert_in_queue a t loc p :
  Inv0 p -> l_get (t_nonce t) (aget a (p_pend p)) = None -> l_get (t_nonce t) (aget a (p_queue p)) = None ->
  t_from t = a -> ~ in_all t p ->
  Inv0 (set_queue a (l_put t (aget a (p_queue p))) (all_add t loc p)).
Proof.
  intros H G1 G2 Ht Hn. rewrite l_get_none in G1, G2.
  assert (H2 : InvR a [t] (all_add t loc p)).
  { apply invr_all_add; auto. intros y [Hy|Hy] E; [apply (G1 y)|apply (G2 y)]; auto. }
  apply (invr_place true), (invr_nil a) in H2. exact H2.
Qed.

Lemma placed_inv0 (inq : bool) t L p :
  Inv0 p -> ~ in_all t p ->
  (if inq then l_get (t_nonce t) (aget (t_from t) (p_pend p)) = None else l_get (t_nonce t) (aget (t_from t) (side inq p)) <> None) ->
  Inv0 (placed inq t L p).
Proof.
  intros H0 Hn Hs. unfold placed. eapply invr_same; [apply same_heap_put|].
  destruct (l_get (t_nonce t) (aget (t_from t) (side inq p))) as [o|] eqn:Eo.
  - apply l_get_in in Eo as [Ho En]. cbn [drop_old].
    destruct (removed_eq 1 (all_remove o (set_side inq (t_from t) (l_put t (aget (t_from t) (side inq p))) p))) as [h [s ->]].
    eapply invr_same; [|apply (replace_in_side inq _ t o L p H0 Ho En eq_refl Hn)]. destruct inq; repeat split.
  - destruct inq; [|congruence]. apply (insert_in_queue _ t L p H0 Hs Eo eq_refl Hn).
Qed.

Lemma placed_index inq t L p o x : l_get (t_nonce t) (aget (t_from t) (side inq p)) = Some o ->
  (in_all x (placed inq t L p) <-> x = t \/ (in_all x p /\ x <> o)).
Proof.
  intros Eo. unfold placed. rewrite Eo. cbn [drop_old].
  rewrite (in_all_same _ _ x (same_heap_put t L _)), in_all_add, (in_all_same _ _ x (same_removed 1 _)), in_all_remove.
  destruct inq; reflexivity.
Qed.

Lemma add_inv0 c t loc p : Inv0 p -> Inv0 (fst (fst (add c t loc p))).
Proof.
  intros H0. destruct (add_cases c t loc p) as [v _| |inq mark l Eh A Hs _ _ q]; cbn [fst];
    [exact H0|eapply invr_same; [|exact H0]; repeat split|].
  assert (H1 : Inv0 q) by (apply placed_inv0; [exact H0|apply all_has_false, Eh|exact Hs]).
  destruct mark; [eapply invr_same; [apply same_mark_local|]|]; exact H1.
Qed.

Lemma add_view c t loc p p' v r : add c t loc p = (p', v, r) ->
  same_view p p' \/
  (validate p t = None /\ (exists o, l_get (t_nonce t) (aget (t_from t) (p_pend p)) = Some o) /\
   same_view (set_pend (t_from t) (l_put t (aget (t_from t) (p_pend p))) p) p').
Proof.
  intros E. pose proof (add_cases c t loc p) as C. rewrite E in C.
  inversion C as [v0 _| |inq mark l Eh A Hs _ Hm q]; subst; [left; apply sv_refl|left; repeat split|].
  assert (V : same_view (set_side inq (t_from t) (l_put t l) p) (if mark then mark_local (t_from t) q else q)).
  { apply sv_trans with q; [|destruct mark; [apply sv_mark_local|apply sv_refl]].
    eapply sv_trans; [apply sv_drop_old|]. eapply sv_trans; [|apply sv_heap_put]. repeat split. }
  destruct inq; [left; eapply sv_trans; [|exact V]; repeat split|right].
  split; [apply A|]. split; [|exact V]. destruct (l_get (t_nonce t) l) as [o|] eqn:Eo; [exists o; exact Eo|congruence].
Qed.

Lemma drop_last_inv0 a : pres Inv0 (drop_last a).
Proof.
  intros p H0. unfold drop_last. destruct (rev (aget a (p_pend p))) as [|x r] eqn:Er; [exact H0|].
  pose proof (removelast_splits _ _ _ (proj1 (ir_pend _ _ _ H0 a)) Er) as S.
  pose proof (invr_to_limbo false a p _ [x] H0 S) as H1. apply invr_drop_one, (invr_nil a) in H1.
  eapply invr_same; [apply same_removed|]. eapply invr_same; [apply same_pn_set_if_lower|]. exact H1.
Qed.

Lemma drop_last_truncates a p : sorted (aget a (p_pend p)) -> truncates a p (drop_last a p).
Proof.
  intros Hs. unfold drop_last. destruct (rev (aget a (p_pend p))) as [|x r] eqn:Er; [apply truncates_refl|].
  rewrite (removelast_below _ _ _ Hs Er).
  apply (truncates_cut a (t_nonce x)); [exists x; split; [apply in_rev; rewrite Er; left; reflexivity|reflexivity]|].
  eapply sv_trans; [|apply sv_removed]. apply sv_pn_set_if_lower. repeat split.
Qed.

Lemma fix_nonces_eq p : exists m, fix_nonces p = set_pn m p.
Proof.
  unfold fix_nonces. apply (fold_left_inv (fun q => exists m, q = set_pn m p)); [|exists (p_pn p); destruct p; reflexivity].
  intros q a _ [m ->]. destruct (rev _) as [|x ?]; [exists m|exists ((a, t_nonce x + 1) :: m)]; reflexivity.
Qed.
Lemma fix_nonces_same p : same_lists p (fix_nonces p).
Proof. destruct (fix_nonces_eq p) as [m ->]. repeat split. Qed.

Lemma kept_inv0 c : kept c Inv0.
Proof.
  constructor; intros.
  - intros p. apply add_inv0.
  - intros p. apply promote_one_inv0.
  - apply remove_tx_inv0.
  - apply drop_last_inv0.
  - intros p. apply invr_same, same_removed.
  - intros p. apply invr_same. repeat split.
  - intros p. apply invr_same. repeat split.
  - intros p. apply invr_same, fix_nonces_same.
Qed.

Lemma step_inv0 c p o qo : Inv0 p -> Inv0 (fst (step c p o qo)).
Proof.
  intros H. apply (kept_step c _ (kept_inv0 c) Inv0).
  - intros t q. apply add_inv0.
  - intros a q. apply promote_one_inv0.
  - apply demote_all_inv0.
  - destruct o; try exact H. eapply invr_same; [|exact H]. repeat split.
Qed.

Lemma init_inv0 pl st : Inv0 (init pl st).
Proof.
  constructor; cbn.
  - intros b. split; [exact I|intros ? []].
  - intros b. split; [exact I|intros ? []].
  - intros b x y [].
  - constructor.
  - intros t. unfold in_all; cbn. tauto.
  - intros ? [].
  - constructor.
  - intros ? ? [].
Qed.

Lemma run_hist_inv0 c h p : Inv0 p -> Inv0 (run_hist c p h).
Proof. apply (run_hist_pres Inv0). intros o qo q. apply step_inv0. Qed.

Section Acct.
Variable X : pool -> N -> Prop.
Hypothesis XA : acct X.
Let Xv := ac_view X XA.

Lemma promote_run_X c a D p :
  InvR a D p -> ready_run p a D -> X p a -> X (fold_left (fun s t => promote_tx c a t s) D p) a.
Proof.
  revert p. induction D as [|x D IH]; intros p HI [Hr Hc] HX; cbn [fold_left]; [exact HX|].
  destruct Hc as [Hle [_ Hc]]. destruct (Hr x (or_introl eq_refl)) as [Hge Hpay].
  pose proof (limbo_not_in false _ _ _ _ HI) as Hx.
  apply IH; [apply invr_promote; exact HI| |apply (ac_promote X XA); auto; apply (ir_pend _ _ _ HI a)].
  rewrite (promote_tx_fresh c _ _ _ Hx). split.
  - intros y Hy. apply (Hr y). right; exact Hy.
  - destruct D as [|y D']; [exact I|]. destruct Hc as [Ey Hc]. rewrite pn_get_pn_set, N.eqb_refl, Ey.
    split; [lia|]. split; [exact Ey|exact Hc].
Qed.

Lemma promotes_X c a p p' : promotes c a p p' -> (forall b, X p b) -> forall b, X p' b.
Proof.
  intros [p0 D V0 HI HR V3] HX b. apply (sv_on X _ _ b Xv V3).
  destruct (N.eq_dec b a) as [->|Hb].
  - apply (promote_run_X c a D p0 HI HR). apply (sv_on X _ _ a Xv V0), HX.
  - destruct (promote_run_frame c a D p0 HI) as [Est Hoth]. destruct (Hoth b Hb) as [E1 E2].
    apply (Xv p0); auto. apply (sv_on X _ _ b Xv V0), HX.
Qed.

Lemma promote_one_IX c a : pres (IX X) (promote_one c a).
Proof. intros p [H0 HX]. destruct (promote_one_shape c a p H0) as [H1 S]. exact (conj H1 (promotes_X c a p _ S HX)). Qed.
Lemma promote_list_IX c l : pres (IX X) (promote_list c l).
Proof. apply fold_pres. intros a. apply promote_one_IX. Qed.

Lemma add_IX c t loc : pres (IX X) (fun p => fst (fst (add c t loc p))).
Proof.
  intros p [H0 HX]. split; [apply add_inv0, H0|]. intros b.
  destruct (add c t loc p) as [[p' v] r] eqn:Ea. cbn [fst].
  destruct (add_view _ _ _ _ _ _ _ Ea) as [V|[Ev [[o Eo] V]]]; apply (sv_on X _ _ b Xv V); [apply HX|].
  destruct (N.eq_dec b (t_from t)) as [->|Hb].
  - destruct (validate_ok _ _ Ev) as [Hge Hpay]. apply l_get_in in Eo as [Ho En]. apply (ac_replace X XA p _ t o); auto. apply (ir_pend _ _ _ H0).
  - apply (Xv p); try reflexivity; [|apply HX]. psimpl. apply aget_aset_other. auto.
Qed.

Lemma add_body_IX c loc txs : pres (IX X) (body c (OAdd loc txs)).
Proof. intros p H. apply promote_list_IX, (add_txs_pres (IX X) c loc txs (fun t => add_IX c t loc)), H. Qed.

Lemma reset_IX c r p : Inv0 p -> (forall a, X (set_pn [] (set_st (r_st r) p)) a) ->
  IX X (promote_list c (akeys (p_queue (do_reset c r p))) (do_reset c r p)).
Proof.
  intros H0 HX. apply promote_list_IX, (do_reset_pres (IX X)); [intros t; apply add_IX|].
  split; [eapply invr_same; [|exact H0]; repeat split|exact HX].
Qed.
End Acct.

Lemma demote_one_others (Z : pool -> N -> Prop) c b q e : on_view Z -> e <> b -> Z q e -> Z (demote_one c b q) e.
Proof.
  intros Zv He Hz. apply (sv_on Z _ _ e Zv (demote_one_view c b q)).
  apply (Zv q); [reflexivity|apply aget_aset_other; auto|reflexivity|exact Hz].
Qed.

(* X: the reset-phase form of an account predicate; Y: the full form, which the demote_one of the account establishes *)
Lemma demote_all_acct (X Y : pool -> N -> Prop) c p :
  on_view X -> on_view Y -> (forall q a, Y q a -> X q a) ->
  (forall q a, sorted (aget a (p_pend q)) -> X q a -> Y (demoted a q) a) ->
  (forall q a, aget a (p_pend q) = [] -> X q a -> Y q a) ->
  Inv0 p -> (forall a, X p a) -> forall a, Y (demote_all c p) a.
Proof.
  intros Xv Yv YX Hv He H0 HX a.
  assert (Hd : forall q b, Inv0 q -> X q b -> Y (demote_one c b q) b).
  { intros q b Hq Hx. apply (sv_on Y _ _ b Yv (demote_one_view c b q)), Hv; [apply (ir_pend _ _ _ Hq)|exact Hx]. }
  apply (fold_each (fun s b => demote_one c b s) (IX X) (fun q => Y q a) a).
  - intros b q [Hq HXq]. split; [apply demote_one_inv0, Hq|]. intros e.
    destruct (N.eq_dec e b) as [->|Hn]; [apply YX, Hd; auto|apply (demote_one_others X), HXq; auto].
  - intros q [Hq HXq]. apply Hd; auto.
  - intros q b [Hq HXq] Ya. destruct (N.eq_dec a b) as [->|Hn]; [apply Hd; auto|apply (demote_one_others Y); auto].
  - split; assumption.
  - destruct (in_dec N.eq_dec a (akeys (p_pend p))) as [Hin|Hnin]; [left; exact Hin|right].
    apply He; [apply aget_notin, Hnin|apply HX].
Qed.

Lemma Wa_same p q : same_lists p q -> same_view p q -> IX Wa p -> IX Wa q.
Proof. intros L V [H HW]. split; [apply (invr_same _ _ _ _ L H)|]. intros a. apply (sv_on Wa p q a Wa_view V), HW. Qed.

Lemma fix_nonces_pn p a : pn_get (fix_nonces p) a = last_next (pn_get p a) (aget a (p_pend p)).
Proof.
  unfold fix_nonces.
  assert (G : forall (m : amap) l q,
    pn_get (fold_left (fun s b => match rev (aget b m) with x :: _ => pn_set b (t_nonce x + 1) s | [] => s end) l q) a
    = if mem_n a l then last_next (pn_get q a) (aget a m) else pn_get q a).
  { intros m l. induction l as [|b l IH]; intros q; [reflexivity|]. cbn [fold_left]. rewrite IH.
    change (mem_n a (b :: l)) with ((a =? b) || mem_n a l). unfold last_next.
    destruct (a =? b) eqn:E; cbn [orb].
    - assert (a = b) by lia. subst b. destruct (rev (aget a m)); [destruct (mem_n a l); reflexivity|].
      rewrite pn_get_pn_set, N.eqb_refl. destruct (mem_n a l); reflexivity.
    - destruct (rev (aget b m)); [reflexivity|]. rewrite pn_get_pn_set. assert (Eb : b =? a = false) by lia. rewrite Eb. reflexivity. }
  rewrite G. destruct (mem_n a (akeys (p_pend p))) eqn:E; [reflexivity|].
  rewrite aget_notin; [reflexivity|]. intros Hin. apply mem_n_in in Hin. congruence.
Qed.

Lemma fix_nonces_W p : W p -> W (fix_nonces p).
Proof.
  intros HW a. pose proof (fix_nonces_pn p a) as C. destruct (fix_nonces_eq p) as [m Em]. rewrite Em in *.
  destruct (HW a) as [H1 H2 H3 H4 H5].
  assert (Hlast : st_nonce p a <= last_next (pn_get p a) (aget a (p_pend p))).
  { unfold last_next. destruct (rev (aget a (p_pend p))) as [|x r] eqn:Er; [exact H4|].
    assert (Hx : In x (aget a (p_pend p))) by (apply in_rev; rewrite Er; left; reflexivity).
    pose proof (H1 _ Hx). lia. }
  constructor; unfold payable, st_nonce, st_bal in *; psimpl; rewrite ?C; auto.
  intros E. rewrite E. apply H5, E.
Qed.

Lemma fix_nonces_T4 p : W (fix_nonces p) -> T4 (fix_nonces p).
Proof.
  intros HW a. pose proof (fix_nonces_pn p a) as C. pose proof (w_pn_empty _ _ (HW a)) as E.
  destruct (fix_nonces_eq p) as [m Em]. rewrite Em in *. psimpl. unfold st_nonce in *. psimpl.
  rewrite C. unfold last_next in *. destruct (rev (aget a (p_pend p))) eqn:Er; [|reflexivity].
  rewrite <- C. apply E, (rev_eq_app _ [] []), Er.
Qed.

Lemma demote_all_Wa c p : IX WRa p -> IX Wa (demote_all c p).
Proof.
  intros [H0 HR]. split; [apply demote_all_inv0, H0|].
  exact (demote_all_acct WRa Wa c p WRa_view Wa_view Wa_WRa (fun q a => demoted_Wa a q) WRa_empty H0 HR).
Qed.

Lemma kept_Wa c : kept c (IX Wa).
Proof.
  constructor; intros.
  - apply (add_IX Wa Wa_acct).
  - apply (promote_one_IX Wa Wa_acct).
  - intros p [H HW]. split; [apply remove_tx_inv0, H|exact (truncates_W _ _ _ (remove_tx_truncates c t ob p) HW)].
  - intros p [H HW]. split; [apply drop_last_inv0, H|].
    apply (truncates_W a p); [apply drop_last_truncates, (ir_pend _ _ _ H a)|exact HW].
  - intros p. apply Wa_same; [apply same_removed|apply sv_removed].
  - intros p. apply Wa_same; repeat split.
  - intros p. apply Wa_same; repeat split.
  - intros p [A B]. split; [eapply invr_same; [apply fix_nonces_same|exact A]|exact (fix_nonces_W p B)].
Qed.

(* IX Wa is kept; T4 because a step ends in fix_nonces *)
Lemma step_IWT c p o qo : IWT p -> IWT (fst (step c p o qo)).
Proof.
  intros [H0 [HW _]].
  assert (I : IX Wa (fst (step c p o qo))).
  { apply (kept_step c _ (kept_Wa c) (IX WRa)).
    - intros t. apply (add_IX WRa WRa_acct).
    - intros a. apply (promote_one_IX WRa WRa_acct).
    - apply demote_all_Wa.
    - destruct o; try (split; assumption). split; [eapply invr_same; [|exact H0]; repeat split|apply WRa_after_swap]. }
  destruct I as [A B]. split; [exact A|]. split; [exact B|].
  revert B. rewrite step_eq. apply fix_nonces_T4.
Qed.

Lemma init_IWT pl st : IWT (init pl st).
Proof.
  split; [apply init_inv0|]. split.
  - intros a. constructor; cbn; try (intros ? []); try congruence; unfold pn_get; cbn; auto; lia.
  - intros a. reflexivity.
Qed.

