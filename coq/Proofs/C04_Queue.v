(* C04 (a): the ETX queue inside the ETX trie refines a FIFO list. *)
From Coq Require Import List NArith Lia ZifyBool Bool.
From GQ Require Import Lib.Key Lib.SMap Lib.C04_BigEndian Model.C04.
Import ListNotations.
Local Open Scope N_scope.

Lemma index_key_ne_ctl i c : be_min i <> ctl_key c.
Proof. apply be_min_not_zero_led. Qed.

Lemma ctl_key_ne a b : a <> b -> ctl_key a <> ctl_key b.
Proof.
  intros Hab E. unfold ctl_key in E. do 2 apply app_inv_head in E. congruence.
Qed.

Lemma kquai_ne_newest : kquai_key <> newest_key.
Proof. apply ctl_key_ne. discriminate. Qed.
Lemma kquai_ne_oldest : kquai_key <> oldest_key.
Proof. apply ctl_key_ne. discriminate. Qed.

Definition novoid (t : trie) : Prop := forall k, get k t <> Some [].

Lemma del_as_tupdate k (t : trie) : del k t = tupdate k [] t.
Proof. reflexivity. Qed.

Lemma get_tupdate k k0 v t : sorted t ->
  get k0 (tupdate k v t) = if keqb k0 k then match v with [] => None | _ => Some v end else get k0 t.
Proof. intros S. destruct v; [apply get_del, S|apply get_put]. Qed.

(* what tupdate maintains (an empty value deletes the key); a well-formed trie is used only as the
   function tget, updated by tupdate (trie_ext) *)
Definition twf (t : trie) : Prop := sorted t /\ novoid t.

Lemma twf_empty : twf [].
Proof. split; [exact I|intros k; discriminate]. Qed.

Lemma twf_tupdate k v t : twf t -> twf (tupdate k v t).
Proof.
  intros [S NV]. split.
  - unfold tupdate. destruct v; [apply del_sorted|apply put_sorted]; exact S.
  - intros k0. rewrite get_tupdate by exact S. destruct (keqb k0 k); [destruct v; discriminate|apply NV].
Qed.

Lemma tget_tupdate_same k v t : twf t -> tget k (tupdate k v t) = v.
Proof.
  intros [S _]. unfold tget. rewrite get_tupdate, keqb_refl by exact S. destruct v; reflexivity.
Qed.

Lemma tget_tupdate_other k k0 v t : twf t -> k0 <> k -> tget k0 (tupdate k v t) = tget k0 t.
Proof.
  intros [S _] N. apply keqb_neq in N. unfold tget. rewrite get_tupdate, N by exact S. reflexivity.
Qed.

Lemma trie_ext t1 t2 : twf t1 -> twf t2 -> (forall k, tget k t1 = tget k t2) -> t1 = t2.
Proof.
  intros [S1 N1] [S2 N2] H. apply sorted_ext; auto. intros k. specialize (H k). unfold tget in H.
  specialize (N1 k). specialize (N2 k).
  destruct (get k t1) as [v1|], (get k t2) as [v2|]; subst; try congruence.
Qed.

Fixpoint nseq (s : N) (len : nat) : list N :=
  match len with
  | O => []
  | S l => s :: nseq (s + 1) l
  end.

Lemma nseq_length s len : length (nseq s len) = len.
Proof. revert s; induction len; intros; cbn; auto. Qed.

Lemma nseq_in s len x : In x (nseq s len) <-> s <= x < s + N.of_nat len.
Proof.
  revert s; induction len as [|len IH]; intros s; cbn [nseq In].
  - lia.
  - rewrite IH. lia.
Qed.

Lemma map_nseq_nth (A : Type) (f : N -> A) len : forall j s, (j < len)%nat ->
  nth_error (map f (nseq s len)) j = Some (f (s + N.of_nat j)).
Proof.
  induction len as [|len IH]; intros j s H; [lia|].
  destruct j as [|j]; cbn [nseq map nth_error].
  - rewrite N.add_0_r. reflexivity.
  - rewrite IH by lia. do 2 f_equal. lia.
Qed.

Lemma map_nseq_list (A : Type) (f : N -> A) (d : A) (l : list A) s :
  (forall j, f (s + N.of_nat j) = nth j l d) -> map f (nseq s (length l)) = l.
Proof.
  intros H. apply (nth_ext _ _ d d); rewrite map_length, nseq_length; [reflexivity|].
  intros j Hj. rewrite (nth_error_nth _ _ d (map_nseq_nth A f _ j s Hj)). apply H.
Qed.

Definition cell (t : trie) (i : N) : etx := tget (be_min i) t.

Definition abs (t : trie) : list etx :=
  map (cell t) (nseq (get_oldest t) (N.to_nat (get_newest t - get_oldest t))).

Record Inv (t : trie) : Prop := mkInv {
  inv_sorted : sorted t;
  inv_novoid : novoid t;
  inv_le : get_oldest t <= get_newest t;
  inv_old_canon : tget oldest_key t = be_min (get_oldest t);
  inv_new_canon : tget newest_key t = be_min (get_newest t);
  inv_live : forall i, get_oldest t <= i < get_newest t -> cell t i <> [];
  inv_dead : forall i, i < get_oldest t \/ get_newest t <= i -> cell t i = []
}.

Definition wf_etxs (l : list etx) : Prop := Forall (fun e => e <> []) l.

Lemma wf_etxs_nth l j : wf_etxs l -> (j < length l)%nat -> nth j l [] <> [].
Proof. intros W Hj. apply (proj1 (Forall_forall _ l) W), nth_In, Hj. Qed.

Lemma abs_length t : Inv t -> get_oldest t + N.of_nat (length (abs t)) = get_newest t.
Proof. intros I. pose proof (inv_le t I). unfold abs. rewrite map_length, nseq_length. lia. Qed.

Lemma abs_wf t : Inv t -> wf_etxs (abs t).
Proof.
  intros I. unfold wf_etxs, abs. apply Forall_forall. intros e He.
  apply in_map_iff in He as (i & <- & Hi). apply nseq_in in Hi.
  apply (inv_live t I). pose proof (inv_le t I). lia.
Qed.

Definition cells_at (t : trie) (o : N) (l : list etx) : Prop :=
  forall i, cell t i = if o <=? i then nth (N.to_nat (i - o)) l [] else [].

Lemma cells_at_nth t o l j : cells_at t o l -> cell t (o + N.of_nat j) = nth j l [].
Proof.
  intros C. rewrite C. replace (o <=? o + N.of_nat j) with true by lia. f_equal. lia.
Qed.

Lemma cells_at_outside t o l i : cells_at t o l ->
  i < o \/ o + N.of_nat (length l) <= i -> cell t i = [].
Proof.
  intros C H. rewrite C. destruct (N.leb_spec o i); [|reflexivity]. apply nth_overflow. lia.
Qed.

Lemma cells_at_ctl t o l c v : twf t -> cells_at t o l -> cells_at (tupdate (ctl_key c) v t) o l.
Proof.
  intros S C i. unfold cell. rewrite tget_tupdate_other; [apply C|exact S|apply index_key_ne_ctl].
Qed.

Lemma cell_tupdate_index t k e i : twf t ->
  cell (tupdate (be_min k) e t) i = if i =? k then e else cell t i.
Proof.
  intros S. unfold cell. destruct (N.eqb_spec i k) as [->|Hi].
  - apply tget_tupdate_same, S.
  - apply tget_tupdate_other; [exact S|]. intros E. apply be_min_inj in E. contradiction.
Qed.

Lemma cells_at_snoc t o l e : twf t -> cells_at t o l ->
  cells_at (tupdate (be_min (o + N.of_nat (length l))) e t) o (l ++ [e]).
Proof.
  intros S C i. rewrite (cell_tupdate_index t _ e i S), C.
  destruct (N.eqb_spec i (o + N.of_nat (length l))) as [->|Hi].
  - replace (o <=? o + N.of_nat (length l)) with true by lia.
    replace (N.to_nat (o + N.of_nat (length l) - o)) with (length l) by lia. symmetry. apply nth_middle.
  - destruct (N.leb_spec o i); [|reflexivity].
    destruct (N.ltb_spec i (o + N.of_nat (length l))).
    + symmetry. apply app_nth1. lia.
    + rewrite !nth_overflow; [reflexivity|rewrite app_length; cbn [length]; lia|lia].
Qed.

Lemma cells_at_tail t o e l : twf t -> cells_at t o (e :: l) ->
  cells_at (tupdate (be_min o) [] t) (o + 1) l.
Proof.
  intros St C i. rewrite (cell_tupdate_index t o [] i St), C. destruct (N.eqb_spec i o) as [->|Hi].
  - replace (o + 1 <=? o) with false by lia. reflexivity.
  - destruct (N.ltb_spec i o).
    + replace (o <=? i) with false by lia. replace (o + 1 <=? i) with false by lia. reflexivity.
    + replace (o <=? i) with true by lia. replace (o + 1 <=? i) with true by lia.
      replace (N.to_nat (i - o)) with (S (N.to_nat (i - (o + 1)))) by lia. reflexivity.
Qed.

(* t holds the queue l whose first item has index o: (Inv t, get_oldest t, abs t) with the index and
   the items as parameters (rep_Inv, Inv_rep) *)
Record rep (t : trie) (o : N) (l : list etx) : Prop := mkRep {
  rep_twf : twf t;
  rep_wf : wf_etxs l;
  rep_oldest : tget oldest_key t = be_min o;
  rep_newest : tget newest_key t = be_min (o + N.of_nat (length l));
  rep_cells : cells_at t o l
}.
Arguments rep_oldest {t o l}.
Arguments rep_newest {t o l}.
Arguments rep_cells {t o l}.

Lemma rep_Inv t o l : rep t o l ->
  Inv t /\ get_oldest t = o /\ get_newest t = o + N.of_nat (length l) /\ abs t = l.
Proof.
  intros [[S NV] W Ho Hn C].
  assert (Eo : get_oldest t = o) by (unfold get_oldest; rewrite Ho; apply of_be_be_min).
  assert (En : get_newest t = o + N.of_nat (length l)) by (unfold get_newest; rewrite Hn; apply of_be_be_min).
  refine (conj _ (conj Eo (conj En _))).
  - constructor; rewrite ?Eo, ?En; try assumption.
    + lia.
    + intros i Hi. replace i with (o + N.of_nat (N.to_nat (i - o))) by lia.
      rewrite (cells_at_nth t o l _ C). apply (wf_etxs_nth l _ W). lia.
    + intros i. apply (cells_at_outside t o l i C).
  - unfold abs. rewrite Eo, En. replace (N.to_nat (o + N.of_nat (length l) - o)) with (length l) by lia.
    apply (map_nseq_list _ _ []). intros j. apply cells_at_nth, C.
Qed.

Lemma Inv_rep t : Inv t -> rep t (get_oldest t) (abs t).
Proof.
  intros I. pose proof (abs_length t I) as Len. constructor.
  - exact (conj (inv_sorted t I) (inv_novoid t I)).
  - apply abs_wf, I.
  - apply (inv_old_canon t I).
  - rewrite Len. apply (inv_new_canon t I).
  - intros i. destruct (N.leb_spec (get_oldest t) i) as [Hi|Hi]; [|apply (inv_dead t I); lia].
    destruct (N.ltb_spec i (get_newest t)) as [Hn|Hn].
    + apply eq_sym, nth_error_nth. unfold abs. rewrite map_nseq_nth by lia. do 2 f_equal. lia.
    + rewrite nth_overflow by lia. apply (inv_dead t I). lia.
Qed.

Lemma init_at_rep o0 : rep (init_at o0) o0 [].
Proof.
  unfold init_at. assert (W1 := twf_tupdate oldest_key (be_min o0) [] twf_empty).
  constructor.
  - apply twf_tupdate, W1.
  - constructor.
  - rewrite tget_tupdate_other; [apply tget_tupdate_same, twf_empty|exact W1|apply ctl_key_ne; discriminate].
  - rewrite N.add_0_r. apply tget_tupdate_same, W1.
  - do 2 (apply cells_at_ctl; [auto using twf_empty|]). intros i.
    destruct (o0 <=? i); [destruct (N.to_nat (i - o0))|]; reflexivity.
Qed.

Lemma init_at_inv o0 : Inv (init_at o0).
Proof. apply (rep_Inv _ _ _ (init_at_rep o0)). Qed.

Lemma init_at_abs o0 : abs (init_at o0) = [].
Proof. apply (rep_Inv _ _ _ (init_at_rep o0)). Qed.

(* writing index 0 deletes the control cell: the queue positioned at 0 is the empty trie *)
Lemma empty_inv : Inv [].
Proof. exact (init_at_inv 0). Qed.

Lemma push_loop_spec l' : forall t l o, twf t -> cells_at t o l ->
  exists t1, push_loop t (o + N.of_nat (length l)) l' = (t1, o + N.of_nat (length (l ++ l'))) /\ twf t1 /\
    cells_at t1 o (l ++ l') /\ (forall k, (forall i, k <> be_min i) -> tget k t1 = tget k t).
Proof.
  induction l' as [|e l' IH]; intros t l o W C; cbn [push_loop].
  - exists t. rewrite app_nil_r. auto.
  - replace (o + N.of_nat (length l) + 1) with (o + N.of_nat (length (l ++ [e])))
      by (rewrite app_length; cbn [length]; lia).
    replace (l ++ e :: l') with ((l ++ [e]) ++ l') by (rewrite <- app_assoc; reflexivity).
    destruct (IH (tupdate (be_min (o + N.of_nat (length l))) e t) (l ++ [e]) o) as (t1 & E & W1 & C1 & F).
    + apply twf_tupdate, W.
    + apply cells_at_snoc; assumption.
    + exists t1. refine (conj E (conj W1 (conj C1 _))). intros k Hk. rewrite F by exact Hk.
      apply tget_tupdate_other; auto.
Qed.

Lemma push_etxs_rep t o l l' : rep t o l -> wf_etxs l' ->
  rep (push_etxs t l') o (l ++ l') /\
  (forall k, k <> newest_key -> (forall i, k <> be_min i) -> tget k (push_etxs t l') = tget k t).
Proof.
  intros [Wt W Ho Hn C] W'. unfold push_etxs, get_newest. rewrite Hn, of_be_be_min.
  destruct (push_loop_spec l' t l o Wt C) as (t1 & -> & W1 & C1 & F).
  split; [constructor|].
  - apply twf_tupdate, W1.
  - apply Forall_app. auto.
  - rewrite tget_tupdate_other, F; [exact Ho| |exact W1|apply ctl_key_ne; discriminate].
    intros i. apply not_eq_sym, index_key_ne_ctl.
  - apply tget_tupdate_same, W1.
  - apply cells_at_ctl; assumption.
  - intros k Hk Hi. rewrite tget_tupdate_other by assumption. apply F, Hi.
Qed.

Lemma push_etx_as_list t e : push_etx t e = push_etxs t [e].
Proof. reflexivity. Qed.

Lemma pop_etx_nil t o : rep t o [] -> pop_etx t = (None, t).
Proof.
  intros R. destruct (rep_Inv _ _ _ R) as (_ & Ho & _). unfold pop_etx. rewrite Ho.
  fold (cell t o). rewrite (cells_at_outside t o [] o (rep_cells R)) by (cbn [length]; lia).
  reflexivity.
Qed.

Lemma pop_etx_cons t o e l : rep t o (e :: l) ->
  let t' := tupdate oldest_key (be_min (o + 1)) (del (be_min o) t) in
  pop_etx t = (Some e, t') /\ rep t' (o + 1) l /\
  (forall k, k <> oldest_key -> k <> be_min o -> tget k t' = tget k t).
Proof.
  intros [Wt W Ho Hn C]. cbn zeta. rewrite del_as_tupdate.
  assert (W1 := twf_tupdate (be_min o) [] t Wt).
  split; [|split].
  - unfold pop_etx, get_oldest. rewrite Ho, of_be_be_min, del_as_tupdate.
    pose proof (cells_at_nth t o (e :: l) 0 C) as He. rewrite N.add_0_r in He. unfold cell in He.
    rewrite He. cbn [nth]. destruct e; [|reflexivity]. inversion W. congruence.
  - constructor.
    + apply twf_tupdate, W1.
    + apply (Forall_inv_tail W).
    + apply tget_tupdate_same, W1.
    + rewrite !tget_tupdate_other; [|exact Wt|apply not_eq_sym, index_key_ne_ctl|exact W1|apply ctl_key_ne; discriminate].
      rewrite Hn. f_equal. cbn [length]. lia.
    + apply cells_at_ctl; [exact W1|]. apply (cells_at_tail t o e l Wt C).
  - intros k K1 K2. rewrite !tget_tupdate_other; auto.
Qed.

Lemma read_etx_rep t o l i : rep t o l ->
  read_etx t i =
  if (o <=? i) && (i <? o + N.of_nat (length l)) then nth_error l (N.to_nat (i - o)) else None.
Proof.
  intros [_ W _ _ C]. unfold read_etx. fold (cell t i).
  destruct ((o <=? i) && (i <? o + N.of_nat (length l))) eqn:E.
  - set (j := N.to_nat (i - o)). assert (Hj : (j < length l)%nat) by lia.
    replace i with (o + N.of_nat j) at 1 by lia.
    rewrite (cells_at_nth _ _ _ j C), (nth_error_nth' l [] Hj).
    pose proof (wf_etxs_nth l j W Hj) as Hne. destruct (nth j l []); [contradiction|reflexivity].
  - rewrite (cells_at_outside _ _ _ i C) by lia. reflexivity.
Qed.

(* the availability probe of Process: ReadETX(GetOldestIndex()) *)
Lemma read_oldest_rep t o l : rep t o l -> read_etx t (get_oldest t) = hd_error l.
Proof.
  intros R. destruct (rep_Inv _ _ _ R) as (_ & -> & _).
  rewrite (read_etx_rep t o l o R), N.leb_refl, N.sub_diag.
  destruct l as [|e l]; cbn [length andb nth_error hd_error N.to_nat].
  - rewrite N.add_0_r, N.ltb_irrefl. reflexivity.
  - replace (o <? o + N.of_nat (S (length l))) with true by lia. reflexivity.
Qed.

Lemma rep_other_key t o l k v : rep t o l ->
  k <> oldest_key -> k <> newest_key -> (forall i, k <> be_min i) -> rep (tupdate k v t) o l.
Proof.
  intros [Wt W Ho Hn C] K1 K2 Ki. constructor; try assumption.
  - apply twf_tupdate, Wt.
  - rewrite tget_tupdate_other; auto.
  - rewrite tget_tupdate_other; auto.
  - intros i. unfold cell. rewrite tget_tupdate_other; [apply C|exact Wt|apply not_eq_sym, Ki].
Qed.

Lemma set_kquai_rep t o l v : rep t o l -> rep (set_kquai t v) o l /\ get_kquai (set_kquai t v) = v.
Proof.
  intros R. unfold set_kquai, get_kquai. split.
  - apply rep_other_key; [exact R|exact kquai_ne_oldest|exact kquai_ne_newest|].
    intros i. apply not_eq_sym, index_key_ne_ctl.
  - rewrite tget_tupdate_same by apply R. apply of_be_be_min.
Qed.

Definition wf_op (o : qop) : Prop :=
  match o with
  | QPush l => wf_etxs l
  | QPush1 e => e <> []
  | _ => True
  end.
Definition wf_ops (ops : list qop) : Prop := Forall wf_op ops.

Definition pushed_by (o : qop) : list etx :=
  match o with QPush l => l | QPush1 e => [e] | _ => [] end.
Definition pushed (ops : list qop) : list etx := flat_map pushed_by ops.

Fixpoint popped (t : trie) (ops : list qop) : list etx :=
  match ops with
  | [] => []
  | o :: ops' =>
      let '(t', r) := qstep t o in
      match o, r with
      | QPop, OEtx (Some e) => e :: popped t' ops'
      | _, _ => popped t' ops'
      end
  end.

Lemma popped_cons t op ops : popped t (op :: ops) = popped t [op] ++ popped (fst (qstep t op)) ops.
Proof. cbn [popped]. destruct (qstep t op) as [t' r]. destruct op, r as [|[x|]|]; reflexivity. Qed.

Lemma qstep_rep t o l op : rep t o l -> wf_op op ->
  exists o' l', rep (fst (qstep t op)) o' l' /\
    l ++ pushed_by op = popped t [op] ++ l'.
Proof.
  intros R W. destruct op; cbn [popped qstep fst snd pushed_by]; rewrite ?app_nil_r;
    try (exists o, l; split; [exact R|reflexivity]).
  - exists o, (l ++ l0). split; [apply push_etxs_rep; assumption|reflexivity].
  - rewrite push_etx_as_list. exists o, (l ++ [e]).
    split; [apply push_etxs_rep; [exact R|repeat constructor; exact W]|reflexivity].
  - destruct l as [|e l].
    + rewrite (pop_etx_nil t o R). exists o, []. auto.
    + destruct (pop_etx_cons t o e l R) as (-> & R' & _). exists (o + 1), l. auto.
  - exists o, l. split; [apply set_kquai_rep, R|reflexivity].
Qed.

Lemma history_conservation ops : forall t, Inv t -> wf_ops ops ->
  Inv (qrun_state t ops) /\ abs t ++ pushed ops = popped t ops ++ abs (qrun_state t ops).
Proof.
  induction ops as [|op ops IH]; intros t I W.
  - split; [exact I|apply app_nil_r].
  - inversion W as [|? ? Wo Wops]; subst.
    destruct (qstep_rep t _ _ op (Inv_rep t I) Wo) as (o1 & l1 & R1 & A).
    destruct (rep_Inv _ _ _ R1) as (I1 & _ & _ & <-).
    destruct (IH _ I1 Wops) as [I' C]. split; [exact I'|].
    change (pushed (op :: ops)) with (pushed_by op ++ pushed ops).
    rewrite popped_cons, app_assoc, A, <- !app_assoc, C. reflexivity.
Qed.

Lemma qrun_state_inv ops t : Inv t -> wf_ops ops -> Inv (qrun_state t ops).
Proof. intros I W. apply history_conservation; assumption. Qed.

Lemma rep_canonical t1 t2 o l : rep t1 o l -> rep t2 o l ->
  (forall k, k <> oldest_key -> k <> newest_key -> (forall i, k <> be_min i) -> tget k t1 = tget k t2) ->
  t1 = t2.
Proof.
  intros R1 R2 Hk. apply trie_ext; [apply R1|apply R2|]. intros k.
  destruct (list_eq_dec N.eq_dec k oldest_key) as [->|E1].
  { rewrite (rep_oldest R1), (rep_oldest R2). reflexivity. }
  destruct (list_eq_dec N.eq_dec k newest_key) as [->|E2].
  { rewrite (rep_newest R1), (rep_newest R2). reflexivity. }
  destruct (list_eq_dec N.eq_dec k (be_min (of_be k))) as [E3|E3].
  - rewrite E3. fold (cell t1 (of_be k)). fold (cell t2 (of_be k)).
    rewrite (rep_cells R1), (rep_cells R2). reflexivity.
  - apply Hk; auto. intros i Hi. apply E3. rewrite Hi, of_be_be_min. reflexivity.
Qed.
