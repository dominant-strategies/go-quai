(* C16 — a whole Qi transaction through ProcessQiTx (Model/C16.v: qi_step, qi_loop, qi_finish,
   qi_process), for EVERY list of outputs, data, owners of the spent inputs, zone location and prime
   terminus number: every event of an accepted transaction respects the partition ([ev_ok],
   [qi_process_sound]), and a Quai-ledger output that is not an in-zone conversion / wrapping output
   makes the whole transaction fail wherever it stands in the list. *)
From Coq Require Import List NArith Bool Lia.
From GQ Require Import Lib.Key Model.C16 Generated.C16Sites Proofs.C16.
Import ListNotations.
Local Open Scope N_scope.

(* [ok_wrapped_utxo]: before the fork QiWrappingChangeBlock the wrapping branch also writes a local UTXO,
   the one UTXO owned by a Quai-ledger address *)
Inductive ev_ok (l : location) (skip : bool) (data : bytes) (outs : list bytes) : qi_ev -> Prop :=
| ok_utxo idx o : In o outs -> in_zone (to20 o) l = true -> is_qi (to20 o) = true ->
    ev_ok l skip data outs (EvUtxo idx o)
| ok_wrapped_utxo idx o : In o outs -> in_zone (to20 o) l = true -> is_quai (to20 o) = true ->
    skip = false -> length data = 20%nat -> ev_ok l skip data outs (EvUtxo idx o)
| ok_etx idx to : length to = 20%nat -> in_zone to l = false -> is_qi to = true ->
    ev_ok l skip data outs (EvEtx 0 idx 1 to)
| ok_aggregate ty idx to : ty <> 0 -> length to = 20%nat -> in_zone to l = true -> is_quai to = true ->
    ev_ok l skip data outs (EvEtx ty idx 0 to).

(* invariant of the loop state: convertAddress, once set, is a 20-byte in-zone Quai address *)
Definition cto_ok (l : location) (st : qi_st) : Prop :=
  q_conv st || q_wrap st = true ->
  length (q_cto st) = 20%nat /\ in_zone (q_cto st) l = true /\ is_quai (q_cto st) = true.

(* for b of any length this rests on the repaired BytesToAddress ([bta_spec]) *)
Lemma class_of_spec b l : class_of b l = if in_zone (to20 b) l then 0 else 1.
Proof.
  unfold class_of. rewrite bta_spec. unfold classify. destruct (in_zone (to20 b) l); reflexivity.
Qed.

Lemma wrap_skips_false ptn : wrap_skips ptn = false <-> ptn < C16Sites.qi_wrapping_change_block.
Proof. apply N.leb_gt. Qed.

Lemma quai_not_qi a : is_quai a = true -> is_qi a = false.
Proof. intros H. rewrite ledger_negb, H. reflexivity. Qed.

Lemma qi_not_quai a : is_qi a = true -> is_quai a = false.
Proof. intros H. rewrite ledger_negb in H. destruct (is_quai a); [discriminate|reflexivity]. Qed.

Lemma qi_step_by_output l data skip st idx addr :
  qi_step l data skip st idx addr =
  let a := to20 addr in
  if mem_key a (q_seen st) then None
  else match qi_output addr (N.of_nat (length data)) l with
       | QConvert => if q_conv st && negb (keqb a (q_cto st)) then None
                     else Some (mk_qst (q_seen st) true (q_wrap st) a, [])
       | QWrap => match internal_and_quai (bytes_to_address data l) with
                  | None => None
                  | Some _ => Some (mk_qst (q_seen st) (q_conv st) true a,
                                    if skip then [] else [EvUtxo idx addr])
                  end
       | QReject => None
       | QEtx => Some (mk_qst (a :: q_seen st) (q_conv st) (q_wrap st) (q_cto st),
                       [EvEtx 0 idx (class_of addr l) a])
       | QUtxo => Some (mk_qst (a :: q_seen st) (q_conv st) (q_wrap st) (q_cto st), [EvUtxo idx addr])
       end.
Proof.
  unfold qi_step, qi_output. rewrite (ledger_negb (to20 addr)). cbv zeta.
  destruct (mem_key (to20 addr) (q_seen st)); [reflexivity|].
  destruct (loc_eqb (location_of (to20 addr)) l), (is_quai (to20 addr)),
    (N.of_nat (length data) =? MAX_QI_TX_DATA_LENGTH), (N.of_nat (length data) =? 20);
    cbn [andb negb]; try reflexivity.
  destruct (internal_and_quai (bytes_to_address data l)); [|reflexivity]. destruct skip; reflexivity.
Qed.

Lemma qi_step_sound l data skip outs : valid_zone l -> Forall wf_bytes outs ->
  forall st idx addr st' evs, In addr outs -> cto_ok l st ->
  qi_step l data skip st idx addr = Some (st', evs) ->
  cto_ok l st' /\ Forall (ev_ok l skip data outs) evs.
Proof.
  intros Hv Hw st idx addr st' evs Hin Hc H. rewrite qi_step_by_output in H. cbv zeta in H.
  pose proof (qi_output_spec addr (N.of_nat (length data)) l) as K. cbv zeta in K.
  rewrite (here_is_in_zone addr l (proj1 (Forall_forall _ _) Hw addr Hin) Hv) in K.
  pose proof (to20_length addr) as Hla.
  destruct (mem_key (to20 addr) (q_seen st)); [discriminate|].
  destruct (qi_output addr (N.of_nat (length data)) l).
  - (* conversion *)
    destruct K as (Hz & Hq & _). destruct (q_conv st && negb (keqb (to20 addr) (q_cto st))); [discriminate|].
    inversion H; subst. split; [intros _; cbn; auto|constructor].
  - (* wrapping: before the fork also a UTXO *)
    destruct K as (Hz & Hq & Hd). destruct (internal_and_quai (bytes_to_address data l)); [|discriminate].
    inversion H; subst. split; [intros _; cbn; auto|].
    destruct skip; [constructor|]. constructor; [|constructor]. apply ok_wrapped_utxo; auto. lia.
  - discriminate.
  - (* foreign Qi address: ETX *)
    destruct K as (Hz & Hq). inversion H; subst. split; [exact Hc|]. constructor; [|constructor].
    rewrite class_of_spec, Hz. apply ok_etx; auto.
  - (* in-zone Qi address: UTXO *)
    destruct K as (Hz & Hq). inversion H; subst. split; [exact Hc|]. constructor; [|constructor].
    apply ok_utxo; auto.
Qed.

Lemma qi_step_rejects_quai l data skip addr :
  valid_zone l -> wf_bytes addr -> is_quai (to20 addr) = true ->
  (in_zone (to20 addr) l = false \/ (length data <> 20%nat /\ length data <> 22%nat)) ->
  forall st idx, qi_step l data skip st idx addr = None.
Proof.
  intros Hv Hw Hq Hc st idx. rewrite qi_step_by_output, (qi_output_reject addr _ l Hq).
  - cbv zeta. destruct (mem_key (to20 addr) (q_seen st)); reflexivity.
  - rewrite (here_is_in_zone addr l Hw Hv). unfold MAX_QI_TX_DATA_LENGTH.
    destruct Hc as [Hz|[H20 H22]]; [left; exact Hz|right; lia].
Qed.

Section OutputLoop.
  Variables (l : location) (data : bytes) (skip : bool).

  Lemma qi_loop_inv (I : qi_st -> Prop) (E : qi_ev -> Prop) outs :
    (forall st idx o st' e, In o outs -> I st ->
       qi_step l data skip st idx o = Some (st', e) -> I st' /\ Forall E e) ->
    forall st idx st' evs, I st ->
    qi_loop l data skip st idx outs = Some (st', evs) -> I st' /\ Forall E evs.
  Proof.
    induction outs as [|o r IH]; intros Hstep st idx st' evs Hi H; cbn [qi_loop] in H.
    - inversion H; subst. auto.
    - destruct (qi_step l data skip st idx o) as [[st1 e1]|] eqn:Es; [|discriminate].
      destruct (qi_loop l data skip st1 (idx + 1) r) as [[st2 e2]|] eqn:El; [|discriminate].
      inversion H; subst; clear H.
      destruct (Hstep st idx o st1 e1 (in_eq o r) Hi Es) as [Hi1 He1].
      destruct (IH (fun st idx x st' e Hx => Hstep st idx x st' e (in_cons o x r Hx)) st1 (idx + 1) st' e2 Hi1 El)
        as [Hi2 He2].
      split; [exact Hi2|]. apply Forall_app. auto.
  Qed.

  Lemma qi_loop_none addr : (forall st idx, qi_step l data skip st idx addr = None) ->
    forall outs st idx, In addr outs -> qi_loop l data skip st idx outs = None.
  Proof.
    intros Hn outs. induction outs as [|o r IH]; intros st idx Hin; [destruct Hin|].
    cbn [qi_loop]. destruct Hin as [->|Hin]; [rewrite Hn; reflexivity|].
    destruct (qi_step l data skip st idx o) as [[st1 e1]|]; [|reflexivity].
    rewrite (IH st1 (idx + 1) Hin). reflexivity.
  Qed.
End OutputLoop.

Lemma qi_finish_sound l ptn st f skip data outs :
  cto_ok l st -> qi_finish l ptn st = Some f -> Forall (ev_ok l skip data outs) f.
Proof.
  intros Hc H. unfold qi_finish in H.
  destruct (q_conv st && in_hold ptn); [discriminate|].
  destruct (q_conv st || q_wrap st) eqn:Ef.
  - destruct (q_conv st && q_wrap st) eqn:Eb; [discriminate|].
    inversion H; subst; clear H. destruct (Hc Ef) as (H20 & Hz & Hq).
    constructor; [|constructor]. rewrite class_of_spec, (to20_id _ H20), Hz.
    apply ok_aggregate; auto. destruct (q_wrap st); discriminate.
  - inversion H; subst. constructor.
Qed.

Lemma qi_process_sound : forall l owners outs data ptn evs e,
  valid_zone l -> Forall wf_bytes outs ->
  qi_process l owners outs data ptn = Some evs -> In e evs ->
  ev_ok l (wrap_skips ptn) data outs e.
Proof.
  intros l owners outs data ptn evs e Hv Hw H. revert e. apply Forall_forall. unfold qi_process in H.
  destruct (negb (qi_data_ok data)); [discriminate|].
  destruct (qi_loop l data (wrap_skips ptn) (mk_qst owners false false []) 0 outs) as [[st e1]|] eqn:El;
    [|discriminate].
  destruct (qi_finish l ptn st) as [f|] eqn:Ef; [|discriminate].
  inversion H; subst; clear H.
  destruct (qi_loop_inv l data (wrap_skips ptn) (cto_ok l) (ev_ok l (wrap_skips ptn) data outs) outs
              (qi_step_sound l data _ outs Hv Hw) (mk_qst owners false false []) 0 st e1) as [Hc He];
    [|exact El|].
  - intros Hf. discriminate Hf.
  - apply Forall_app. split; [exact He|]. exact (qi_finish_sound l ptn st f _ data outs Hc Ef).
Qed.
