(* C09 — Accepted headers extend their parent by the protocol's rules; entropy strictly increases;
   order deterministic.  Property theorems, each followed by [Print Assumptions], and non-vacuity examples.
   Model: Model/C09.v   Lemmas: Proofs/C09_Log.v, Proofs/C09_Repr.v, Proofs/C09.v *)
From Coq Require Import List ZArith Bool Lia Sorted.
From GQ Require Import Lib.Lists Generated.C09Params Model.C09 Proofs.C09_Log Proofs.C09_Repr Proofs.C09.
Import ListNotations.
Local Open Scope Z_scope.

(** * side conditions on the constants generated from the repository (a source edit breaks these) *)
Theorem log_constants_ok : log_consts_ok = true.
Proof. vm_compute. reflexivity. Qed.
Print Assumptions log_constants_ok.

(* every network's MinDifficulty (genesis difficulty / 2) is at least 2: one bit of entropy per accepted seal *)
Theorem min_difficulty_at_least_2 : min_difficulty_ge_2 = true /\ min_is_half_genesis = true /\ duration_limits_pos = true.
Proof. vm_compute. repeat split; reflexivity. Qed.
Print Assumptions min_difficulty_at_least_2.

Theorem schedule_constants_ok :
  retarget_consts_pos = true /\ limit_consts_ok = true /\ min_gas_limit_is_const = true /\
  one_over_kqi_samples_ok = true /\ entropy_targets_ok = true.
Proof. vm_compute. repeat split; reflexivity. Qed.
Print Assumptions schedule_constants_ok.

(** * the fixed-point logarithm *)
Theorem log_big_monotone : forall x y, 0 < x <= y -> log_big x <= log_big y.
Proof. exact log_big_mono. Qed.
Print Assumptions log_big_monotone.

Theorem log_big_lower : forall x, 2 <= x -> 2 ^ mant_bits <= log_big x.
Proof. exact log_big_lower_bound. Qed.
Print Assumptions log_big_lower.

(* characteristic = floor(log2 x); the mantissa stays below one bit; exact at powers of two *)
Theorem log_big_characteristic : forall x,
  Z.log2 x * 2 ^ mant_bits <= log_big x < (Z.log2 x + 1) * 2 ^ mant_bits.
Proof. exact log_big_bounds. Qed.
Print Assumptions log_big_characteristic.

Theorem log_big_exact_at_powers_of_two : forall k, 0 <= k -> log_big (2 ^ k) = k * 2 ^ mant_bits.
Proof. intros k Hk. rewrite log_big_value. apply blog_value_pow2; [exact mant_bits_ge1|exact Hk]. Qed.
Print Assumptions log_big_exact_at_powers_of_two.

Theorem bigbits_bits_roundtrip : forall x, bigbits_to_bits (bits_to_bigbits x) = Z.log2 x.
Proof.
  intros x. unfold bigbits_to_bits. change big2e64 with (2 ^ 64). rewrite bits_to_bigbits_value.
  pose proof (blog_value_bounds x 64). symmetry. apply Z.div_unique with (r := blog_value x 64 - Z.log2 x * 2 ^ 64); lia.
Qed.
Print Assumptions bigbits_bits_roundtrip.

(* the line-by-line transcription of mathutil.BinaryLog (numerator + fracBits, partial trailing-zero stripping in
   normalize(), early exit on eq1()) computes exactly the value-semantics model used by all theorems, for every n > 0
   and every number of mantissa bits for which no squaring step can round to exactly 2.0 (true for 64: vm_compute) *)
Theorem binary_log_transcription_agrees : forall mb, 1 <= mb -> no_sqrt2_hit mb = true ->
  forall n, 0 < n -> binary_log_f n mb = binary_log n mb.
Proof. exact binary_log_f_eq. Qed.
Print Assumptions binary_log_transcription_agrees.

Theorem log_big_transcription_agrees : no_sqrt2_hit mant_bits = true /\ forall n, 0 < n -> log_big_f n = log_big n.
Proof.
  assert (H : no_sqrt2_hit mant_bits = true) by (vm_compute; reflexivity).
  split; [exact H|]. intros n Hn. unfold log_big_f, log_big.
  rewrite (binary_log_f_eq mant_bits mant_bits_ge1 H n Hn). reflexivity.
Qed.
Print Assumptions log_big_transcription_agrees.

(** * entropy of a seal *)
(* hash <= 2^256 / difficulty and difficulty >= 2 (in particular >= MinimumDifficulty, see min_difficulty_at_least_2)
   ==> at least one full bit of intrinsic entropy, and at least log2(difficulty).  For difficulty 1 the statement is
   false: intrinsic_entropy (2^256) = log_big 1 = 0 (intrinsic_entropy_zero_at_difficulty_1 below). *)
Theorem intrinsic_entropy_pos : forall hash d,
  0 < hash -> 2 <= d -> hash <= big2e256 / d ->
  0 < 2 ^ mant_bits <= intrinsic_entropy hash /\ log_big d <= intrinsic_entropy hash.
Proof.
  intros hash d Hh Hd Hle. pose proof mant_bits_ge1. split; [split|].
  - apply pow2_gt0. lia.
  - apply intrinsic_entropy_lower_bound with (d := d); assumption.
  - apply intrinsic_entropy_ge_log_difficulty; [exact Hh|lia|exact Hle].
Qed.
Print Assumptions intrinsic_entropy_pos.

Theorem intrinsic_entropy_monotone : forall h1 h2, 0 < h1 <= h2 -> h2 <= big2e256 ->
  intrinsic_entropy h2 <= intrinsic_entropy h1.
Proof.
  intros h1 h2 H1 H2. apply log_big_mono. split; [apply Z.div_str_pos; lia|apply Z.div_le_compat_l; lia].
Qed.
Print Assumptions intrinsic_entropy_monotone.

Example intrinsic_entropy_zero_at_difficulty_1 : intrinsic_entropy (big2e256 / 1) = 0.
Proof. vm_compute. reflexivity. Qed.

(** * CalcOrder *)
(* an order is only assigned to a seal that is under its target, with difficulty >= 2, and it then carries >= 1 bit *)
Theorem calc_order_accepts_only_valid_seals : forall h ie o, calc_order h = CoOk ie o -> num64 h <> 0 ->
  ie = intrinsic_entropy (h_pow h) /\ 0 < h_pow h <= big2e256 / h_diff h /\ 2 <= h_diff h /\
  (o = ctx_prime \/ o = ctx_region \/ o = ctx_zone).
Proof. intros h ie o H Hn. destruct (calc_order_ok_inv h ie o H Hn) as (Hie & Hpow & Hd & Ho & _). auto. Qed.
Print Assumptions calc_order_accepts_only_valid_seals.

Theorem calc_order_entropy_at_least_one_bit : forall h ie o, calc_order h = CoOk ie o -> num64 h <> 0 -> 2 ^ mant_bits <= ie.
Proof. exact calc_order_entropy_pos. Qed.
Print Assumptions calc_order_entropy_at_least_one_bit.

(* the hierarchical order is a function of the low 64 bits of the number, the seal (difficulty, PoW hash), the recorded
   entropy deltas and the expansion number, and of nothing else *)
Theorem calc_order_deterministic : forall h1 h2,
  num64 h1 = num64 h2 -> h_diff h1 = h_diff h2 -> h_pow h1 = h_pow h2 ->
  h_pd_r h1 = h_pd_r h2 -> h_pd_z h1 = h_pd_z h2 -> h_expansion h1 = h_expansion h2 ->
  calc_order h1 = calc_order h2.
Proof. intros h1 h2 E1 E2 E3 E4 E5 E6. unfold calc_order. rewrite E1, E2, E3, E4, E5, E6. reflexivity. Qed.
Print Assumptions calc_order_deterministic.

Theorem calc_order_prime_needs_both_thresholds : forall h ie, calc_order h = CoOk ie ctx_prime -> num64 h <> 0 ->
  let zt := intrinsic_entropy (crop_hash (big2e256 / h_diff h)) in
  let pet := prime_entropy_target (h_expansion h) in
  zt + bits_to_bigbits pet < ie /\ pet * zt / big2 < h_pd_r h + h_pd_z h + ie.
Proof. intros h ie H Hn. apply (calc_order_ok_inv h ie ctx_prime H Hn). reflexivity. Qed.
Print Assumptions calc_order_prime_needs_both_thresholds.

(* memo soundness: for EVERY history of CalcOrder calls, evictions and restarts, every call returns the uncached
   computation — or two headers of the history with the same hash have different orders (a hash collision) *)
Theorem calc_order_cache_sound : forall ops, cache_run [] ops = map uncached ops \/ order_collision ops.
Proof.
  intros ops. pose (P := fun h => In (OpCall h) ops).
  (* a collision among the headers called is an [order_collision] as it stands *)
  apply (run_sound (run := cache_run) (fun _ => eq_refl) (fun _ _ _ => eq_refl) (cache_step_sound P)); [apply cache_inv_empty|].
  apply Forall_forall. intros o I h ->. exact I.
Qed.
Print Assumptions calc_order_cache_sound.

(** * CalcDifficulty *)
Theorem difficulty_floor : forall dl mind pd pt gp d,
  calc_difficulty dl mind pd pt gp = Some d -> mind <= pd -> mind <= d.
Proof.
  intros dl mind pd pt gp d H Hp. destruct gp as [| |gpt]; cbn in H.
  - injection H as <-. exact Hp.
  - injection H as <-. exact Hp.
  - destruct (pd <=? 0); [discriminate|]. injection H as <-. apply retarget_floor.
Qed.
Print Assumptions difficulty_floor.

Theorem retarget_never_below_minimum : forall dl mind pd pt gpt, mind <= retarget dl mind pd pt gpt.
Proof. exact retarget_floor. Qed.
Print Assumptions retarget_never_below_minimum.

(* |new - parent| is bounded: up by parent*log2(parent)/(factor*period), down by the capped time difference *)
Theorem difficulty_step_bounded : forall dl mind pd pt gpt,
  0 < dl -> 0 <= pd -> 0 <= pt - gpt -> dl <= max_time_diff_between_blocks ->
  pd - pd * Z.log2 pd * (max_time_diff_between_blocks - dl) / (dl * difficulty_adjustment_factor * difficulty_adjustment_period) - 1
    <= retarget dl mind pd pt gpt
  /\ retarget dl mind pd pt gpt <= Z.max mind (pd + pd * Z.log2 pd / (difficulty_adjustment_factor * difficulty_adjustment_period)).
Proof.
  intros dl mind pd pt gpt Hdl Hpd Ht Hcap. rewrite retarget_eq by exact Hdl.
  set (cap := max_time_diff_between_blocks) in *. set (td := Z.min cap (pt - gpt)).
  split.
  - (* the adjustment is smallest at the cap *)
    pose proof (adjustment_antitone dl pd td cap Hdl Hpd ltac:(lia)) as A.
    pose proof (adjustment_lower_bound dl pd cap Hdl). lia.
  - pose proof (adjustment_antitone dl pd 0 td Hdl Hpd ltac:(lia)) as A.
    rewrite adjustment_at_zero in A by exact Hdl. lia.
Qed.
Print Assumptions difficulty_step_bounded.

Theorem difficulty_direction : forall dl mind pd pt gpt, 0 < dl -> 0 <= pd ->
  (pt - gpt <= dl -> pd <= retarget dl mind pd pt gpt) /\
  (dl <= pt - gpt -> dl <= max_time_diff_between_blocks -> retarget dl mind pd pt gpt <= Z.max mind pd).
Proof.
  intros dl mind pd pt gpt Hdl Hpd. rewrite retarget_eq by exact Hdl.
  set (td := Z.min max_time_diff_between_blocks (pt - gpt)).
  split.
  - intros Ht. pose proof (adjustment_antitone dl pd td dl Hdl Hpd ltac:(lia)) as A.
    rewrite adjustment_at_limit in A. lia.
  - intros Ht Hcap. pose proof (adjustment_antitone dl pd dl td Hdl Hpd ltac:(lia)) as A.
    rewrite adjustment_at_limit in A. lia.
Qed.
Print Assumptions difficulty_direction.

(** * gas / state limit schedule *)
Theorem gas_limit_schedule : forall pnum plimit ceil,
  (pnum < time_to_start_tx -> calc_limit pnum plimit ceil = 0) /\
  (time_to_start_tx <= pnum -> calc_limit pnum 0 ceil = min_gas_limit_const) /\
  (2 * blocks_per_month <= pnum -> plimit <> 0 -> calc_limit pnum plimit ceil = ceil) /\
  (time_to_start_tx <= pnum < 2 * blocks_per_month -> min_gas_limit_const <= calc_limit pnum plimit ceil) /\
  (time_to_start_tx <= pnum < 2 * blocks_per_month -> plimit <> 0 -> 0 <= ceil -> pnum * ceil < 2 ^ 64 ->
     calc_limit pnum plimit ceil = Z.max min_gas_limit_const (pnum * ceil / (2 * blocks_per_month))).
Proof.
  intros pnum plimit ceil. unfold calc_limit, min_gas_limit.
  change (u64 (2 * blocks_per_month)) with (2 * blocks_per_month). change (0 =? 0) with true. cbv iota.
  assert (0 <= time_to_start_tx <= 2 * blocks_per_month) by (split; discriminate).
  destruct (Z.ltb_spec pnum time_to_start_tx), (Z.eqb_spec plimit 0), (Z.ltb_spec pnum (2 * blocks_per_month));
    repeat split; intros; try lia.
  - destruct (Z.ltb_spec (u64 (pnum * ceil) / (2 * blocks_per_month)) min_gas_limit_const); lia.
  - replace (u64 (pnum * ceil)) with (pnum * ceil) by (symmetry; apply Z.mod_small; nia).
    destruct (Z.ltb_spec (pnum * ceil / (2 * blocks_per_month)) min_gas_limit_const); lia.
Qed.
Print Assumptions gas_limit_schedule.

(** * verifyHeader (zone context): accept ==> every derived field equals its expected value *)
Theorem number_time_rules : forall e p c, valid_child e p c = true ->
  h_num c = (if h_genesis p then 0 else h_num p) + 1 /\
  h_time p <= h_time c <= e_now e + allowed_future_block_time.
Proof.
  intros e p c V. apply valid_child_accepted in V. exact (conj (acc_number V) (acc_time V)).
Qed.
Print Assumptions number_time_rules.

Theorem valid_child_pins_difficulty : forall e p c, valid_child e p c = true -> expected_difficulty e p = Some (h_diff c).
Proof. intros e p c V. apply valid_child_accepted in V. exact (acc_difficulty V). Qed.
Print Assumptions valid_child_pins_difficulty.

Theorem valid_child_pins_parent_entropy : forall e p c, valid_child e p c = true ->
  h_pe_z c = expected_parent_entropy p /\ h_pd_z c = expected_parent_delta p /\ h_pud_z c = expected_parent_uncled_delta p.
Proof.
  intros e p c V. apply valid_child_accepted in V.
  exact (conj (acc_parent_entropy V) (conj (acc_parent_delta V) (acc_parent_uncled_delta V))).
Qed.
Print Assumptions valid_child_pins_parent_entropy.

Theorem valid_child_pins_expansion : forall e p c, valid_child e p c = true -> expected_expansion e p = Some (h_expansion c).
Proof. intros e p c V. apply valid_child_accepted in V. exact (acc_expansion V). Qed.
Print Assumptions valid_child_pins_expansion.

Theorem valid_child_pins_limits : forall e p c, valid_child e p c = true ->
  (h_gas_limit c = expected_gas_limit e p /\ h_gas_used c <= h_gas_limit c <= 2 ^ 63 - 1) /\
  (h_state_limit c = expected_state_limit p /\ h_state_used c <= h_state_limit c) /\
  h_base_fee c = expected_base_fee e p.
Proof.
  intros e p c V. apply valid_child_accepted in V. exact (conj (acc_gas V) (conj (acc_state V) (acc_base_fee V))).
Qed.
Print Assumptions valid_child_pins_limits.

Theorem valid_child_pins_prime_terminus : forall e p c, valid_child e p c = true ->
  h_pt_hash c = expected_pt_hash p /\ h_pt_num c = expected_pt_num p.
Proof. intros e p c V. apply valid_child_accepted in V. exact (acc_prime_terminus V). Qed.
Print Assumptions valid_child_pins_prime_terminus.

Theorem valid_child_parent_order_in_context : forall e p c, valid_child e p c = true ->
  exists o, parent_order p = Some o /\ o <= ctx_zone.
Proof.
  intros e p c V. apply valid_child_accepted in V. destruct (acc_parent_order V) as (ie & o & E & Ho).
  exists o. unfold parent_order. rewrite E. split; [reflexivity|exact Ho].
Qed.
Print Assumptions valid_child_parent_order_in_context.

(* consequently two accepted children of one parent agree on all derived fields *)
Theorem valid_children_agree_on_derived_fields : forall e p c1 c2,
  valid_child e p c1 = true -> valid_child e p c2 = true ->
  h_diff c1 = h_diff c2 /\ h_pe_z c1 = h_pe_z c2 /\ h_pd_z c1 = h_pd_z c2 /\ h_pud_z c1 = h_pud_z c2 /\
  h_expansion c1 = h_expansion c2 /\ h_gas_limit c1 = h_gas_limit c2 /\ h_state_limit c1 = h_state_limit c2 /\
  h_base_fee c1 = h_base_fee c2 /\ h_pt_hash c1 = h_pt_hash c2 /\ h_pt_num c1 = h_pt_num c2 /\ h_num c1 = h_num c2.
Proof.
  intros e p c1 c2 V1 V2. apply valid_child_accepted in V1 as [], V2 as [].
  (* each field of either child equals the same expression in e and p *)
  repeat split; congruence || lia.
Qed.
Print Assumptions valid_children_agree_on_derived_fields.

(* the predicate evaluated by the correspondence check is the predicate of the theorems *)
Theorem valid_child_fast_is_valid_child : forall e p c, valid_child_fast e p c = valid_child e p c.
Proof. exact valid_child_fast_eq. Qed.
Print Assumptions valid_child_fast_is_valid_child.

(** * accumulated entropy *)
Theorem parent_entropy_is_accumulated : forall e p c, valid_child e p c = true ->
  h_pe_z c = total_entropy ctx_zone p.
Proof. exact parent_entropy_accumulated. Qed.
Print Assumptions parent_entropy_is_accumulated.

(* child.ParentEntropy = parent.ParentEntropy + intrinsic(parent) + workshares(parent) for a zone-order parent; the
   deltas accumulate the same way and restart at zero after a dominant-order parent *)
Theorem parent_entropy_accumulates_stepwise : forall e p c ie, valid_child e p c = true -> h_genesis p = false ->
  calc_order p = CoOk ie ctx_zone -> num64 p <> 0 ->
  h_pe_z c = h_pe_z p + intrinsic_entropy (h_pow p) + h_ws p /\
  h_pd_z c = h_pd_z p + intrinsic_entropy (h_pow p) + h_ws p /\
  h_pud_z c = h_pud_z p + h_uncled p.
Proof.
  intros e p c ie V Hg Ho Hn. destruct (calc_order_ok_inv p ie _ Ho Hn) as (E & _). subst ie.
  rewrite (parent_entropy_accumulated _ _ _ V). apply valid_child_accepted in V.
  rewrite (acc_parent_delta V), (acc_parent_uncled_delta V).
  destruct (expected_parent_deltas p _ _ Ho) as [-> ->]. change (ctx_zone <? ctx_zone) with false. cbv iota.
  rewrite (total_zone_order p _ Hg Ho), (delta_zone_order p _ Hg Ho), (uncled_delta_zone_order p _ Hg Ho).
  repeat split; reflexivity.
Qed.
Print Assumptions parent_entropy_accumulates_stepwise.

Theorem parent_delta_restarts_after_dominant_parent : forall e p c ie o,
  valid_child e p c = true -> calc_order p = CoOk ie o -> o < ctx_zone -> h_pd_z c = 0 /\ h_pud_z c = 0.
Proof.
  intros e p c ie o V Ho Hlt. apply valid_child_accepted in V. rewrite (acc_parent_delta V), (acc_parent_uncled_delta V).
  destruct (expected_parent_deltas p _ _ Ho) as [-> ->]. destruct (Z.ltb_spec o ctx_zone); [split; reflexivity|lia].
Qed.
Print Assumptions parent_delta_restarts_after_dominant_parent.

(* FULL statement intended by the property: for every accepted link, total_entropy child > total_entropy parent.
   Proved here for zone-order children (all inputs a zone node validates).  For a dominant-order (region/prime
   coincident) child the zone node does not validate ParentEntropy(REGION/PRIME) and ParentDeltaEntropy(REGION) — the
   region and prime nodes do — so the increase is equivalent to a condition on those fields
   (entropy_increase_dominant_child_partial). *)
Theorem entropy_strictly_increases : forall e p c, valid_child e p c = true -> zone_block c = true ->
  total_entropy ctx_zone c = total_entropy ctx_zone p + own_entropy c /\
  total_entropy ctx_zone p < total_entropy ctx_zone c.
Proof. exact entropy_step. Qed.
Print Assumptions entropy_strictly_increases.

Theorem entropy_increase_dominant_child_partial : forall e p c ie o, valid_child e p c = true -> h_genesis c = false ->
  calc_order c = CoOk ie o -> o <> ctx_zone ->
  let base := if o =? ctx_prime then h_pe_p c + h_pd_r c + h_pd_z c else h_pe_r c + h_pd_z c in
  (o = ctx_prime \/ o = ctx_region) ->
  total_entropy ctx_zone c = base + ie + h_ws c /\
  (total_entropy ctx_zone p < total_entropy ctx_zone c <-> h_pe_z c < base + ie + h_ws c).
Proof.
  intros e p c ie o V Hg Ho Hnz base Hor. rewrite <- (parent_entropy_accumulated _ _ _ V).
  assert (E : total_entropy ctx_zone c = base + ie + h_ws c).
  { subst base. destruct Hor as [-> | ->].
    - rewrite (total_prime_order ctx_zone c ie Hg Ho). cbn. lia.
    - rewrite (total_region_order ctx_zone c ie Hg Ho). cbn. lia. }
  split; [exact E|]. rewrite E. tauto.
Qed.
Print Assumptions entropy_increase_dominant_child_partial.

(* along ANY chain of accepted zone-order links the accumulated entropies are strictly increasing (every pair i < j),
   and the last one is the first plus the sum of the blocks' own entropies *)
Theorem entropy_strictly_increases_along_chains : forall l p,
  valid_chain p l = true -> forallb zone_block (map snd l) = true ->
  StronglySorted Z.lt (chain_totals p l) /\
  total_entropy ctx_zone (chain_last p l) = total_entropy ctx_zone p + fold_right Z.add 0 (map own_entropy (map snd l)).
Proof.
  induction l as [|[e c] l IH]; intros p V Z.
  - split; [repeat constructor|cbn; lia].
  - cbn [valid_chain] in V. apply andb_prop in V as [V1 V2].
    cbn [map snd forallb] in Z. apply andb_prop in Z as [Z1 Z2].
    destruct (entropy_step e p c V1 Z1) as [E Hlt]. destruct (IH c V2 Z2) as [S L].
    unfold chain_last, chain_totals in *. cbn [map snd fold_right] in *. split.
    + (* everything after c is above c, which is above p *)
      constructor; [exact S|]. constructor; [exact Hlt|].
      apply StronglySorted_inv in S as [_ S]. revert S. apply Forall_impl. lia.
    + rewrite last_cons, L, E. lia.
Qed.
Print Assumptions entropy_strictly_increases_along_chains.

(** * the number rule is exact on unbounded integers (header numbers are decoded from the wire without a width limit) *)
(* a header whose number differs from parent+1 is rejected — in particular every number CONGRUENT to parent+1 modulo
   2^64 (what NumberU64 would compare), 2^128, 2^256 or any other width *)
Theorem number_rule_exact_on_unbounded_integers : forall e p c m k, 0 < m -> k <> 0 ->
  h_num c = (if h_genesis p then 0 else h_num p) + 1 + k * m -> valid_child e p c = false.
Proof.
  intros e p c m k Hm Hk E. apply wrong_number_rejected. unfold expected_number.
  assert (k * m <> 0) by (apply Z.neq_mul_0; lia). lia.
Qed.
Print Assumptions number_rule_exact_on_unbounded_integers.

(** * histories: CalcOrder / TotalLogEntropy / DeltaLogEntropy / UncledDeltaLogEntropy over the shared memo *)
(* for EVERY history of calls of the four functions, evictions and restarts, in every node context, every call
   returns the function of the header alone (no dependence on earlier calls) — or two headers of the history share a
   hash and differ in their order (collision) *)
Theorem entropy_functions_history_independent : forall ctx ops,
  hist_run ctx [] ops = map (hist_uncached ctx) ops \/ hist_collision ops.
Proof.
  intros ctx ops. pose (P := fun h => exists f, In (HCall f h) ops).
  destruct (run_sound (run := hist_run ctx) (fun _ => eq_refl) (fun _ _ _ => eq_refl) (hist_step_sound P ctx) ops []
              (cache_inv_empty P)) as [E|(h1 & h2 & [f1 I1] & [f2 I2] & C)].
  - apply Forall_forall. intros o I f h ->. exists f. exact I.
  - left. exact E.
  - right. exists f1, h1, f2, h2. auto.
Qed.
Print Assumptions entropy_functions_history_independent.

(* stable across calls, caches and restarts: the same function on the same header returns the same value at any two
   positions of any history *)
Theorem entropy_functions_stable_across_history : forall ctx ops i j f h,
  nth_error ops i = Some (HCall f h) -> nth_error ops j = Some (HCall f h) ->
  nth_error (hist_run ctx [] ops) i = nth_error (hist_run ctx [] ops) j \/ hist_collision ops.
Proof.
  intros ctx ops i j f h Hi Hj. destruct (entropy_functions_history_independent ctx ops) as [E|C]; [left|right; exact C].
  rewrite E. rewrite (map_nth_error (hist_uncached ctx) _ _ Hi), (map_nth_error (hist_uncached ctx) _ _ Hj). reflexivity.
Qed.
Print Assumptions entropy_functions_stable_across_history.

(** * non-vacuity: a concrete accepted chain of three links observed on the real code (harness chain case 4711) *)
Definition ex_p : header := mkH 15756211122218741455 false 259201 196 1700020908 4214139 24087952227098138373633914913638497707840284485391274743742656544257550 0 769901847074247339142 757181550546886751787 1173159083484976602589 159156489641489504623 256383292402084813129 656540159741179334 906007504646785808 59396713011437832861 2 22367460 0 12000000 0 0 7793917193664559595 11.
Definition ex_c1 : header := mkH 16778651588042410861 false 259202 197 1700020913 4198043 14176087422853201873119852669490256198431017178224220461167164017626882 0 992429421628473065 1043470323858477466 1582616325735433005369 588786790411 665840534652541215909 925420380 60302720516084618669 4767842668847 2 12500048 10019679 12500048 4134458 37619393 7793917193664559595 11.
Definition ex_c2 : header := mkH 2729270095866957636 false 259203 198 1700020916 4185215 23449193357308590215938711026447113141398159744069429947878063802735527 0 749116563126906781 600717117076856693 2006182602391094194221 662733404104 1089406811308202404761 749608563 60302725283927287516 6179360 2 12500096 7995614 12500096 7904445 37609955 7793917193664559595 11.
Definition ex_c3 : header := mkH 11991362714993284855 false 259204 199 1700020926 4179111 24121054769387286014938084304108983917806253462767040026099140844565816 0 1036900961082392689 1086900929261444322 2416355084715250491272 622944900482 1499579293632358701812 621699031 60302725283933466876 120058826286572042515 2 12500144 8124097 12500144 615735 37602407 7793917193664559595 11.
Definition ex_e1 : env := mkEnv 1700020915 1 250000 50000000 (GpTime 1700020902) (mkG false false 769901847074247339142 2) (mkPT true false 2 1 true 2) (mkPT true false 2 0 true 2) 7179662860 (0, 0).
Definition ex_e2 : env := mkEnv 1700020917 1 250000 50000000 (GpTime 1700020908) (mkG false false 992429421628473065 2) (mkPT true false 2 0 true 2) (mkPT true false 2 0 true 2) 7179662860 (0, 0).
Definition ex_e3 : env := mkEnv 1700020931 1 250000 50000000 (GpTime 1700020913) (mkG false false 749116563126906781 2) (mkPT true false 2 0 true 2) (mkPT true false 2 0 true 2) 7179662860 (0, 0).
Definition ex_chain := [(ex_e1, ex_c1); (ex_e2, ex_c2); (ex_e3, ex_c3)].

(* CalcOrder and the base fee are the only expensive parts of the model (64 squarings per logarithm): each is evaluated
   once per block here, and the examples below rewrite with these values before evaluating the rest. *)
Lemma ex_p_order : calc_order ex_p = CoOk 409457242250456402780 ctx_zone.
Proof. vm_compute. reflexivity. Qed.
Lemma ex_c1_order : calc_order ex_c1 = CoOk 423566276655661188852 ctx_zone.
Proof. vm_compute. reflexivity. Qed.
Lemma ex_c2_order : calc_order ex_c2 = CoOk 410172482324156297051 ctx_zone.
Proof. vm_compute. reflexivity. Qed.
Lemma ex_c3_order : calc_order ex_c3 = CoOk 409420694561589756236 ctx_zone.
Proof. vm_compute. reflexivity. Qed.

Lemma ex_p_fee : expected_base_fee ex_e1 ex_p = 37619393.
Proof. vm_compute. reflexivity. Qed.
Lemma ex_c1_fee : expected_base_fee ex_e2 ex_c1 = 37609955.
Proof. vm_compute. reflexivity. Qed.
Lemma ex_c2_fee : expected_base_fee ex_e3 ex_c2 = 37602407.
Proof. vm_compute. reflexivity. Qed.

Lemma ex_link1 : valid_child ex_e1 ex_p ex_c1 = true.
Proof.
  rewrite <- valid_child_fast_is_valid_child. unfold valid_child_fast, rule_base_fee.
  rewrite ex_p_order, ex_p_fee. vm_compute. reflexivity.
Qed.
Lemma ex_link2 : valid_child ex_e2 ex_c1 ex_c2 = true.
Proof.
  rewrite <- valid_child_fast_is_valid_child. unfold valid_child_fast, rule_base_fee.
  rewrite ex_c1_order, ex_c1_fee. vm_compute. reflexivity.
Qed.
Lemma ex_link3 : valid_child ex_e3 ex_c2 ex_c3 = true.
Proof.
  rewrite <- valid_child_fast_is_valid_child. unfold valid_child_fast, rule_base_fee.
  rewrite ex_c2_order, ex_c2_fee. vm_compute. reflexivity.
Qed.

Example valid_chain_nonvacuous :
  valid_chain ex_p ex_chain = true /\ forallb zone_block (map snd ex_chain) = true /\
  chain_totals ex_p ex_chain = [1582616325735433005369; 2006182602391094194221; 2416355084715250491272; 2825775779276840247508].
Proof.
  unfold chain_totals, ex_chain, total_entropy. cbn [valid_chain map snd forallb]. unfold zone_block.
  rewrite ex_link1, ex_link2, ex_link3, ex_p_order, ex_c1_order, ex_c2_order, ex_c3_order.
  vm_compute. repeat split; reflexivity.
Qed.

(* the first link again, with the retarget formula exercised: the expected difficulty differs from the parent's *)
Example valid_child_nonvacuous :
  valid_child ex_e1 ex_p ex_c1 = true /\
  expected_difficulty ex_e1 ex_p = Some 4198043 /\ h_diff ex_p = 4214139 /\
  calc_order ex_p = CoOk 409457242250456402780 ctx_zone.
Proof. rewrite ex_link1, ex_p_order. vm_compute. repeat split; reflexivity. Qed.

Example log_big_nonvacuous : log_big 3 = 29237397617229858719 /\ log_big 1000000 = 367672544385916274646 /\
  intrinsic_entropy (big2e256 / 1000000) = 367672544385916274646.
Proof.
  unfold intrinsic_entropy. replace (big2e256 / (big2e256 / 1000000)) with 1000000 by (vm_compute; reflexivity).
  assert (L : log_big 1000000 = 367672544385916274646) by (vm_compute; reflexivity).
  rewrite L. split; [vm_compute|split]; reflexivity.
Qed.

(* a memo history with a hit, an eviction and a restart *)
Example cache_nonvacuous :
  cache_run [] [OpCall ex_c1; OpCall ex_c1; OpEvict (h_hash ex_c1); OpCall ex_c1; OpPurge; OpCall ex_c2] =
  map uncached [OpCall ex_c1; OpCall ex_c1; OpEvict (h_hash ex_c1); OpCall ex_c1; OpPurge; OpCall ex_c2]
  /\ cache_state [] [OpCall ex_c1] <> [].
Proof.
  unfold cache_state. cbn [cache_run cache_step map uncached fold_left]. unfold calc_order_cached.
  rewrite ex_c1_order, ex_c2_order. vm_compute. split; [reflexivity|discriminate].
Qed.

Example difficulty_nonvacuous :
  retarget 5 1000 1000000 1700000004 1700000000 = 1000131 /\ retarget 5 1000 1000000 1700000100 1700000000 = 987465 /\
  retarget 5 1000 1010 1700000100 1700000000 = 1004 /\ retarget 5 1000 1000 1700001000 1700000000 = 1000.
Proof. vm_compute. repeat split; reflexivity. Qed.

(* the child of the observed chain with its number moved by 2^64 / 2^128: same low 64 bits, rejected *)
Definition with_num (c : header) (n : Z) : header :=
  mkH (h_hash c) (h_genesis c) n (h_num_prime c) (h_time c) (h_diff c) (h_pow c) (h_ws c) (h_pe_p c) (h_pe_r c) (h_pe_z c)
      (h_pd_r c) (h_pd_z c) (h_pud_r c) (h_pud_z c) (h_uncled c) (h_expansion c) (h_gas_limit c) (h_gas_used c)
      (h_state_limit c) (h_state_used c) (h_base_fee c) (h_pt_hash c) (h_pt_num c).
Example wide_number_nonvacuous :
  valid_child ex_e1 ex_p (with_num ex_c1 (h_num ex_c1)) = true /\
  valid_child ex_e1 ex_p (with_num ex_c1 (h_num ex_c1 + 2 ^ 64)) = false /\
  valid_child ex_e1 ex_p (with_num ex_c1 (h_num ex_c1 + 3 * 2 ^ 128)) = false /\
  num64 (with_num ex_c1 (h_num ex_c1 + 2 ^ 64)) = num64 ex_c1.
Proof.
  split; [exact ex_link1|].
  split; [apply wrong_number_rejected; vm_compute; discriminate|].
  split; [apply wrong_number_rejected; vm_compute; discriminate|].
  vm_compute. reflexivity.
Qed.

(* a history mixing the four functions on two blocks with a hit, an eviction and a restart *)
Example history_nonvacuous :
  let ops := [HCall FTotal ex_c1; HCall FDelta ex_c1; HCall FDelta ex_c1; HCall FTotal ex_c1; HCall FOrder ex_c1;
              HEvict (h_hash ex_c1); HCall FUDelta ex_c1; HPurge; HCall FTotal ex_c2; HCall FDelta ex_c1] in
  hist_run ctx_zone [] ops = map (hist_uncached ctx_zone) ops /\
  nth_error (hist_run ctx_zone [] ops) 0 = Some (Some (RZ 2006182602391094194221)).
Proof.
  cbv zeta. cbn [hist_run hist_step map hist_uncached]. unfold calc_order_cached, hist_pure.
  rewrite ex_c1_order, ex_c2_order. vm_compute. split; reflexivity.
Qed.

(** * the expansion number: ComputeExpansionNumber's "terminus is genesis" shortcut belongs to slice [0,0] only *)
(* the whole rule as a specification: the prime terminus must be stored; in slice [0,0] a genesis terminus hands its
   expansion number down; otherwise a terminus whose threshold count matured (trigger window + wait count) starts the
   next expansion (uint8 arithmetic), else the expansion number is the one of the terminus' prime parent *)
Theorem expansion_number_rule : forall l00 i x, expansion_of l00 i = Some x <->
  pt_found i = true /\
  ((pt_genesis i && l00 = true /\ x = pt_expansion i) \/
   (pt_genesis i && l00 = false /\ matured i = true /\ x = u8 (pt_expansion i + 1)) \/
   (pt_genesis i && l00 = false /\ matured i = false /\ ppt_found i = true /\ x = ppt_expansion i)).
Proof. exact expansion_of_spec. Qed.
Print Assumptions expansion_number_rule.

(* accept => the child's expansion number is the rule's value for the node's slice and the child's prime terminus
   (the parent itself when it is a prime block, else the block the parent names) *)
Theorem valid_child_pins_expansion_per_slice : forall e p c, valid_child e p c = true ->
  expansion_of (loc00 e) (terminus_view e p) = Some (h_expansion c).
Proof. exact valid_child_expansion_view. Qed.
Print Assumptions valid_child_pins_expansion_per_slice.

(* both directions outside [0,0]: the child of a matured terminus - genesis of the slice or not - carries the NEXT
   expansion number, and the old number (what the [0,0] shortcut would hand down) is not accepted *)
Theorem matured_terminus_starts_next_expansion_outside_slice_00 : forall e p c,
  valid_child e p c = true -> loc00 e = false ->
  matured (terminus_view e p) = true -> 0 <= pt_expansion (terminus_view e p) < 256 ->
  h_expansion c = u8 (pt_expansion (terminus_view e p) + 1) /\ h_expansion c <> pt_expansion (terminus_view e p).
Proof.
  intros e p c V L M B. rewrite (expansion_of_value _ _ _ (valid_child_expansion_view e p c V)), L, andb_false_r, M.
  split; [reflexivity|apply u8_succ_ne; exact B].
Qed.
Print Assumptions matured_terminus_starts_next_expansion_outside_slice_00.

Theorem genesis_terminus_keeps_expansion_in_slice_00 : forall e p c, valid_child e p c = true -> loc00 e = true ->
  pt_genesis (terminus_view e p) = true -> h_expansion c = pt_expansion (terminus_view e p).
Proof.
  intros e p c V L G. rewrite (expansion_of_value _ _ _ (valid_child_expansion_view e p c V)), L, G. reflexivity.
Qed.
Print Assumptions genesis_terminus_keeps_expansion_in_slice_00.

Theorem expansion_outside_slice_00_ignores_genesis_flag : forall f g e t pf pe g',
  expansion_of false (mkPT f g e t pf pe) = expansion_of false (mkPT f g' e t pf pe).
Proof. intros f g e t pf pe g'. unfold expansion_of; cbn. rewrite !andb_false_r. reflexivity. Qed.
Print Assumptions expansion_outside_slice_00_ignores_genesis_flag.

(* observed on the real code (harness, verify case of parent shape 7): node location [1,0], the parent is the
   expansion genesis of the slice (expansion number 1, threshold count 1168 = 144 + 1024); the accepted child carries
   expansion number 2; the same child with the old number 1 is rejected.  In slice [0,0] it is the other way round. *)
Definition with_expansion (c : header) (x : Z) : header :=
  mkH (h_hash c) (h_genesis c) (h_num c) (h_num_prime c) (h_time c) (h_diff c) (h_pow c) (h_ws c) (h_pe_p c) (h_pe_r c) (h_pe_z c)
      (h_pd_r c) (h_pd_z c) (h_pud_r c) (h_pud_z c) (h_uncled c) x (h_gas_limit c) (h_gas_used c)
      (h_state_limit c) (h_state_used c) (h_base_fee c) (h_pt_hash c) (h_pt_num c).
Definition with_loc (e : env) (l : Z * Z) : env :=
  mkEnv (e_now e) (e_dl e) (e_mind e) (e_gas_ceil e) (e_gp e) (e_gcase e) (e_pt_self e) (e_pt_ref e) (e_er_pt e) l.
Definition ex_g_env : env := mkEnv 1700017047 5 750000000000 61078297 GpNone (mkG false true 0 1) (mkPT true true 1 1168 true 1) (mkPT true false 1 0 true 1) 135055882200410184 (1, 0).
Definition ex_g : header := mkH 1465339490825810992 true 0 0 1700015289 750000047353 1 0 0 0 0 0 0 0 0 0 1 0 0 0 0 0 2879876176812484073 0.
Definition ex_gc : header := mkH 4857028232308997627 false 1 1 1700015297 750000047353 95347348776236488148298487346635213657089458515259266305309266198 0 855146307505988699 791796227994359420 0 733069157310 0 654070479 0 535043239890004 2 0 0 0 0 0 1465339490825810992 0.
Example expansion_genesis_nonvacuous :
  valid_child ex_g_env ex_g ex_gc = true /\ h_expansion ex_gc = 2 /\ loc00 ex_g_env = false /\
  matured (terminus_view ex_g_env ex_g) = true /\ pt_genesis (terminus_view ex_g_env ex_g) = true /\
  valid_child ex_g_env ex_g (with_expansion ex_gc 1) = false /\
  valid_child (with_loc ex_g_env (0, 0)) ex_g (with_expansion ex_gc 1) = true /\
  valid_child (with_loc ex_g_env (0, 0)) ex_g ex_gc = false /\
  valid_child (with_loc ex_g_env (0, 1)) ex_g ex_gc = true.
Proof. vm_compute. repeat split; reflexivity. Qed.

(** * VerifyHeader / AppendHeader: the verdict does not depend on the storage history of the header *)
(* the run the correspondence check evaluates is the model's run *)
Theorem store_run_fast_is_store_run : forall e p c ops,
  store_run_fast e p c ops = store_run (Some (e, p)) c StUnknown ops.
Proof. exact store_run_fast_eq. Qed.
Print Assumptions store_run_fast_is_store_run.

(* a header that was merely stored as a candidate (HeaderChain.WriteBlock: every block received from a peer, every
   failed append) is verified exactly like a header never seen; only a header that is part of the chain is skipped *)
Theorem verify_header_ignores_candidates : forall par c,
  verify_header_top StCandidate par c = verify_header_top StUnknown par c.
Proof. reflexivity. Qed.
Print Assumptions verify_header_ignores_candidates.

Theorem verify_header_accepts_only_valid_children_or_chain_members : forall st e p c,
  verify_header_top st (Some (e, p)) c = true -> st = StAppended \/ valid_child e p c = true.
Proof. intros st e p c. destruct st; cbn; rewrite ?valid_child_fast_eq; auto. Qed.
Print Assumptions verify_header_accepts_only_valid_children_or_chain_members.

(* for EVERY history of VerifyHeader / AppendHeader calls, candidate writes, purges and restarts on a header that is
   not part of the chain, every verdict is verifyHeader's verdict on (stored parent, child) *)
Theorem verify_header_verdict_independent_of_storage_history : forall e p c ops st,
  st <> StAppended -> forallb not_commit ops = true ->
  Forall (fun o => o = None \/ o = Some (valid_child e p c)) (store_run (Some (e, p)) c st ops).
Proof.
  intros e p c. induction ops as [| op ops IH]; intros st NA NC; [constructor |].
  cbn [forallb] in NC. apply andb_prop in NC as [N1 N2]. cbn [store_run]. constructor.
  - (* the two verifying operations answer with verifyHeader's verdict, the others with nothing *)
    destruct op; cbn [store_step snd]; auto; right; destruct st; reflexivity || contradiction.
  - (* a write leaves a candidate; only the commit makes the header part of the chain *)
    apply IH; [|exact N2]. destruct op; cbn [store_step fst]; try exact NA; [destruct st; discriminate || exact NA|discriminate N1].
Qed.
Print Assumptions verify_header_verdict_independent_of_storage_history.

(* the node: blocks arrive in any order, are stored as candidates and/or appended; every header that enters the
   chain was there before or is a valid child of the stored parent it was verified against ... *)
Theorem node_appends_only_valid_children : forall look s0 ops x,
  In x (ns_appended (node_run look s0 ops)) -> In x (ns_appended s0) \/ accepted_by look x.
Proof. intros look s0 ops. apply node_run_chain_sound. intros y I; left; exact I. Qed.
Print Assumptions node_appends_only_valid_children.

(* ... and the chain it builds is the same with every candidate write removed from the history *)
Theorem node_chain_independent_of_candidate_writes : forall look ops s,
  ns_appended (node_run look s ops) = ns_appended (node_run look s (filter (fun o => negb (is_write o)) ops)).
Proof. exact (fun look ops s => node_run_ignores_writes look ops s s eq_refl). Qed.
Print Assumptions node_chain_independent_of_candidate_writes.

(* the deviating sibling of the observed child (difficulty + 1) stays rejected through a history of candidate writes,
   a purge and a restart; after the commit of the VALID child VerifyHeader short-circuits *)
Definition with_diff (c : header) (d : Z) : header :=
  mkH (h_hash c) (h_genesis c) (h_num c) (h_num_prime c) (h_time c) d (h_pow c) (h_ws c) (h_pe_p c) (h_pe_r c) (h_pe_z c)
      (h_pd_r c) (h_pd_z c) (h_pud_r c) (h_pud_z c) (h_uncled c) (h_expansion c) (h_gas_limit c) (h_gas_used c)
      (h_state_limit c) (h_state_used c) (h_base_fee c) (h_pt_hash c) (h_pt_num c).
Example store_nonvacuous :
  let ops := [SoVerify; SoWrite; SoVerify; SoPurge; SoAppendHeader; SoRestart; SoVerify] in
  store_run (Some (ex_e1, ex_p)) (with_diff ex_c1 (h_diff ex_c1 + 1)) StUnknown ops =
    [Some false; None; Some false; None; Some false; None; Some false] /\
  store_run (Some (ex_e1, ex_p)) ex_c1 StUnknown (ops ++ [SoCommit; SoVerify]) =
    [Some true; None; Some true; None; Some true; None; Some true; None; Some true] /\
  ns_appended (node_run (fun _ => Some (ex_e1, ex_p)) (mkNS [] [])
     [NWrite (with_diff ex_c1 (h_diff ex_c1 + 1)); NAppend (with_diff ex_c1 (h_diff ex_c1 + 1)); NWrite ex_c1; NAppend ex_c1])
    = [h_hash ex_c1].
Proof.
  assert (R : valid_child_fast ex_e1 ex_p (with_diff ex_c1 (h_diff ex_c1 + 1)) = false) by (vm_compute; reflexivity).
  assert (L : valid_child_fast ex_e1 ex_p ex_c1 = true) by (rewrite valid_child_fast_is_valid_child; exact ex_link1).
  cbv zeta. rewrite <- !store_run_fast_is_store_run. unfold store_run_fast, node_run.
  cbn [fold_left node_step]. unfold verify_header_top. rewrite L, R. vm_compute. repeat split; reflexivity.
Qed.
