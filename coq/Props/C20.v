(* C20 -- Quai<->Qi conversions never credit more than the rate allows; refusals refund.
   Property theorems, each followed by [Print Assumptions]; lemmas in Proofs/C20*.v.
   Model: Model/C20.v   Generated data: Generated/C20Params.v
   [reprice disc h knew etxs] is the inline conversion block of Slice.Append (PRIME), with
   [disc] = floor of misc.ApplyCubicDiscount (a big.Float computation) as an oracle; the only
   fact used about it is the recorded hypothesis 0 <= disc v m <= v (checked on every real call
   by the harness, and proved for the ideal rational formula, [cubic_discount_within_value]). *)
From Coq Require Import List ZArith Bool Lia Permutation.
From GQ Require Import Generated.C20Params Model.C20 Proofs.C20 Proofs.C20_Mint Proofs.C20_Block
  Proofs.C20_Origin Proofs.C20_Redeem Proofs.C20_Ctl.
Import ListNotations.
Local Open Scope Z_scope.

(* ---- obligations on data regenerated from the repository on every run ---- *)

Theorem protocol_constants_ok : params_ok = true.
Proof. exact params_ok_true. Qed.
Print Assumptions protocol_constants_ok.

Theorem denominations_table_ok : dens_ok = true.
Proof. exact dens_ok_true. Qed.
Print Assumptions denominations_table_ok.

(* the inline block the model was written against: statement kinds/heads in pre-order
   (listed in Generated/C20Params.v).  A semantic edit of the block changes the digest. *)
Theorem conversion_block_is_the_reviewed_one :
  slice_shape_sha256 = reviewed_shape_sha256 /\ slice_shape_len = reviewed_shape_len.
Proof. split; reflexivity. Qed.
Print Assumptions conversion_block_is_the_reviewed_one.

Theorem mint_branch_is_the_reviewed_one :
  mint_shape_sha256 = reviewed_mint_shape_sha256 /\ mint_shape_len = reviewed_mint_shape_len.
Proof. split; reflexivity. Qed.
Print Assumptions mint_branch_is_the_reviewed_one.

Theorem revert_branches_are_the_reviewed_ones :
  revert_qi_shape_sha256 = ShapeDigest.reviewed_revert_qi_shape_sha256 /\ revert_qi_shape_len = 31 /\
  revert_quai_shape_sha256 = ShapeDigest.reviewed_revert_quai_shape_sha256 /\ revert_quai_shape_len = 11.
Proof. repeat split; reflexivity. Qed.
Print Assumptions revert_branches_are_the_reviewed_ones.

Theorem trim_rule_table_ok : trim_split_ok = true.
Proof. exact trim_split_ok_true. Qed.
Print Assumptions trim_rule_table_ok.

(* ---- unit conversion at a fixed rate ---- *)

(* the two rewards that define the rate are positive for every non-negative header field *)
Theorem rate_parameters_positive : forall k logdiff diff kqi,
  0 <= k -> 0 <= logdiff -> 0 <= diff -> 0 < kqi ->
  1 <= quai_reward k logdiff /\ 1 <= qi_reward diff kqi.
Proof. intros. split; [apply quai_reward_pos|apply qi_reward_pos]; assumption. Qed.
Print Assumptions rate_parameters_positive.

Theorem roundtrip_no_gain_quai : forall a b x, 1 <= a -> 1 <= b -> 0 <= x ->
  qi_to_quai a b (quai_to_qi a b x) <= x.
Proof.
  intros a b x Ha Hb Hx. rewrite roundtrip_div by assumption.
  apply Z.div_le_upper_bound; [lia|]. pose proof (Z.mul_div_le (b * x) a). lia.
Qed.
Print Assumptions roundtrip_no_gain_quai.

Theorem roundtrip_no_gain_qi : forall a b x, 1 <= a -> 1 <= b -> 0 <= x ->
  quai_to_qi a b (qi_to_quai a b x) <= x.
Proof. intros a b x Ha Hb Hx. exact (roundtrip_no_gain_quai b a x Hb Ha Hx). Qed.
Print Assumptions roundtrip_no_gain_qi.

(* and it loses less than one rounding unit of each step *)
Theorem roundtrip_loss_bounded : forall a b x, 1 <= a -> 1 <= b -> 0 <= x ->
  b * x - a - b < b * qi_to_quai a b (quai_to_qi a b x).
Proof.
  intros a b x Ha Hb Hx. rewrite roundtrip_div by assumption.
  pose proof (Z.mul_succ_div_gt (b * x) a ltac:(lia)).
  pose proof (Z.mul_succ_div_gt (a * (b * x / a)) b ltac:(lia)). lia.
Qed.
Print Assumptions roundtrip_loss_bounded.

Theorem conversion_monotone : forall a b x y, 1 <= a -> 1 <= b -> 0 <= x -> x <= y ->
  qi_to_quai a b x <= qi_to_quai a b y /\ quai_to_qi a b x <= quai_to_qi a b y /\ 0 <= qi_to_quai a b x /\ 0 <= quai_to_qi a b x.
Proof.
  intros. repeat split;
    [apply qi_to_quai_mono|apply quai_to_qi_mono|apply qi_to_quai_nonneg|apply quai_to_qi_nonneg]; assumption.
Qed.
Print Assumptions conversion_monotone.

(* the documented cubic discount never exceeds the value it discounts (the hypothesis on the oracle) *)
Theorem cubic_discount_within_value : forall v m, 0 <= v -> 0 <= disc_ideal v m <= v.
Proof. exact disc_ideal_bounds. Qed.
Print Assumptions cubic_discount_within_value.

(* ---- splitting into Qi denominations ---- *)

(* nothing is lost by the split as long as the count of the top denomination fits uint64 *)
Theorem denominations_sum : forall v,
  0 <= v -> v < two64 * top_den -> denoms_sum (find_min_denominations v) = v.
Proof.
  intros v H0 Hlt. apply fmd_loop_sum; [apply dens_desc_facts|apply dens_desc_facts|split; assumption].
Qed.
Print Assumptions denominations_sum.

(* full statement "for all 0 <= v <= MaxQi" is false of the code: count.Uint64() wraps *)
Theorem denominations_sum_beyond_guard_refuted :
  exists v, 0 <= v <= max_qi /\ denoms_sum (find_min_denominations v) <> v.
Proof. exact denominations_truncation_refuted. Qed.
Print Assumptions denominations_sum_beyond_guard_refuted.

(* destination side (Quai->Qi branch of StateProcessor.Process, sliced and run like the prime block):
   minting the split with [gas] left (ETX gas minus TxGas) creates at most the value, exactly the
   value iff it reports success (status Locked), which it does whenever gas and output index
   suffice; otherwise the loss is exactly the pieces gas/index did not pay for, largest first. *)
Theorem mint_loss_bounded : forall v gas,
  0 <= v -> v < two64 * top_den -> 0 <= gas ->
  let '(t, i, g, ok) := mint v gas in
  0 <= t <= v /\ 0 <= i <= max_output_index /\ 0 <= g /\ g = gas - i * call_value_transfer_gas /\
  (ok = true -> t = v /\ i = denoms_count (find_min_denominations v)) /\
  (denoms_count (find_min_denominations v) * call_value_transfer_gas <= gas ->
   denoms_count (find_min_denominations v) <= max_output_index -> ok = true).
Proof.
  intros v gas Hv Hg Hgas.
  pose proof (mint_denoms_spec _ gas (find_min_denominations_counts_ok v) Hgas) as M.
  rewrite (denominations_sum v Hv Hg) in M. exact M.
Qed.
Print Assumptions mint_loss_bounded.

(* destination side of a REVERTED Qi->Quai conversion (ConversionRevert branch of Process refunding Qi,
   sliced and run): the refund is the split of the original without the pieces of denomination
   <= MaxTrimDenomination ([dust]) -- at most that, exactly that when the ETX gas pays
   CallValueTransferGas for every refunded piece. *)
Theorem refund_qi_loss_bounded : forall v gas,
  0 <= v -> v < two64 * top_den -> 0 <= gas ->
  let '(t, i, g, ok) := refund_qi v gas in
  0 <= dust v /\ 0 <= t <= v - dust v /\ 0 <= i <= max_output_index /\ 0 <= g /\
  g = gas - i * call_value_transfer_gas /\
  (ok = true -> t = v - dust v) /\
  (denoms_count (filter above_trim (find_min_denominations v)) * call_value_transfer_gas <= gas ->
   denoms_count (filter above_trim (find_min_denominations v)) <= max_output_index -> t = v - dust v).
Proof.
  intros v gas Hv Hg Hgas. unfold refund_qi, dust.
  pose proof (counts_ok_filter (fun p => negb (above_trim p)) _ (find_min_denominations_counts_ok v)) as Hd.
  apply denoms_nonneg in Hd.
  pose proof (denoms_sum_filter_split above_trim (find_min_denominations v)) as Hsplit.
  rewrite (denominations_sum v Hv Hg) in Hsplit.
  pose proof (mint_denoms_spec _ gas (counts_ok_filter above_trim _ (find_min_denominations_counts_ok v)) Hgas) as M.
  destruct (mint_denoms _ gas) as [[[t i] g] ok]. destruct M as (A & B & C & D & E & F).
  repeat split; try lia.
  - intros Hok. destruct (E Hok). lia.
  - intros H1 H2. destruct (E (F H1 H2)). lia.
Qed.
Print Assumptions refund_qi_loss_bounded.

(* the protocol's dust rule: what the trim drops is less than the smallest refundable denomination *)
Theorem dust_rule_bounded : forall v,
  0 <= v -> v < two64 * top_den -> dust v < smallest_refundable.
Proof. intros v Hv _. exact (dust_below_smallest_refundable v Hv). Qed.
Print Assumptions dust_rule_bounded.

(* full statement "a reverted conversion returns exactly the original (less dust) on the origin
   ledger" is FALSE of the code on the Qi side: (1) with ETX gas 0 -- a conversion that paid exactly
   the required fee -- nothing comes back; (2) even with ample gas the dust is dropped. *)
Theorem revert_returns_original_on_qi_ledger_refuted :
  (exists v, 0 <= v < two64 * top_den /\ 0 < v - dust v /\ fst (fst (fst (refund_qi v 0))) = 0)
  /\ (exists v gas, 0 <= v < two64 * top_den /\
        denoms_count (filter above_trim (find_min_denominations v)) * call_value_transfer_gas <= gas /\
        fst (fst (fst (refund_qi v gas))) < v).
Proof. exact refund_qi_original_refuted. Qed.
Print Assumptions revert_returns_original_on_qi_ledger_refuted.

(* ---- the conversion block of Slice.Append ---- *)

(* the order in which conversions are repriced: a permutation, descending slip, stable *)
Theorem sort_is_stable_descending : forall l,
  Permutation (sort_desc l) l /\ desc_sorted (sort_desc l) /\
  forall k, filter (same_key k) (sort_desc l) = filter (same_key k) l.
Proof.
  intros l. split; [apply sort_desc_perm|]. split; [apply sort_desc_sorted|]. intros k. apply sort_desc_stable.
Qed.
Print Assumptions sort_is_stable_descending.

(* every inbound ETX leaves the block exactly once *)
Theorem reprice_no_etx_lost_or_duplicated : forall disc h knew etxs r,
  reprice disc h knew etxs = Some r ->
  map o_e (r_out r) = sort_desc etxs /\ Permutation (map o_e (r_out r)) etxs.
Proof.
  intros disc h knew etxs r H. rewrite (reprice_order disc h knew etxs r H).
  split; [reflexivity|apply sort_desc_perm].
Qed.
Print Assumptions reprice_no_etx_lost_or_duplicated.

(* each conversion has exactly one outcome: converted (at the new rate, from an amount that is at
   least the 10 % floor and passed the pass-one slip test) or reverted with the original value;
   anything that is not a conversion is untouched *)
Theorem reprice_outcome_exclusive : forall disc h knew etxs r o,
  inputs_ok h knew etxs -> reprice disc h knew etxs = Some r -> In o (r_out r) ->
  In (o_e o) etxs /\
  ((e_conv (o_e o) = false /\ o_kind o = KOther /\ o_value o = e_value (o_e o))
   \/ (e_conv (o_e o) = true /\ 0 < e_value (o_e o) /\ o_kind o = KReverted /\ o_value o = e_value (o_e o))
   \/ (e_conv (o_e o) = true /\ 0 < e_value (o_e o) /\ o_kind o = KConverted /\
       o_value o = rate_amount h knew (o_e o) (o_before o) /\
       e_value (o_e o) * 10 / 100 <= o_before o /\ after_slip (o_e o) <= o_p1 o)).
Proof.
  intros disc h knew etxs r o Hio H Hin.
  destruct (reprice_entry disc _ _ _ _ _ Hio H Hin) as (acc & e & acc' & Hie & _ & He).
  destruct He as [Hc|p _ Hc Hpos _|p _ Hc Hpos _|p _ Hc Hpos Hge _];
    cbn [o_e o_kind o_value o_before o_p1]; (split; [exact Hie|]).
  - left. repeat split; assumption.
  - right; left. repeat split; assumption.
  - (* accepted by pass one, worth nothing at the header rate: reverted like a rejected one *)
    right; left. repeat split; assumption.
  - right; right. repeat split; try assumption. apply discounted_ge_floor.
Qed.
Print Assumptions reprice_outcome_exclusive.

Theorem revert_returns_original : forall disc h knew etxs r o,
  inputs_ok h knew etxs -> reprice disc h knew etxs = Some r -> In o (r_out r) -> o_kind o = KReverted ->
  e_conv (o_e o) = true /\ o_value o = e_value (o_e o) /\ 0 < o_value o.
Proof.
  intros disc h knew etxs r o Hio H Hin Hkind.
  destruct (reprice_entry disc _ _ _ _ _ Hio H Hin) as (acc & e & acc' & _ & _ & He).
  destruct He; try discriminate Hkind; cbn [o_e o_value]; repeat split; assumption.
Qed.
Print Assumptions revert_returns_original.

(* after ConversionSlipChangeBlock: discounts only reduce -- the credit is at most what the rate
   applied in this prime block gives for the original amount *)
Theorem reprice_credit_le_rate_amount : forall disc,
  (forall v m, 0 <= v -> 0 <= disc v m <= v) ->
  forall h knew etxs r o,
  inputs_ok h knew etxs -> postfork h = true -> 0 <= h_kqd h ->
  reprice disc h knew etxs = Some r -> In o (r_out r) -> o_kind o = KConverted ->
  o_value o <= rate_amount h knew (o_e o) (e_value (o_e o)).
Proof.
  intros disc Hd h knew etxs r o Hio Hpf Hkqd H Hin Hkind.
  pose proof (reprice_total_nonneg disc _ _ _ _ Hio H) as Hact.
  destruct (reprice_entry disc _ _ _ _ _ Hio H Hin) as (acc & e & acc' & _ & Hv & He).
  destruct Hio as (Hr & Hk & _).
  destruct He as [| | |p _ Hc Hpos _ Hne]; try discriminate Hkind. cbn [o_value o_e].
  pose proof (discounted_ge_floor disc h e (r_actual r)). pose proof (ten_percent_bounds (e_value e) Hv).
  apply rate_amount_mono; try assumption; [lia|]. apply discounted_le; try assumption; lia.
Qed.
Print Assumptions reprice_credit_le_rate_amount.

(* the same statement on the other side of the fork is false of the code (historic blocks) *)
Theorem reprice_credit_le_rate_amount_prefork_refuted :
  exists disc h knew etxs r o,
    (forall v m, 0 <= v -> 0 <= disc v m <= v) /\ inputs_ok h knew etxs /\ postfork h = false /\
    0 <= h_kqd h <= kquai_mult /\
    reprice disc h knew etxs = Some r /\ In o (r_out r) /\ o_kind o = KConverted /\
    rate_amount h knew (o_e o) (e_value (o_e o)) < o_value o.
Proof. exact prefork_credit_refuted. Qed.
Print Assumptions reprice_credit_le_rate_amount_prefork_refuted.

(* never below the protocol floor, on both sides of the fork, whatever the discount oracle *)
Theorem reprice_floor : forall disc h knew etxs r o,
  inputs_ok h knew etxs -> reprice disc h knew etxs = Some r -> In o (r_out r) -> o_kind o = KConverted ->
  rate_amount h knew (o_e o) (e_value (o_e o) * 10 / 100) <= o_value o.
Proof.
  intros disc h knew etxs r o Hio H Hin Hkind.
  destruct (reprice_entry disc _ _ _ _ _ Hio H Hin) as (acc & e & acc' & _ & Hv & He).
  destruct Hio as (Hr & Hk & _).
  destruct He as [| | |p _ Hc Hpos _ _]; try discriminate Hkind. cbn [o_value o_e].
  pose proof (ten_percent_bounds (e_value e) Hv).
  apply rate_amount_mono; try assumption; [lia|apply discounted_ge_floor].
Qed.
Print Assumptions reprice_floor.

(* slip_respected_partial: the sender's bound holds for the PASS-ONE amount of every converted ETX,
   and an ETX whose pass-one amount is below the bound is refunded exactly.  The full statement
   (bound holds for the amount finally converted, o_before) is refuted below. *)
Theorem slip_respected_partial : forall disc h knew etxs r o,
  inputs_ok h knew etxs -> reprice disc h knew etxs = Some r -> In o (r_out r) ->
  e_conv (o_e o) = true -> 0 < e_value (o_e o) ->
  (o_kind o = KConverted -> after_slip (o_e o) <= o_p1 o) /\
  (o_p1 o < after_slip (o_e o) -> o_kind o = KReverted /\ o_value o = e_value (o_e o)).
Proof.
  intros disc h knew etxs r o Hio H Hin Hc Hpos.
  destruct (reprice_entry disc _ _ _ _ _ Hio H Hin) as (acc & e & acc' & _ & _ & He).
  destruct He as [Hn|p _ _ _ Hlt|p _ _ _ Hge|p _ _ _ Hge _]; cbn [o_e o_kind o_value o_p1] in *.
  - congruence.
  - split; [discriminate|]. intros _. split; reflexivity.
  - split; [discriminate|]. intros Hlt. lia.
  - split; [intros _; exact Hge|]. intros Hlt. lia.
Qed.
Print Assumptions slip_respected_partial.

Theorem slip_respected_refuted :
  exists disc h knew etxs r o,
    (forall v m, 0 <= v -> 0 <= disc v m <= v) /\ inputs_ok h knew etxs /\ postfork h = true /\
    0 <= h_kqd h <= kquai_mult /\
    reprice disc h knew etxs = Some r /\ In o (r_out r) /\ o_kind o = KConverted /\
    o_before o < after_slip (o_e o).
Proof. exact final_slip_refuted. Qed.
Print Assumptions slip_respected_refuted.

(* ... but it does hold for the LAST conversion accepted by pass one (every later conversion was
   rejected there): the amount it was tested against is the final total, so the amount finally
   converted is the pass-one amount.  In particular a block with a single conversion honours the
   bound.  (This is what separates the recorded finding from a regression in the harness monitor.) *)
Theorem slip_respected_for_last_accepted : forall disc h knew etxs r pre o post,
  inputs_ok h knew etxs -> reprice disc h knew etxs = Some r ->
  r_out r = pre ++ o :: post -> o_kind o = KConverted ->
  (forall o', In o' post -> e_conv (o_e o') = true -> 0 < e_value (o_e o') -> o_p1 o' < after_slip (o_e o')) ->
  o_before o = o_p1 o /\ after_slip (o_e o) <= o_before o.
Proof.
  intros disc h knew etxs r pre o post (Hr & Hk & Hv) H Hsplit Hkind Hpost.
  pose proof (reprice_run disc _ _ _ _ Hr Hv H) as Hrun. rewrite Hsplit in Hrun.
  destruct (run_split disc _ _ _ _ _ _ _ _ _ Hrun) as (acc & e & acc' & l' & _ & He & Hrest).
  (* nothing behind [o] was accepted: the total it was tested with is the final one *)
  rewrite (run_rejected disc _ _ _ _ _ _ _ Hrest Hpost) in He.
  inversion He as [| | |p Hp Hc Hpos Hslip Hne Hacc Ho]; subst o; try discriminate Hkind.
  cbn [o_before o_p1 o_e]. rewrite <- Hp. split; [reflexivity|exact Hslip].
Qed.
Print Assumptions slip_respected_for_last_accepted.

Theorem reprice_values_never_negative : forall disc h knew etxs r o,
  inputs_ok h knew etxs -> reprice disc h knew etxs = Some r -> In o (r_out r) -> 0 <= o_value o.
Proof.
  intros disc h knew etxs r o Hio H Hin.
  destruct (reprice_entry disc _ _ _ _ _ Hio H Hin) as (acc & e & acc' & _ & Hv & He).
  destruct Hio as (Hr & Hk & _).
  destruct He; cbn [o_value]; [exact Hv|lia|lia|].
  pose proof (discounted_ge_floor disc h e (r_actual r)). pose proof (ten_percent_bounds (e_value e) Hv).
  apply rate_amount_nonneg; try assumption. lia.
Qed.
Print Assumptions reprice_values_never_negative.

(* ---- non-vacuity ---- *)

(* a tolerant whale is converted (above the floor, below the rate amount), the min-slip conversion
   queued behind it is refunded, the coinbase ETX between them is untouched *)
Example reprice_nonvacuous :
  let h := mkHdr 300000 221077819000000000 737869762948382064640 5000000000000 8000000000 100 10000000000000000000000 true in
  let l := [mkEtx 1%N true true 10000000000000000000000 (Some 30); mkEtx 2%N false true 77 None;
            mkEtx 3%N true true 60000000000000000000000 (Some 9000)] in
  inputs_ok h 221077819000000000 l /\
  option_map (fun r => map (fun o => (e_id (o_e o), o_kind o, o_value o, o_before o)) (r_out r))
    (reprice disc_ideal h 221077819000000000 l)
  = Some [(3%N, KConverted, 3317060, 46933020000000000000000); (1%N, KReverted, 10000000000000000000000, 0); (2%N, KOther, 77, 0)].
Proof.
  split.
  - split; [|split]; [unfold rates_ok; simpl; repeat split; discriminate|discriminate|].
    repeat constructor; simpl; discriminate.
  - exact (f_equal (option_map _) whale_block).
Qed.

Example roundtrip_nonvacuous :
  let a := quai_reward 221077819000000000 737869762948382064640 in
  let b := qi_reward 5000000000000 8000000000 in
  (1 <=? a) && (1 <=? b) && (quai_to_qi a b 10000000000000000000 <? 10000000000000000000)
  && (0 <? quai_to_qi a b 10000000000000000000)
  && (qi_to_quai a b (quai_to_qi a b 10000000000000000000) <? 10000000000000000000) = true.
Proof. vm_compute. reflexivity. Qed.

Example denominations_nonvacuous :
  find_min_denominations 123456789 = [(13, 1); (12, 2); (11, 3); (10, 4); (9, 2); (8, 1); (7, 1); (6, 1); (5, 1); (4, 2); (3, 1); (2, 3); (1, 1); (0, 4)]
  /\ denoms_sum (find_min_denominations 123456789) = 123456789.
Proof. vm_compute. split; reflexivity. Qed.

Example refund_nonvacuous :
  refund_qi 123456789 1000000 = (123456000, 15, 865000, true) /\ dust 123456789 = 789
  /\ refund_qi 123456789 27000 = (120000000, 3, 0, false) /\ smallest_refundable = 1000.
Proof. vm_compute. repeat split; reflexivity. Qed.

(* ---- origin side (core/vm frames, evm.ETXCache, the Quai debit): debited exactly once per emitted ETX ---- *)

(* generated inventory of core/vm/evm.go: Call, CallCode, DelegateCall, StaticCall and create each
   take evm.snapshot() once and roll back only through evm.revertToSnapshot(); no method of *EVM
   touches the StateDB revision alone; snapshot()/revertToSnapshot() cover len(ETXCache) *)
Theorem evm_frames_take_the_full_snapshot : evm_sites_ok = true.
Proof. vm_compute. reflexivity. Qed.
Print Assumptions evm_frames_take_the_full_snapshot.

(* for every nesting of frames of every call kind, every mix of failures, value transfers and
   emissions: what left the Quai accounts of the zone is exactly the value + fee of the ETXs left
   in the cache (so a conversion that reaches Prime has been paid for once, and nothing is paid
   for a conversion that does not) *)
Theorem origin_debited_exactly_the_emitted_etxs : forall ptn b tr,
  let s := orun true ptn b tr in
  bal_total b - bal_total (o_bal s) = cache_cost (o_cache s).
Proof. intros ptn b tr s. destruct (orun_inv ptn b tr) as ((H1 & H2) & _). fold s in H1, H2. lia. Qed.
Print Assumptions origin_debited_exactly_the_emitted_etxs.

Theorem origin_emission_at_most_once_in_cache : forall sc ptn b tr,
  NoDup (emit_ids tr) -> NoDup (cache_ids (orun sc ptn b tr)).
Proof.
  intros sc ptn b tr H. unfold orun. apply run_ids. exact H.
Qed.
Print Assumptions origin_emission_at_most_once_in_cache.

(* the statement is false as soon as a failed frame only rolls the account state back: a
   conversion emitted under a reverted DELEGATECALL is then left in the cache unpaid *)
Theorem origin_state_only_snapshot_refuted :
  let s := orun false witness_ptn witness_bals witness_trace in
  bal_total witness_bals - bal_total (o_bal s) < cache_cost (o_cache s)
  /\ map x_id (o_cache s) = [7%N; 8%N].
Proof. exact state_only_snapshot_refuted. Qed.
Print Assumptions origin_state_only_snapshot_refuted.

Example origin_nonvacuous :
  let s := orun true witness_ptn witness_bals witness_trace in
  map x_id (o_cache s) = [8%N] /\ cache_cost (o_cache s) = 2 * min_quai_conversion_amount + 63000
  /\ o_stack s = [] /\ o_skip s = 0%nat.
Proof. vm_compute. repeat split; reflexivity. Qed.

(* ---- Qi->Quai: the locked credit is redeemed exactly once ---- *)

(* generated: ConversionLockPeriod is one of the four depths RedeemLockedQuai scans, exactly once,
   all depths are positive *)
Theorem redeem_depths_ok : depths_ok = true.
Proof. vm_compute. reflexivity. Qed.
Print Assumptions redeem_depths_ok.

Theorem redeem_is_the_reviewed_one :
  redeem_shape_sha256 = RedeemDigest.reviewed_redeem_shape_sha256 /\ redeem_shape_len = 53.
Proof. split; reflexivity. Qed.
Print Assumptions redeem_is_the_reviewed_one.

(* whatever the step pays at height h is a conversion to the Quai ledger included at exactly
   h - ConversionLockPeriod *)
Theorem converted_quai_paid_only_at_lock_expiry : forall c h e,
  In e (eligible lockup_depths c h) ->
  conversion_lock_period < h /\ In e (block_at c (h - conversion_lock_period)) /\ q_conv e = true.
Proof. intros c h e. exact (eligible_timing lockup_depths c h e lockup_depths_period_once). Qed.
Print Assumptions converted_quai_paid_only_at_lock_expiry.

(* over the whole life of a chain (heights 1..H) the step pays the conversions of the blocks
   1..H-ConversionLockPeriod, each block once, in order, and nothing else: no second credit when
   the chain reaches inclusion + 3, 6 or 12 months *)
Theorem converted_quai_paid_exactly_once_over_the_chain : forall c (H : nat),
  concat (map (eligible lockup_depths c) (heights H)) =
  concat (map (convs c) (heights (H - Z.to_nat conversion_lock_period))).
Proof.
  intros c H. exact (scan_pays_each_block_once lockup_depths c H lockup_depths_period_once lock_period_nonneg).
Qed.
Print Assumptions converted_quai_paid_exactly_once_over_the_chain.

(* amounts: one run credits at most the value carried by the conversions expiring there (the
   account creation fee, or the whole credit when it is smaller than the fee, is withheld from a
   new account) ... *)
Theorem converted_quai_credit_le_value : forall fee c ex h, 0 <= fee ->
  (forall e, In e (convs c (h - conversion_lock_period)) -> 0 <= q_value e) ->
  credit_sum (snd (redeem_at lockup_depths fee c ex h)) <=
  (if h <=? conversion_lock_period then 0 else value_sum (convs c (h - conversion_lock_period))).
Proof. intros fee c ex h. exact (redeem_at_le lockup_depths fee c ex h lockup_depths_period_once). Qed.
Print Assumptions converted_quai_credit_le_value.

(* ... and exactly the repriced value, per ETX, for recipients that exist *)
Theorem converted_quai_credit_exact_for_existing_recipient : forall fee c ex h,
  (forall e, In e (convs c (h - conversion_lock_period)) -> n_mem (q_to e) ex = true) ->
  redeem_at lockup_depths fee c ex h =
  (ex, if h <=? conversion_lock_period then []
       else map (fun e => (q_id e, q_to e, q_value e)) (convs c (h - conversion_lock_period))).
Proof. intros fee c ex h. exact (redeem_at_exact lockup_depths fee c ex h lockup_depths_period_once). Qed.
Print Assumptions converted_quai_credit_exact_for_existing_recipient.

(* a guard "at least the lock period" instead of "equal" pays the same ETX at all four depths *)
Theorem redeem_at_least_guard_refuted :
  map (fun d => length (eligible_ge lockup_depths witness_chain (10 + d))) lockup_depths = [1; 1; 1; 1]%nat
  /\ map (fun d => length (eligible lockup_depths witness_chain (10 + d))) lockup_depths = [1; 0; 0; 0]%nat.
Proof. vm_compute. split; reflexivity. Qed.
Print Assumptions redeem_at_least_guard_refuted.

Example redeem_nonvacuous :
  redeem_scan lockup_depths 420000000000000 nonvac_chain [1%N]
    [241929; 241930; 241931; 1555210; 3110410; 6307210]
  = [[]; [(1%N, 1%N, 123000000000000000000)]; [(4%N, 1%N, 7)]; []; []; []].
Proof. vm_compute. reflexivity. Qed.

(* ---- the exchange-rate controller, the prime block with the controller's rate, and the pipeline
   after Prime as one function ----
   [calc_kquai] = misc.CalculateKQuai, [beta_rate] = core.CalculateBetaFromMiningChoiceAndConversions
   (exact integer arithmetic; common.LogBig is an input recorded from the real function),
   compared with the real functions on every run (case kinds CKQuai / CBeta). *)

(* generated: alpha and window size positive, reset rates and table percentages non-negative, the
   fork blocks in the order the branch structure assumes *)
Theorem controller_constants_ok : ctl_params_ok = true.
Proof. exact ctl_params_ok_true. Qed.
Print Assumptions controller_constants_ok.

Theorem controller_is_the_reviewed_one :
  kquai_shape_sha256 = CtlDigest.reviewed_kquai_shape_sha256 /\ kquai_shape_len = 16 /\
  beta_shape_sha256 = CtlDigest.reviewed_beta_shape_sha256 /\ beta_shape_len = 38.
Proof. repeat split; reflexivity. Qed.
Print Assumptions controller_is_the_reviewed_one.

(* one controller step, for ALL rates, difficulties, windows and block numbers: the new rate is
   never negative, loses at most 1/OneOverAlpha of the old one (plus one unit of rounding), rises
   only when xbStar*log(d) > 2^64*d, falls only when it is smaller, and is frozen when balanced *)
Theorem kquai_step_bounded_and_directed : forall k d d2 bn xb r,
  0 <= k -> 0 <= d -> 0 <= d2 -> 0 <= xb ->
  calc_kquai k d d2 bn xb = Some r ->
  1 <= d /\ 0 <= r /\ k * (one_over_alpha - 1) - one_over_alpha < r * one_over_alpha /\
  (0 < xb * d2 - two64 * d -> k <= r) /\ (xb * d2 - two64 * d <= 0 -> r <= k) /\
  (xb * d2 = two64 * d -> r = k).
Proof. exact calc_kquai_spec. Qed.
Print Assumptions kquai_step_bounded_and_directed.

(* "the rate stays positive" is false of the code: 1 falls to 0 and 0 is absorbing *)
Theorem controller_rate_positive_refuted :
  calc_kquai 1 5000000000000 778177102095775710118 2000000 0 = Some 0 /\
  (forall d d2 bn xb, 1 <= d -> 0 <= d2 -> 0 <= xb -> calc_kquai 0 d d2 bn xb = Some 0).
Proof. exact rate_positive_refuted. Qed.
Print Assumptions controller_rate_positive_refuted.

(* whatever branch of the fork schedule is taken, the rate handed to the conversion block is >= 0 *)
Theorem controller_rate_never_negative : forall parent c r,
  0 <= parent -> ctl_ok c -> beta_rate parent c = Some r -> 0 <= r.
Proof. exact beta_rate_nonneg. Qed.
Print Assumptions controller_rate_never_negative.

(* frozen trajectories: pinned to the protocol constants at the two fork resets, equal to the
   parent's rate during the hold intervals behind them, whatever window and difficulty say *)
Theorem controller_frozen_and_pinned_in_fork_regimes : forall parent c,
  controller_kick_in_block + token_choice_set_size <= c_bn c ->
  (c_bn c = kawpow_fork_block -> beta_rate parent c = Some exchange_rate_reset_after_kawpow) /\
  (kawpow_fork_block < c_bn c -> c_bn c < sha_equivalent_fork_block ->
   c_bn c < kawpow_fork_block + exchange_rate_hold_interval -> beta_rate parent c = Some parent) /\
  (c_bn c = sha_equivalent_fork_block -> beta_rate parent c = Some exchange_rate_after_sha_fork) /\
  (sha_equivalent_fork_block < c_bn c ->
   c_bn c < sha_equivalent_fork_block + exchange_rate_hold_interval_after_sha -> beta_rate parent c = Some parent).
Proof.
  intros parent c Hk. assert (Horder : kawpow_fork_block < sha_equivalent_fork_block) by apply ctl_params_facts.
  rewrite (beta_rate_past_window parent c Hk). repeat split.
  - intros E. rewrite fork_override_kawpow, E, regime_reset by lia. reflexivity.
  - intros H1 H2 H3. rewrite fork_override_kawpow, regime_hold by lia. reflexivity.
  - intros E. rewrite fork_override_sha, E, regime_reset by lia. reflexivity.
  - intros H1 H2. rewrite fork_override_sha, regime_hold by lia. reflexivity.
Qed.
Print Assumptions controller_frozen_and_pinned_in_fork_regimes.

(* rising / falling trajectories: outside the fork schedule the step is CalculateKQuai on the
   window average *)
Theorem controller_step_outside_fork_regimes : forall parent c r,
  0 <= parent -> ctl_ok c ->
  controller_kick_in_block + token_choice_set_size <= c_bn c ->
  fork_override (c_bn c) parent = None ->
  beta_rate parent c = Some r ->
  let xb := total_diff (c_runs c) / token_choice_set_size * two64 / c_logbest c in
  0 <= r /\ parent * (one_over_alpha - 1) - one_over_alpha < r * one_over_alpha /\
  (0 < xb * c_logmd c - two64 * c_md c -> parent <= r) /\
  (xb * c_logmd c - two64 * c_md c <= 0 -> r <= parent) /\
  (xb * c_logmd c = two64 * c_md c -> r = parent).
Proof.
  intros parent c r Hp Hc Hk Hf H. cbv zeta. fold (xb_star c).
  rewrite (beta_rate_past_window parent c Hk), Hf in H.
  destruct (c_logbest c =? 0); [discriminate|]. pose proof (xb_star_nonneg c Hc) as Hxb.
  destruct Hc as (Hmd & Hlmd & _). apply (calc_kquai_spec _ _ _ _ _ _ Hp Hmd Hlmd Hxb H).
Qed.
Print Assumptions controller_step_outside_fork_regimes.

(* every exchange-rate trajectory (any length, any mix of fork regimes, windows, difficulties)
   that starts non-negative stays non-negative: the hypotheses 0 <= header rate / 0 <= new rate of
   the conversion theorems hold along the whole chain *)
Theorem rate_trajectory_never_negative : forall cs k0 k,
  0 <= k0 -> Forall ctl_ok cs -> rate_trajectory k0 cs = Some k -> 0 <= k.
Proof. exact rate_trajectory_nonneg. Qed.
Print Assumptions rate_trajectory_never_negative.

(* the prime block as ONE function (rate from the store while the update is paused, else from the
   controller; then the three passes): the rate hypothesis of every reprice theorem is discharged *)
Theorem prime_block_rate_hypothesis_discharged : forall disc h stored c etxs knew r,
  rates_ok h -> ctl_ok c -> (forall k, stored = Some k -> 0 <= k) ->
  Forall (fun e => 0 <= e_value e) etxs ->
  prime_block disc h stored c etxs = Some (knew, r) ->
  inputs_ok h knew etxs /\ reprice disc h knew etxs = Some r.
Proof.
  intros disc h stored c etxs knew r Hr Hc Hs Hv H. unfold prime_block in H.
  destruct (match stored with Some k => Some k | None => beta_rate (h_k h) c end) as [k|] eqn:E; [|discriminate].
  destruct (reprice disc h k etxs) as [r'|] eqn:Er; [|discriminate].
  injection H as -> ->. split; [|assumption]. split; [assumption|]. split; [|assumption].
  destruct stored as [k|].
  - injection E as ->. apply Hs. reflexivity.
  - destruct Hr as (Hk0 & _). exact (controller_rate_never_negative _ _ _ Hk0 Hc E).
Qed.
Print Assumptions prime_block_rate_hypothesis_discharged.

Theorem prime_block_credit_le_rate_amount : forall disc,
  (forall v m, 0 <= v -> 0 <= disc v m <= v) ->
  forall h stored c etxs knew r o,
  rates_ok h -> ctl_ok c -> (forall k, stored = Some k -> 0 <= k) ->
  Forall (fun e => 0 <= e_value e) etxs -> postfork h = true -> 0 <= h_kqd h ->
  prime_block disc h stored c etxs = Some (knew, r) -> In o (r_out r) -> o_kind o = KConverted ->
  0 <= knew /\ o_value o <= rate_amount h knew (o_e o) (e_value (o_e o)).
Proof.
  intros disc Hd h stored c etxs knew r o Hr Hc Hs Hv Hpf Hkqd H Ho Hk.
  destruct (prime_block_rate_hypothesis_discharged disc h stored c etxs knew r Hr Hc Hs Hv H) as (Hin & Hrep).
  split; [apply Hin|]. eapply reprice_credit_le_rate_amount; eassumption.
Qed.
Print Assumptions prime_block_credit_le_rate_amount.

(* END TO END (repricing -> destination -> redemption step), per conversion of a prime block, for
   every mix, order, slip, ETX gas, recipient: [settle] yields exactly one outcome; a credit (Qi
   minted, or Quai paid by the redemption step) is at most the repriced value, which is at most
   the rate-implied amount of the ORIGINAL value; a refused Quai->Qi conversion returns exactly
   the original Quai; a refused Qi->Quai conversion returns at most original - dust (exactly that
   when the ETX gas pays every piece; see revert_returns_original_on_qi_ledger_refuted). *)
Theorem conversion_end_to_end : forall disc,
  (forall v m, 0 <= v -> 0 <= disc v m <= v) ->
  forall h knew etxs r o ptn gas fee ex,
  inputs_ok h knew etxs -> postfork h = true -> 0 <= h_kqd h ->
  reprice disc h knew etxs = Some r -> In o (r_out r) ->
  e_conv (o_e o) = true -> 0 < e_value (o_e o) ->
  qi_amounts_in_range h knew (o_e o) -> 0 <= gas -> 0 <= fee ->
  match settle ptn gas fee ex o with
  | ONone => False
  | OCreditQi a =>
      o_kind o = KConverted /\ e_toqi (o_e o) = true /\
      0 <= a <= o_value o /\ o_value o <= rate_amount h knew (o_e o) (e_value (o_e o))
  | OCreditQuai a =>
      o_kind o = KConverted /\ e_toqi (o_e o) = false /\
      0 <= a <= o_value o /\ (ex = true -> a = o_value o) /\
      o_value o <= rate_amount h knew (o_e o) (e_value (o_e o))
  | ORefundQuai a => o_kind o = KReverted /\ e_toqi (o_e o) = true /\ a = e_value (o_e o)
  | ORefundQi a =>
      o_kind o = KReverted /\ e_toqi (o_e o) = false /\
      0 <= a <= e_value (o_e o) - dust (e_value (o_e o)) /\
      dust (e_value (o_e o)) < smallest_refundable /\
      (denoms_count (filter above_trim (find_min_denominations (e_value (o_e o)))) * call_value_transfer_gas <= gas ->
       denoms_count (filter above_trim (find_min_denominations (e_value (o_e o)))) <= max_output_index ->
       a = e_value (o_e o) - dust (e_value (o_e o)))
  end.
Proof.
  intros disc Hd h knew etxs r o ptn gas fee ex Hin Hpf Hkqd H Ho Hconv Hpos Hrange Hgas Hfee.
  pose proof (reprice_values_never_negative disc h knew etxs r o Hin H Ho) as Hnn.
  unfold settle, qi_amounts_in_range in *.
  destruct (reprice_outcome_exclusive disc h knew etxs r o Hin H Ho)
    as (_ & [(A & _)|[(_ & _ & Kd & Vd)|(_ & _ & Kd & _)]]); [congruence| |]; rewrite Kd.
  - destruct (e_toqi (o_e o)) eqn:Et; [repeat split; assumption|]. rewrite Vd.
    pose proof (refund_qi_loss_bounded (e_value (o_e o)) gas ltac:(lia) Hrange Hgas) as R.
    pose proof (dust_rule_bounded (e_value (o_e o)) ltac:(lia) Hrange) as Dd.
    unfold minted_total. destruct (refund_qi (e_value (o_e o)) gas) as [[[t i] g] ok]. cbn [fst].
    destruct R as (R0 & R1 & _ & _ & _ & _ & R6). repeat split; try lia; exact R6.
  - pose proof (reprice_credit_le_rate_amount disc Hd h knew etxs r o Hin Hpf Hkqd H Ho Kd) as Hle.
    destruct (e_toqi (o_e o)) eqn:Et.
    + pose proof (settle_qi_le ptn gas (o_value o) Hnn). repeat split; lia.
    + destruct (settle_quai_le fee ex (o_value o) Hfee Hnn) as (S1 & S2). repeat split; try lia; exact S2.
Qed.
Print Assumptions conversion_end_to_end.

(* the Qi credit is exactly the repriced value when the ETX gas pays TxGas plus every output *)
Theorem destination_mint_exact_with_gas : forall ptn gas v,
  0 <= v -> v < two64 * top_den -> controller_kick_in_block <= ptn ->
  tx_gas + denoms_count (find_min_denominations v) * call_value_transfer_gas <= gas ->
  denoms_count (find_min_denominations v) <= max_output_index ->
  settle_qi ptn gas v = v.
Proof.
  intros ptn gas v Hv Hg Hp Hgas Hidx. unfold settle_qi.
  destruct (Z.ltb_spec ptn controller_kick_in_block); [lia|].
  destruct (denoms_nonneg _ (find_min_denominations_counts_ok v)) as (_ & Hn).
  assert (HG : 0 < call_value_transfer_gas) by apply params_facts.
  pose proof (Z.mul_nonneg_nonneg _ _ Hn (Z.lt_le_incl _ _ HG)).
  destruct (Z.ltb_spec gas tx_gas); [lia|].
  pose proof (mint_loss_bounded v (gas - tx_gas) Hv Hg ltac:(lia)) as M.
  unfold minted_total. destruct (mint v (gas - tx_gas)) as [[[t i] g] ok]. cbn [fst].
  destruct M as (_ & _ & _ & _ & E & F). apply E, F; lia.
Qed.
Print Assumptions destination_mint_exact_with_gas.

(* the Quai credit of [settle] is what the redemption step of RedeemLockedQuai pays for the ETX *)
Theorem quai_credit_is_the_redemption_step : forall fee exs out e,
  snd (pay_one fee (exs, out) e) =
  out ++ (if negb (n_mem (q_to e) exs) && (q_value e <? fee) then []
          else [(q_id e, q_to e, settle_quai fee (n_mem (q_to e) exs) (q_value e))]).
Proof. exact pay_one_credit. Qed.
Print Assumptions quai_credit_is_the_redemption_step.

(* a rising step, one slowed to a third inside the KQuaiChangeBlock..KawPow window and a falling one
   at real magnitudes; the controller behind its fork schedule: a table reduction, the KawPow
   reset, the hold interval after it *)
Example controller_nonvacuous :
  let d := 5000000000000 in let ld := 778177102095775710118 in let k := 221077819000000000 in
  let bal := two64 * d / ld in
  calc_kquai k d ld 2000000 (2 * bal) = Some 221298896818998026 /\
  calc_kquai k d ld 800000 (2 * bal) = Some 221151511606332675 /\
  calc_kquai k d ld 2000000 (bal / 2) = Some 220967280090499506 /\
  beta_rate k (mkCtl 1011200 [(3 * d, 4000)] 807414499713005568838 d ld) = Some (k * 75 / 100) /\
  beta_rate k (mkCtl 1171500 [(3 * d, 4000)] 807414499713005568838 d ld) = Some exchange_rate_reset_after_kawpow /\
  beta_rate k (mkCtl 1171501 [(3 * d, 4000)] 807414499713005568838 d ld) = Some k.
Proof. vm_compute. repeat split; reflexivity. Qed.

(* the whale of [reprice_nonvacuous] is minted in full with ample gas and loses everything below
   TxGas; the conversion refused behind it gets its Quai back *)
Example pipeline_nonvacuous :
  let h := mkHdr 300000 221077819000000000 737869762948382064640 5000000000000 8000000000 100 10000000000000000000000 true in
  let l := [mkEtx 1%N true true 10000000000000000000000 (Some 30); mkEtx 2%N false true 77 None;
            mkEtx 3%N true true 60000000000000000000000 (Some 9000)] in
  option_map (fun r => map (settle 300000 1000000 0 true) (r_out r)) (reprice disc_ideal h 221077819000000000 l)
  = Some [OCreditQi 3317060; ORefundQuai 10000000000000000000000; ONone]
  /\ settle_qi 300000 20999 3317060 = 0 /\ settle_qi 262000 30000 3317060 = 1000000 /\ settle_qi 261999 1000000 3317060 = 0.
Proof. split; [exact (f_equal (option_map _) whale_block)|]. vm_compute. repeat split; reflexivity. Qed.
