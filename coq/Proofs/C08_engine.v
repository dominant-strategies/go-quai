(* C08 -- lemmas about the result caches of the PoW engines (Model/C08.v, section "the PoW engines' result caches").
   Main fact: a memoised kernel answers every history of queries exactly like the kernel itself, unless two
   queries of the history are filed under one key and have different kernel answers; for the keys the engines use
   such a pair is a collision of the key hash or (the number = height / prime terminus number is not part of the
   key but is hashed into q_hash) two queries with one q_hash and two numbers. *)
From Coq Require Import List ZArith Lia.
From GQ Require Import Model.C08 Proofs.C08.
Import ListNotations.
Local Open Scope Z_scope.

Lemma le_bytes_length : forall n x, length (le_bytes n x) = n.
Proof. induction n as [|n IH]; intros x; cbn [le_bytes length]; auto. Qed.

Lemma le_val_le_bytes : forall n x, le_val (le_bytes n x) = x mod 256 ^ Z.of_nat n.
Proof.
  induction n as [|n IH]; intros x.
  - cbn. rewrite Z.mod_1_r. reflexivity.
  - cbn [le_bytes]. unfold le_val in *. cbn [fold_right]. rewrite IH.
    rewrite Nat2Z.inj_succ, Z.pow_succ_r by lia.
    rewrite Z.rem_mul_r by lia. reflexivity.
Qed.

Lemma le_bytes_inj : forall n x y, 0 <= x < 256 ^ Z.of_nat n -> 0 <= y < 256 ^ Z.of_nat n ->
  le_bytes n x = le_bytes n y -> x = y.
Proof.
  intros n x y Hx Hy E. apply (f_equal le_val) in E. rewrite !le_val_le_bytes in E.
  rewrite !Z.mod_small in E by assumption. exact E.
Qed.

Definition wf_query (q : pquery) : Prop :=
  length (q_hash q) = 32%nat /\ length (q_mix q) = 32%nat /\ 0 <= q_nonce q < 2 ^ 64.

Lemma key_material_inj : forall k q q', wf_query q -> wf_query q' ->
  key_material k q = key_material k q' -> q_hash q = q_hash q' /\ q_nonce q = q_nonce q'.
Proof.
  intros k q q' (Lh & Lm & Rn) (Lh' & Lm' & Rn') E. destruct k; cbn [key_material] in E.
  - apply app_inv_length_r in E; [|rewrite !le_bytes_length; reflexivity].
    destruct E as [E1 E2]. split; auto. apply (le_bytes_inj 8); assumption.
  - apply app_inv_length_r in E; [|rewrite !app_length, !rev_length, !le_bytes_length; lia].
    destruct E as [_ E]. apply app_inv_length_r in E; [|rewrite !rev_length, !le_bytes_length; reflexivity].
    destruct E as [E1 E2]. split; auto.
    apply (f_equal (@rev Z)) in E2. rewrite !rev_involutive in E2. apply (le_bytes_inj 8); assumption.
Qed.

Lemma ec_find_evict : forall ks key c,
  ec_find key (ec_evict ks c) = if existsb (bytes_eqb key) ks then None else ec_find key c.
Proof.
  intros ks key c. unfold ec_evict. induction c as [|[k' r'] c IH]; cbn [filter ec_find fst].
  - destruct (existsb (bytes_eqb key) ks); reflexivity.
  - destruct (bytes_eqb k' key) eqn:B.
    + apply bytes_eqb_eq in B. subst k'. destruct (existsb (bytes_eqb key) ks); cbn [negb ec_find].
      * exact IH.
      * rewrite (proj2 (bytes_eqb_eq key key) eq_refl). reflexivity.
    + destruct (existsb (bytes_eqb k') ks); cbn [negb ec_find]; [|rewrite B]; exact IH.
Qed.

Lemma result_eq_dec : forall r r' : bytes * bytes, {r = r'} + {r <> r'}.
Proof. decide equality; apply (list_eq_dec Z.eq_dec). Qed.

Section Memo.
  Variable KH : bytes -> bytes.
  Variable K : bytes -> Z -> Z -> bytes * bytes.
  Variable keyf : pquery -> bytes.

  Definition key_clash (all : list pquery) : Prop :=
    exists q q', In q all /\ In q' all /\ KH (keyf q) = KH (keyf q') /\ kernel_of K q <> kernel_of K q'.

  Definition cache_inv (all : list pquery) (c : ecache) : Prop :=
    forall key r, ec_find key c = Some r -> exists q, In q all /\ KH (keyf q) = key /\ r = kernel_of K q.

  Lemma cache_inv_nil : forall all, cache_inv all [].
  Proof. intros all key r F. cbn in F. discriminate. Qed.

  Lemma cache_inv_evict : forall all ks c, cache_inv all c -> cache_inv all (ec_evict ks c).
  Proof.
    intros all ks c I key r F. rewrite ec_find_evict in F.
    destruct (existsb (bytes_eqb key) ks); [discriminate | apply I; exact F].
  Qed.

  Lemma pow_hash_step : forall all c q, In q all -> cache_inv all c ->
    (fst (pow_hash KH K keyf c q) = pow_hash_pure K q /\ cache_inv all (snd (pow_hash KH K keyf c q)))
    \/ key_clash all.
  Proof.
    intros all c q Hq I. unfold pow_hash, pow_light, pow_hash_pure.
    destruct (ec_find (KH (keyf q)) c) as [r|] eqn:F; cbn [fst snd].
    - destruct (I _ _ F) as (q' & Hq' & Ek & ->).
      destruct (result_eq_dec (kernel_of K q') (kernel_of K q)) as [E|N].
      + left. rewrite E. auto.
      + right. exists q', q. auto.
    - left. split; auto. intros key r F'. cbn [ec_find] in F'.
      destruct (bytes_eqb (KH (keyf q)) key) eqn:B.
      + apply bytes_eqb_eq in B. inversion F'; subst. exists q. auto.
      + apply I. exact F'.
  Qed.

  Lemma engine_run_ev_pure : forall all evqs c, (forall q, In q (map snd evqs) -> In q all) -> cache_inv all c ->
    engine_run_ev KH K keyf c evqs = map (pow_hash_pure K) (map snd evqs) \/ key_clash all.
  Proof.
    intros all evqs. induction evqs as [|[ev q] t IH]; intros c Hin I; cbn [engine_run_ev map snd]; [auto|].
    destruct (pow_hash_step all (ec_evict ev c) q (Hin q (or_introl eq_refl)) (cache_inv_evict all ev c I))
      as [[E1 E2]|C]; [|auto].
    destruct (pow_hash KH K keyf (ec_evict ev c) q) as [o c']. cbn [fst snd] in E1, E2.
    destruct (IH c' (fun q' Hq' => Hin q' (or_intror Hq')) E2) as [E|C]; [left | auto].
    rewrite E1, E. reflexivity.
  Qed.
End Memo.

Lemma key_material_clash : forall (KH : bytes -> bytes) (K : bytes -> Z -> Z -> bytes * bytes) k all,
  (forall q, In q all -> wf_query q) -> key_clash KH K (key_material k) all ->
  collision KH
  \/ (exists q q', In q all /\ In q' all /\ q_hash q = q_hash q' /\ q_num q <> q_num q').
Proof.
  intros KH K k all WF (q & q' & Hq & Hq' & Ek & N).
  destruct (hash_inj_or_collision KH _ _ Ek) as [B|C]; [right | left; exact C].
  destruct (key_material_inj k q q' (WF q Hq) (WF q' Hq') B) as [Eh En].
  exists q, q'. repeat split; auto. intros Enum. apply N. unfold kernel_of. rewrite Eh, En, Enum. reflexivity.
Qed.

Lemma mix_check_some : forall q r p, mix_check q r = Some p -> q_mix q = fst r /\ p = snd r.
Proof.
  intros q r p E. unfold mix_check in E. destruct (bytes_eqb (q_mix q) (fst r)) eqn:B; [|discriminate].
  apply bytes_eqb_eq in B. inversion E. auto.
Qed.

(* non-vacuity: a history on the kawpow key with a hit, a miss and a refused mix *)
Definition ex_kernel : bytes -> Z -> Z -> bytes * bytes := fun _ n _ => (repeat n 32, repeat (n + 100) 32).
Definition ex_history : list (list bytes * pquery) :=
  [([], mkPq (repeat 7 32) 1 5 (repeat 1 32));
   ([], mkPq (repeat 7 32) 2 5 (repeat 1 32));
   ([repeat 7 32 ++ le_bytes 8 1], mkPq (repeat 7 32) 1 5 (repeat 1 32));
   ([], mkPq (repeat 7 32) 2 5 (repeat 2 32))].
