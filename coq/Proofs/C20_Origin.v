(* C20, origin side: the Quai that leaves the accounts of the origin zone is exactly the
   value + fee of the ETXs left in evm.ETXCache, whatever the nesting of frames, call kinds,
   failures and value transfers -- because a frame snapshot holds the account state AND the
   length of the cache.  Model: C20.ostep / C20.orun.  Both invariants are proved from
   [ostep_stepped]: what a step can do to accounts, debit, cache and snapshots. *)
From Coq Require Import List ZArith Bool Lia.
From Coq Require String.
From GQ Require Import Generated.C20Params Model.C20 Lib.Lists Proofs.C20.
Import ListNotations.
Local Open Scope Z_scope.

Lemma cache_cost_app : forall a b, cache_cost (a ++ b) = cache_cost a + cache_cost b.
Proof. exact (fold_sum_app _ (fun e => x_value e + x_fee e)). Qed.

Lemma bal_total_add : forall b a d, bal_total (bal_add b a d) = bal_total b + d.
Proof.
  induction b as [|[a' x] b IH]; intros a d.
  - cbn. lia.
  - cbn [bal_add]. destruct (N.eqb a a').
    + unfold bal_total. cbn [fold_right snd]. lia.
    + unfold bal_total in *. cbn [fold_right snd]. rewrite IH. lia.
Qed.

(* what is left out of the books -- failure flags, read-only flag, skip depth -- decides which step
   is taken, not what it does to them *)
Definition snapshot : Type := bals * Z * nat.
Definition books : Type := bals * Z * list erec * list snapshot.
Definition snap (f : oframe) : snapshot := (f_bal f, f_deb f, f_len f).
Definition books_of (s : ostate) : books := (o_bal s, o_deb s, o_cache s, map snap (o_stack s)).

Inductive stepped (sc : bool) (s : ostate) : event -> books -> Prop :=
| st_quiet : forall e, stepped sc s e (books_of s)
| st_enter : forall k from to v b, bal_total b = bal_total (o_bal s) ->
    stepped sc s (EEnter k from to v)
            (b, o_deb s, o_cache s, (o_bal s, o_deb s, length (o_cache s)) :: map snap (o_stack s))
| st_emit : forall id sender conv direct v fee gas,
    stepped sc s (EEmit id sender conv direct v fee gas)
            (bal_add (o_bal s) sender (- (v + fee)), o_deb s + (v + fee),
             o_cache s ++ [mkErec id sender v fee], map snap (o_stack s))
| st_commit : forall ok f r, o_stack s = f :: r ->
    stepped sc s (ELeave ok) (o_bal s, o_deb s, o_cache s, map snap r)
| st_revert : forall ok f r, o_stack s = f :: r ->
    stepped sc s (ELeave ok)
            (f_bal f, f_deb f, (if sc then firstn (f_len f) (o_cache s) else o_cache s), map snap r).

Lemma stepped_same : forall sc s e s', books_of s' = books_of s -> stepped sc s e (books_of s').
Proof. intros sc s e s' ->. constructor. Qed.

Lemma books_fail_top : forall s, books_of (fail_top s) = books_of s.
Proof. intros s. unfold fail_top. destruct (o_stack s) eqn:E; unfold books_of; cbn; rewrite ?E; reflexivity. Qed.

Lemma ostep_stepped : forall sc ptn s e, stepped sc s e (books_of (ostep sc ptn s e)).
Proof.
  intros sc ptn s e. destruct e as [k from to v | id sender conv direct v fee gas | ok]; cbn [ostep].
  - destruct (negb (Nat.eqb (o_skip s) 0) || top_failed s); [apply stepped_same; reflexivity|].
    destruct (o_static s && _); [apply stepped_same, books_fail_top|].
    destruct (_ && (bal_get (o_bal s) from <? v)); [apply stepped_same; reflexivity|].
    unfold books_of. cbn [o_bal o_deb o_cache o_stack map snap f_bal f_deb f_len]. apply st_enter.
    destruct (_ && (0 <? v)); [rewrite !bal_total_add; lia|reflexivity].
  - destruct (negb (Nat.eqb (o_skip s) 0) || top_failed s); [constructor|].
    destruct (o_static s); [apply stepped_same, books_fail_top|].
    destruct (conv && _); [constructor|].
    destruct (if direct then _ else _); [constructor|].
    destruct (_ || (bal_get (o_bal s) sender <? v + fee)); [constructor|].
    exact (st_emit sc s id sender conv direct v fee gas).
  - destruct (o_skip s); [|apply stepped_same; reflexivity].
    destruct (o_stack s) as [|f r] eqn:E; [constructor|].
    destruct (ok && negb (f_failed f)); [exact (st_commit sc s ok f r E)|exact (st_revert sc s ok f r E)].
Qed.

Definition balanced (T : Z) (b : bals) (d : Z) (c : list erec) : Prop :=
  cache_cost c = d /\ bal_total b + d = T.

(* the books a failing frame goes back to satisfy [inv] again *)
Fixpoint stack_ok (T : Z) (c : list erec) (st : list snapshot) : Prop :=
  match st with
  | [] => True
  | (b, d, n) :: r => (n <= length c)%nat /\ balanced T b d (firstn n c) /\ stack_ok T (firstn n c) r
  end.

Definition inv (T : Z) (w : books) : Prop :=
  let '(b, d, c, st) := w in balanced T b d c /\ stack_ok T c st.

Lemma stack_ok_app : forall T st c x, stack_ok T c st -> stack_ok T (c ++ x) st.
Proof.
  intros T [|[[b d] n] r] c x H; cbn [stack_ok] in *; [exact I|].
  destruct H as (Hl & H). rewrite firstn_app_le, app_length by exact Hl. split; [lia|exact H].
Qed.

Lemma inv_step : forall T ptn s e, inv T (books_of s) -> inv T (books_of (ostep true ptn s e)).
Proof.
  intros T ptn s e Hinv.
  destruct (ostep_stepped true ptn s e) as [e|k from to v b Hb|id sender conv direct v fee gas|ok f r E|ok f r E];
    [exact Hinv| | | |]; unfold inv, books_of, balanced in *; destruct Hinv as ((H1 & H2) & H3).
  - (* a frame opens: its snapshot is the present books *)
    cbn [stack_ok]. rewrite firstn_all. unfold balanced. repeat split; try assumption; lia.
  - rewrite cache_cost_app, bal_total_add. cbn [cache_cost fold_right x_value x_fee].
    repeat split; try lia. apply stack_ok_app. exact H3.
  - rewrite E in H3. destruct H3 as (_ & _ & Hr). repeat split; try assumption.
    rewrite <- (firstn_skipn (f_len f) (o_cache s)). apply stack_ok_app. exact Hr.
  - (* a frame fails: the books go back to its snapshot *)
    rewrite E in H3. exact (proj2 H3).
Qed.

Lemma orun_inv : forall ptn b tr, inv (bal_total b) (books_of (orun true ptn b tr)).
Proof.
  intros ptn b tr. unfold orun. apply (fold_left_inv (fun s => inv (bal_total b) (books_of s))).
  - intros s e _. apply inv_step.
  - unfold inv, books_of, ostart, balanced. cbn [o_bal o_deb o_cache o_stack map stack_ok].
    split; [split; [reflexivity|lia]|exact I].
Qed.

Lemma origin_ghost_is_cache_cost : forall ptn b tr,
  o_deb (orun true ptn b tr) = cache_cost (o_cache (orun true ptn b tr)).
Proof. intros ptn b tr. symmetry. apply (orun_inv ptn b tr). Qed.

Definition emit_id (e : event) : list N :=
  match e with EEmit id _ _ _ _ _ _ => [id] | _ => [] end.
Definition emit_ids (tr : list event) : list N := flat_map emit_id tr.
Definition cache_ids (s : ostate) : list N := map x_id (o_cache s).

(* the invariant: no id stands twice in the cache followed by the ids still to be emitted *)
Lemma step_ids : forall sc ptn s e rest,
  NoDup (cache_ids s ++ emit_id e ++ rest) -> NoDup (cache_ids (ostep sc ptn s e) ++ rest).
Proof.
  intros sc ptn s e rest H. unfold cache_ids in *.
  assert (Hsame : NoDup (map x_id (o_cache s) ++ rest)) by exact (NoDup_app_drop _ _ _ H).
  change (o_cache (ostep sc ptn s e)) with (snd (fst (books_of (ostep sc ptn s e)))).
  destruct (ostep_stepped sc ptn s e) as [e|k from to v b _|id sender conv direct v fee gas|ok f r _|ok f r _];
    cbn [fst snd books_of]; try exact Hsame.
  - cbn [emit_id app] in H. rewrite map_app, <- app_assoc. exact H.
  - destruct sc; [|exact Hsame].
    rewrite <- firstn_map. rewrite <- (firstn_skipn (f_len f) (map x_id (o_cache s))), <- app_assoc in Hsame.
    exact (NoDup_app_drop _ _ _ Hsame).
Qed.

Lemma run_ids : forall sc ptn tr s,
  NoDup (cache_ids s ++ emit_ids tr) -> NoDup (cache_ids (fold_left (ostep sc ptn) tr s)).
Proof.
  induction tr as [|e tr IH]; intros s H; cbn [fold_left].
  - rewrite app_nil_r in H. exact H.
  - apply IH, step_ids. exact H.
Qed.

(* why the cache length must be in the snapshot: a frame entered by DELEGATECALL converts and
   reverts, its caller ends normally *)
Definition witness_trace : list event :=
  [EEnter KCall 0%N 1%N 0;
   EEnter KDelegate 1%N 1%N 0;
   EEmit 7%N 1%N true false (5 * min_quai_conversion_amount) 63000 21000;
   ELeave false;
   EEmit 8%N 1%N true false (2 * min_quai_conversion_amount) 63000 21000;
   ELeave true].
Definition witness_bals : bals := [(0%N, 0); (1%N, 100 * min_quai_conversion_amount)].
Definition witness_ptn : Z := 2100000.

Lemma state_only_snapshot_refuted :
  let s := orun false witness_ptn witness_bals witness_trace in
  bal_total witness_bals - bal_total (o_bal s) < cache_cost (o_cache s)
  /\ map x_id (o_cache s) = [7%N; 8%N].
Proof. vm_compute. split; reflexivity. Qed.

(* generated inventory of core/vm/evm.go: every method of *EVM that runs a frame takes the full
   snapshot once, rolls back only through revertToSnapshot, and never touches the StateDB revision
   alone; snapshot()/revertToSnapshot() cover the cache *)
Definition site_ok (s : String.string * bool * Z * Z * Z * Z) : bool :=
  let '(_, runs, fs, fr, rs, rr) := s in
  (rs =? 0) && (rr =? 0) && (if runs then (fs =? 1) && (1 <=? fr) else true).
Definition sites_cover (names : list String.string) : bool :=
  forallb (fun n => existsb (fun s => let '(m, runs, _, _, _, _) := s in String.eqb n m && runs) evm_frame_sites) names.

Module OriginSites.
  Import String.
  Definition frame_methods : list string :=
    ["Call"%string; "CallCode"%string; "DelegateCall"%string; "StaticCall"%string; "create"%string].
End OriginSites.
Definition evm_sites_ok : bool :=
  forallb site_ok evm_frame_sites && sites_cover OriginSites.frame_methods && evm_snapshot_covers_etx_cache.
