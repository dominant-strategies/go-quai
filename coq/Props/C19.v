(* C19 -- The transaction pool stays internally consistent under any interleaving.
   Property theorems, each followed by [Print Assumptions]; the non-vacuity examples at the
   end.  Model: Model/C19.v (sequential specification of TxPool at the granularity of
   quiescent points).  Lemmas: Proofs/C19*.v.

   Histories are lists of steps (operation, heartbeat order used by truncateQueue); the
   theorems hold for every heartbeat order, i.e. for every wall-clock schedule of the
   evictions. Interleavings of concurrent calls are serialised by pool.mu in the code;
   that the real pool behaves as SOME sequential history is observed by the harness,
   not proved (see design/C19.md). *)
From Coq Require Import List NArith Lia.
From GQ Require Import Model.C19 Proofs.C19_Lists Proofs.C19_Moves Proofs.C19_Struct Proofs.C19_State Proofs.C19_Ops
  Proofs.C19_Heap Proofs.C19_Contig Proofs.C19_QLimit Proofs.C19_Cache Proofs.C19_QPay Proofs.C19 Proofs.C19_Evict.
Import ListNotations.
Local Open Scope N_scope.

(* Every reachable state (any history of add batches, price changes, head events incl.
   reorganisations with re-injection, timer runs; any configuration; any genesis state)
   satisfies: per-account lists nonce-sorted and owned by the account; every pending
   transaction has a nonce >= the account's state nonce and a non-empty pending list
   holds the state nonce; every pending transaction is payable from the balance and
   fits the block gas limit; no nonce is both pending and queued; the hash index has no
   duplicates and holds exactly the transactions of the lists; every remote transaction
   of the index is in the price heaps; pendingNonces = last pending nonce + 1 (the state
   nonce when nothing is pending). *)
Theorem pool_invariant_reachable : forall c price_limit st h,
  pool_invariant (run_hist c (init price_limit st) h).
Proof.
  intros c pl st h. apply (InvAll_invariant _ _ (reachable_InvAll c pl st h)).
Qed.
Print Assumptions pool_invariant_reachable.

(* Inductive form: one step from ANY state satisfying the invariants (not only reachable ones). *)
Theorem pool_invariant_preserved : forall c p o qo,
  IWT p -> heap_ok p ->
  IWT (fst (step c p o qo)) /\ heap_ok (fst (step c p o qo)) /\ pool_invariant (fst (step c p o qo)).
Proof.
  intros c p o qo H K. pose proof (step_IWT c p o qo H) as H'. pose proof (hk_step c p o qo K) as K'.
  split; [exact H'|]. split; [exact K'|apply invariant_of; assumption].
Qed.
Print Assumptions pool_invariant_preserved.

(* Pending is nonce-contiguous from the state nonce, and pendingNonces = state nonce +
   number of pending transactions -- PARTIAL: along histories whose head events never
   lower an account's state nonce.  The full statement (all histories) is false, see
   pending_contiguous_refuted. *)
Theorem pending_contiguous_partial : forall c price_limit st h,
  monotone st h ->
  forall a, let p := run_hist c (init price_limit st) h in
  contig (st_nonce p a) (aget a (p_pend p)) /\ pn_get p a = st_nonce p a + len (aget a (p_pend p)).
Proof.
  intros c pl st h Hm a. cbv zeta.
  assert (HK : Kc (run_hist c (init pl st) h)) by (apply run_hist_Kc; [apply init_IWT|intros b; exact I|exact Hm]).
  split; [apply HK|]. apply Kc_T4_pn; [exact HK|]. apply (ia_iwt _ _ (reachable_InvAll c pl st h)).
Qed.
Print Assumptions pending_contiguous_partial.

(* A reorganisation that lowers the state nonce while one of the re-injected transactions
   is refused (here: below the pool's price limit) leaves pending = nonces [0; 2]. *)
Theorem pending_contiguous_refuted : exists c price_limit st h a,
  ~ contig (st_nonce (run_hist c (init price_limit st) h) a) (aget a (p_pend (run_hist c (init price_limit st) h))).
Proof.
  exists w_cfg, 5, w_st0, w_gap_history, 0. vm_compute. intros [_ [E _]]. discriminate.
Qed.
Print Assumptions pending_contiguous_refuted.

(* "affordable from its balance" is guaranteed per transaction ... *)
Theorem pending_affordable : forall c price_limit st h a t,
  let p := run_hist c (init price_limit st) h in
  In t (aget a (p_pend p)) -> cost t <= st_bal p a /\ t_gas t <= s_maxgas (p_st p).
Proof.
  intros c pl st h a t. apply (pi_affordable _ (pool_invariant_reachable c pl st h)).
Qed.
Print Assumptions pending_affordable.

(* ... not for the sum of an account's pending transactions (as in go-ethereum). *)
Theorem cumulative_affordability_refuted : exists c price_limit st h a,
  let p := run_hist c (init price_limit st) h in
  st_bal p a < fold_right (fun t s => cost t + s) 0 (aget a (p_pend p)).
Proof.
  exists w_cfg, 1, w_st_poor, w_two, 0. vm_compute. reflexivity.
Qed.
Print Assumptions cumulative_affordability_refuted.

Theorem pending_queue_disjoint : forall c price_limit st h a x y,
  let p := run_hist c (init price_limit st) h in
  In x (aget a (p_pend p)) -> In y (aget a (p_queue p)) -> t_nonce x <> t_nonce y.
Proof.
  intros c pl st h a x y. apply (pi_disjoint _ (pool_invariant_reachable c pl st h)).
Qed.
Print Assumptions pending_queue_disjoint.

Theorem hash_index_is_union_of_lists : forall c price_limit st h,
  let p := run_hist c (init price_limit st) h in
  NoDup (map fst (p_all p)) /\
  forall t, In t (map fst (p_all p)) <-> In t (aget (t_from t) (p_pend p)) \/ In t (aget (t_from t) (p_queue p)).
Proof.
  intros c pl st h. pose proof (pool_invariant_reachable c pl st h) as I.
  split; [apply (pi_all_nodup _ I)|apply (pi_all _ I)].
Qed.
Print Assumptions hash_index_is_union_of_lists.

Theorem price_index_covers_remotes : forall c price_limit st h t,
  let p := run_hist c (init price_limit st) h in In (t, false) (p_all p) -> In t (p_heap p).
Proof.
  intros c pl st h t. apply (pi_priced _ (pool_invariant_reachable c pl st h)).
Qed.
Print Assumptions price_index_covers_remotes.

Theorem pending_nonce_is_next : forall c price_limit st h a,
  let p := run_hist c (init price_limit st) h in pn_get p a = last_next (st_nonce p a) (aget a (p_pend p)).
Proof.
  intros c pl st h a. apply (pi_pnonce _ (pool_invariant_reachable c pl st h)).
Qed.
Print Assumptions pending_nonce_is_next.

(* An accepted same-nonce replacement carries the configured price bump (and a strictly
   higher price); the replaced transaction is gone from the hash index and both lists,
   the new one is indexed and listed. *)
Theorem replacement_requires_bump : forall c t loc p p',
  Inv0 p -> add c t loc p = (p', VOk, true) ->
  exists o, (In o (aget (t_from t) (p_pend p)) \/ In o (aget (t_from t) (p_queue p))) /\
    t_from o = t_from t /\ t_nonce o = t_nonce t /\ o <> t /\
    t_price o < t_price t /\ (100 + c_bump c) * t_price o / 100 <= t_price t /\
    ~ In o (map fst (p_all p')) /\ ~ In o (aget (t_from t) (p_pend p')) /\ ~ In o (aget (t_from t) (p_queue p')) /\
    In t (map fst (p_all p')) /\ (In t (aget (t_from t) (p_pend p')) \/ In t (aget (t_from t) (p_queue p'))).
Proof.
  intros c t loc p p' H0 E. pose proof (add_inv0 c t loc p H0) as H1. pose proof (add_cases c t loc p) as C.
  rewrite E in C, H1. cbn [fst] in H1. inversion C as [| |inq mark l Eh A _ Hpr _ q]; subst. clear C.
  destruct (l_get (t_nonce t) l) as [o|] eqn:Eo; [|discriminate]. destruct (Hpr o eq_refl) as [P1 P2].
  pose proof (l_get_in _ _ _ Eo) as [Ho En]. apply all_has_false in Eh.
  assert (Ho' : In o (aget (t_from t) (p_pend p)) \/ In o (aget (t_from t) (p_queue p))) by (destruct inq; auto).
  destruct (proj1 (listed_iff p _ o H0) Ho') as [Hfo Hio].
  assert (Hne : o <> t) by congruence.
  assert (Hall : forall x, in_all x (if mark then mark_local (t_from t) q else q) <-> x = t \/ (in_all x p /\ x <> o)).
  { intros x. transitivity (in_all x q).
    - destruct mark; [apply in_all_same, same_mark_local|reflexivity].
    - apply placed_index, Eo. }
  set (p' := if mark then _ else _) in *.
  assert (Hno : ~ in_all o p') by (rewrite Hall; intros [X|[_ X]]; congruence).
  assert (Hto : in_all t p') by (apply Hall; auto).
  exists o. repeat split; auto.
  - intros Hp. apply Hno, (listed_iff p' (t_from t) o H1). auto.
  - intros Hq. apply Hno, (listed_iff p' (t_from t) o H1). auto.
  - apply (listed_iff p' (t_from t) t H1). auto.
Qed.
Print Assumptions replacement_requires_bump.

(* Conversely a same-nonce transaction without the bump is refused and the pool is unchanged
   (VOverflow = the pool-full branch, outside the modelled domain). *)
Theorem underpriced_replacement_rejected : forall c t loc p o,
  Inv0 p -> In o (aget (t_from t) (p_pend p)) \/ In o (aget (t_from t) (p_queue p)) -> t_nonce o = t_nonce t ->
  t_price t <= t_price o \/ t_price t < (100 + c_bump c) * t_price o / 100 ->
  let '(p', v, r) := add c t loc p in (p' = p /\ v <> VOk /\ r = false) \/ v = VOverflow.
Proof.
  intros c t loc p o H0 Ho En Hp.
  destruct (add_cases c t loc p) as [v Hv| |inq mark l _ _ Hs Hpr _ q]; [left; auto|right; reflexivity|exfalso].
  (* the list that holds o is the one t would be placed in, and it refuses t *)
  assert (Hl : In o l).
  { subst l. destruct inq, Ho as [Ho|Ho]; cbn [side]; auto.
    - rewrite l_get_none in Hs. destruct (Hs o Ho En).
    - destruct Hs. rewrite <- En. exact (queued_not_pending p _ o H0 Ho). }
  assert (Sl : sorted l) by (subst l; destruct inq; [apply (ir_queue _ _ _ H0)|apply (ir_pend _ _ _ H0)]).
  destruct (Hpr o (l_get_some _ _ o Sl Hl En)). unfold bump_threshold in *. lia.
Qed.
Print Assumptions underpriced_replacement_rejected.

(* Size limits inside the modelled domain: the hash index never exceeds
   GlobalSlots+GlobalQueue; promoteExecutables caps the queue of the processed account.
   (GlobalSlots after truncatePending: monitors only, see design/C19.md.) *)
Theorem index_size_limit : forall c price_limit st h,
  len (map fst (p_all (run_hist c (init price_limit st) h))) <= c_gslots c + c_gqueue c.
Proof.
  intros c pl st h. apply (ia_le _ _ (reachable_InvAll c pl st h)).
Qed.
Print Assumptions index_size_limit.

Theorem account_queue_capped_by_promotion : forall c a p,
  len (aget a (p_queue (promote_one c a p))) <= N.max (c_aqueue c) 0 \/ aget a (p_queue p) = [].
Proof.
  intros c a p. left. destruct (promote_one_queue c a p) as [q3 [E _]]. rewrite E, N.eqb_refl.
  pose proof (l_cap_len (c_aqueue c) q3). lia.
Qed.
Print Assumptions account_queue_capped_by_promotion.

(* truncateQueue re-establishes GlobalQueue on any reachable state, for EVERY eviction order
   that lists the accounts having queued transactions (the Go code builds the order from
   pool.queue itself and sorts it by heartbeat: the wall clock cannot break the bound). *)
Theorem queue_limit_after_truncation : forall c price_limit st h order,
  let p := run_hist c (init price_limit st) h in
  (forall b, aget b (p_queue p) <> [] -> In b order) ->
  atotal (p_queue (truncate_queue c order p)) <= c_gqueue c.
Proof.
  intros c pl st h order p Hcov. apply truncate_queue_bound; [apply (ia_iwt _ _ (reachable_InvAll c pl st h))| |exact Hcov].
  apply (run_hist_pres _ c h (wfq_step c)). constructor.
Qed.
Print Assumptions queue_limit_after_truncation.

(* The pool's chain state is the state of the last head event. *)
Theorem chain_state_follows_head : forall c p o qo,
  p_st (fst (step c p o qo)) = match o with OHead r => r_st r | _ => p_st p end.
Proof.
  exact step_st.
Qed.
Print Assumptions chain_state_follows_head.

(* ---- the cached thresholds of txList (costcap / gascap) ----
   The pool model uses the plain nonce-sorted list; the real txList short-circuits Filter on
   two cached upper bounds.  cap_ok l: every transaction of the list costs <= costcap and uses
   <= gascap gas. *)

(* Under the cache invariant the short-circuiting Filter returns exactly what the plain
   Filter returns and leaves exactly the same list, and the invariant holds afterwards. *)
Theorem list_cache_filter_exact : forall strict bal maxgas l removed invalids l',
  cap_ok l -> cl_filter strict bal maxgas l = (removed, invalids, l') ->
  l_filter strict bal maxgas (cl_txs l) = (removed, invalids, cl_txs l') /\ cap_ok l'.
Proof.
  exact cl_filter_exact.
Qed.
Print Assumptions list_cache_filter_exact.

(* Every operation of txList the pool uses (Add incl. same-nonce replacement, Filter, Forward,
   Remove, Cap, Ready; strict or not; any price bump) preserves the cache invariant, returns
   what the plain list returns and leaves the plain list's content. *)
Theorem list_cache_invariant_preserved : forall strict bump l o l' res,
  cap_ok l -> cl_step strict bump l o = (l', res) ->
  l_step strict bump (cl_txs l) o = (cl_txs l', res) /\ cap_ok l'.
Proof.
  exact cl_step_refines.
Qed.
Print Assumptions list_cache_invariant_preserved.

(* Hence the cache is transparent on every list that evolves from newTxList: invariant, same
   content as the plain list after any operation sequence, same result of the next operation. *)
Theorem cached_list_transparent : forall strict bump ops o,
  let l := cl_run strict bump ops in
  cap_ok l /\ cl_txs l = l_run_ops strict bump ops /\
  snd (cl_step strict bump l o) = snd (l_step strict bump (cl_txs l) o) /\
  cl_txs (fst (cl_step strict bump l o)) = fst (l_step strict bump (cl_txs l) o) /\
  cap_ok (fst (cl_step strict bump l o)).
Proof.
  intros strict b ops o. cbv zeta. destruct (cl_run_refines strict b ops) as [H E]. split; [exact H|]. split; [exact E|].
  destruct (cl_step strict b (cl_run strict b ops) o) as [l1 res] eqn:ES.
  destruct (cl_step_refines _ _ _ _ _ _ H ES) as [EL H1]. rewrite EL. cbn [fst snd]. split; [reflexivity|]. split; [reflexivity | exact H1].
Qed.
Print Assumptions cached_list_transparent.

(* What demoteUnexecutables / promoteExecutables rely on: after Filter(balance, gas limit) of
   any such list every remaining transaction is payable and within the gas limit. *)
Theorem filtered_list_payable : forall strict bump ops bal maxgas removed invalids l',
  cl_filter strict bal maxgas (cl_run strict bump ops) = (removed, invalids, l') ->
  forall t, In t (cl_txs l') -> cost t <= bal /\ t_gas t <= maxgas.
Proof.
  intros strict b ops bal mg r i l' E. apply (cl_filter_sound _ _ _ _ _ _ _ (proj1 (cl_run_refines strict b ops)) E).
Qed.
Print Assumptions filtered_list_payable.

(* The invariant is necessary: on a list whose cost threshold was not raised by a more
   expensive replacement, Filter keeps a transaction the balance cannot pay. *)
Theorem stale_cache_filter_unsound :
  cap_okb stale_cap_witness = false /\
  exists strict bal maxgas removed invalids l' t,
    cl_filter strict bal maxgas stale_cap_witness = (removed, invalids, l') /\ In t (cl_txs l') /\ bal < cost t.
Proof.
  split; [vm_compute; reflexivity|].
  exists true, 5790000, 5000000, [], [], stale_cap_witness, (T 0 1 20 21000 6000000).
  split; [vm_compute; reflexivity|]. split; [left; reflexivity | vm_compute; reflexivity].
Qed.
Print Assumptions stale_cache_filter_unsound.

(* Every transaction the pool holds -- queued as well as pending -- is payable from its
   sender's balance and within the block gas limit, in every reachable state (validateTx on
   entry; on a head event promoteExecutables filters every queue and demoteUnexecutables
   re-queues only what passed its filter). *)
Theorem pooled_transactions_payable : forall c price_limit st h a t,
  let p := run_hist c (init price_limit st) h in
  In t (aget a (p_pend p)) \/ In t (aget a (p_queue p)) ->
  cost t <= st_bal p a /\ t_gas t <= s_maxgas (p_st p).
Proof.
  intros c pl st h a t. apply (InvAll_payable _ _ a t (reachable_InvAll c pl st h)).
Qed.
Print Assumptions pooled_transactions_payable.

(* Inductive form: from any state satisfying the invariants in which every indexed
   transaction is payable, one step leads to such a state. *)
Theorem pooled_payable_preserved : forall c p o qo,
  IWT p /\ all_pay p -> IWT (fst (step c p o qo)) /\ all_pay (fst (step c p o qo)).
Proof.
  intros c p o qo [HI HA]. split; [apply step_IWT, HI|apply ap_step; [apply HI|exact HA]].
Qed.
Print Assumptions pooled_payable_preserved.

(* lifetime eviction (tx_pool.go:loop, case <-evict.C) *)
(* Histories extended by eviction ticks (run_xhist: every step is an operation of the
   histories above or a tick evicting ANY set of queue accounts and ANY set of pending
   accounts -- which ones have expired is wall clock): every reachable state satisfies the
   pool invariant, every pending and queued transaction is payable and within the block gas
   limit, and the hash index holds at most GlobalSlots+GlobalQueue transactions. *)
Theorem pool_invariant_with_evictions : forall c price_limit st h,
  let p := run_xhist c (init price_limit st) h in
  pool_invariant p /\
  (forall a t, In t (aget a (p_pend p)) \/ In t (aget a (p_queue p)) -> cost t <= st_bal p a /\ t_gas t <= s_maxgas (p_st p)) /\
  len (map fst (p_all p)) <= c_gslots c + c_gqueue c.
Proof.
  intros c pl st h. cbv zeta. pose proof (run_xhist_InvAll c h (init pl st) (init_InvAll _ pl st)) as X.
  split; [exact (InvAll_invariant _ _ X)|]. split; [intros a t; exact (InvAll_payable _ _ a t X)|exact (ia_le _ _ X)].
Qed.
Print Assumptions pool_invariant_with_evictions.

(* Inductive form: an eviction tick from ANY state satisfying the invariants (any expired
   sets) leads to such a state, and never grows the hash index.  No reorg run follows a
   tick in the code: pendingNonces = last pending + 1 holds right after it although a single
   removeTx does not preserve that clause (the whole list is removed). *)
Theorem eviction_preserves_invariant : forall c qexp pexp p,
  IWT p -> heap_ok p -> all_pay p ->
  let p' := evict_tick c qexp pexp p in
  IWT p' /\ heap_ok p' /\ all_pay p' /\ pool_invariant p' /\ len (map fst (p_all p')) <= len (map fst (p_all p)).
Proof.
  intros c qexp pexp p A B C. cbv zeta.
  pose proof (evict_tick_InvAll _ c qexp pexp p (Build_InvAll _ p A B C (N.le_refl _))) as X.
  split; [apply X|]. split; [apply X|]. split; [apply X|]. split; [exact (InvAll_invariant _ _ X)|apply X].
Qed.
Print Assumptions eviction_preserves_invariant.

(* Exact effect of evicting the pending list of account a: the list is gone, every other
   pending list and every other account's pendingNonces are unchanged, EVERY queue --
   including a's own, through which the invalidated followers pass -- is unchanged, the
   hash index loses exactly the evicted transactions, the chain state is unchanged. *)
Theorem evict_pending_exact : forall c a p, Inv0 p ->
  aget a (p_pend (evict_pending c a p)) = [] /\
  (forall b, b <> a -> aget b (p_pend (evict_pending c a p)) = aget b (p_pend p) /\ pn_get (evict_pending c a p) b = pn_get p b) /\
  (forall b, aget b (p_queue (evict_pending c a p)) = aget b (p_queue p)) /\
  (forall x, in_all x (evict_pending c a p) <-> in_all x p /\ ~ In x (aget a (p_pend p))) /\
  p_st (evict_pending c a p) = p_st p.
Proof. exact evict_pending_spec. Qed.
Print Assumptions evict_pending_exact.

(* Exact effect of evicting the queue of account a: that queue is gone, every other queue,
   the whole pending map, pendingNonces and the chain state are unchanged, the hash index
   loses exactly the evicted transactions. *)
Theorem evict_queue_exact : forall c a p, Inv0 p ->
  aget a (p_queue (evict_queue c a p)) = [] /\
  (forall b, b <> a -> aget b (p_queue (evict_queue c a p)) = aget b (p_queue p)) /\
  p_pend (evict_queue c a p) = p_pend p /\ p_pn (evict_queue c a p) = p_pn p /\
  p_st (evict_queue c a p) = p_st p /\
  (forall x, in_all x (evict_queue c a p) <-> in_all x p /\ ~ In x (aget a (p_queue p))).
Proof.
  intros c a p H0. change (evict_queue c a p) with (evict_list c (aget a (p_queue p)) p).
  destruct (evict_queued c a _ p H0 (fun t Ht => Ht)) as [[Est [Epend Epn]] _].
  pose proof (fun b => evict_queue_queues c a p b H0) as Eq.
  split; [rewrite Eq, N.eqb_refl; reflexivity|].
  split; [intros b Hb; rewrite Eq; destruct (a =? b) eqn:E; [lia|reflexivity]|].
  split; [exact Epend|]. split; [exact Epn|]. split; [exact Est|]. intros x. apply evict_list_in_all, H0.
Qed.
Print Assumptions evict_queue_exact.

(* removeTx removes exactly its transaction from the hash index (any state with the
   structural invariant; outofbound or not). *)
Theorem remove_tx_removes_exactly : forall c t ob p x, Inv0 p ->
  (in_all x (remove_tx c t ob p) <-> in_all x p /\ x <> t).
Proof.
  intros c t ob p x H0. apply remove_tx_index, H0.
Qed.
Print Assumptions remove_tx_removes_exactly.

(* non-vacuity *)
Example pool_state_nonvacuous :
  map t_nonce (aget 0 (p_pend nv_pool)) = [0; 1] /\ map t_nonce (aget 0 (p_queue nv_pool)) = [3]
  /\ map t_nonce (aget 1 (p_queue nv_pool)) = [2] /\ pn_get nv_pool 0 = 2 /\ len (map fst (p_all nv_pool)) = 4.
Proof.
  vm_compute. repeat split.
Qed.
Example replacement_nonvacuous :
  snd (add w_cfg (T 0 1 11 21000 0) false nv_pool) = true
  /\ snd (fst (add w_cfg (T 0 1 11 21000 0) false nv_pool)) = VOk
  /\ snd (fst (add w_cfg (T 0 3 10 21000 5) false nv_pool)) = VReplaceUnderpriced.
Proof.
  vm_compute. repeat split.
Qed.
Example monotone_history_nonvacuous :
  monotone nv_st [(OAdd false [w_A], []); (OHead (Reset w_st2 [] [w_A; w_B]), []); (OTick, [])].
Proof.
  cbn [monotone r_st]. split; [|exact I]. intros a. unfold nget, nv_st, w_st2. cbn [s_nonce nfind].
  destruct (0 =? a) eqn:E0; [lia|]. destruct (1 =? a) eqn:E1; lia.
Qed.
Example queue_truncation_nonvacuous :
  let c := Cfg 10 16 64 16 2 in
  let p := fst (fst (add_txs c [T 0 1 5 21000 0; T 0 2 5 21000 0; T 1 3 5 21000 0; T 1 4 5 21000 0; T 2 9 5 21000 0] false
                     (init 1 (St [] [(0,1000000000);(1,1000000000);(2,1000000000)] 1 5000000)))) in
  atotal (p_queue p) = 5 /\ atotal (p_queue (truncate_queue c [2;1;0] p)) = 2 /\ atotal (p_queue (truncate_queue c [0;1;2] p)) = 2.
Proof.
  exact queue_limit_nonvacuous.
Qed.
Example gap_witness_nonvacuous :
  map t_nonce (aget 0 (p_pend (run_hist w_cfg (init 5 w_st0) w_gap_history))) = [0; 2].
Proof.
  vm_compute. reflexivity.
Qed.
Example list_cache_nonvacuous :
  cl_run true 10 cache_history = CL [T 0 0 10 21000 4000000; T 0 1 20 21000 6000000] 6420000 21000
  /\ cap_okb (cl_run true 10 cache_history) = true
  /\ cl_filter true 5790000 5000000 (cl_run true 10 cache_history)
     = ([T 0 1 20 21000 6000000], [], CL [T 0 0 10 21000 4000000] 5790000 5000000)
  /\ cl_filter true 6420000 5000000 (cl_run true 10 cache_history) = ([], [], cl_run true 10 cache_history).
Proof.
  vm_compute. repeat split.
Qed.
Example queued_payable_nonvacuous :
  aget 0 (p_queue (run_hist qp_cfg (init 1 (St [] [(0,10000000)] 1 5000000)) (qp_hist 420500))) = [T 0 2 10 21000 1000; T 0 3 20 21000 500]
  /\ aget 0 (p_queue (run_hist qp_cfg (init 1 (St [] [(0,10000000)] 1 5000000)) (qp_hist 420499))) = [T 0 2 10 21000 1000].
Proof.
  vm_compute. split; reflexivity.
Qed.
Example eviction_nonvacuous :
  let p1 := evict_tick w_cfg [] [0] nv_pool in
  let p2 := evict_tick w_cfg [1] [] nv_pool in
  aget 0 (p_pend nv_pool) <> [] /\ aget 0 (p_pend p1) = [] /\ map t_nonce (aget 0 (p_queue p1)) = [3] /\ pn_get p1 0 = 0 /\
  len (map fst (p_all p1)) = 2 /\ aget 1 (p_queue p2) = [] /\ map t_nonce (aget 0 (p_pend p2)) = [0; 1] /\ len (map fst (p_all p2)) = 3.
Proof.
  vm_compute. repeat split. discriminate.
Qed.
