(* C01 -- the properties of Proofs/C01_Ledger.v transported to (db, batch) views with pending tracking,
   blocks and chains; a strict run spends once; the untracked counterexample, no merge-up, the
   worker-assembled block; last, the transactions of the examples in Props/C01.v. *)
From Coq Require Import List NArith Lia.
From GQ Require Import Lib.Key Lib.SMap Generated.C01Params Model.C01 Proofs.C01_Sim
     Proofs.C01_Steps Proofs.C01_Ledger Proofs.C01_Den Proofs.C01_Worker2.
Import ListNotations.
Local Open Scope N_scope.

Lemma run_block_rejected tr (l : ledger) c txs rs l' : run_block tr l c txs = (rs, false, l') -> l' = l.
Proof.
  unfold run_block. destruct (run_txs view_store c (init_bst c (view_of tr l)) txs) as [x [b|]]; intros [= _ <-]; reflexivity.
Qed.

Lemma run_block_facts tr (l : ledger) c txs rs l' : run_block tr l c txs = (rs, true, l') -> Forall2 (tx_facts c) txs rs.
Proof.
  unfold run_block. destruct (run_txs view_store c (init_bst c (view_of tr l)) txs) as [x [b|]] eqn:E; intros [= <- _].
  exact (run_txs_facts _ _ _ _ _ _ E).
Qed.

Lemma run_block_strict (l : ledger) c txs rs ok l' : sorted l -> run_block true l c txs = (rs, ok, l') ->
  strict l (outcome_events (rs, ok, l')) l'.
Proof.
  intros S H. destruct ok; cbn [outcome_events].
  - rewrite run_block_tracked_ref in H by exact S. exact (run_block_ref_accepted _ _ _ _ _ H).
  - apply run_block_rejected in H. subst. constructor.
Qed.

Lemma run_block_sorted (l : ledger) c txs rs ok l' : sorted l -> run_block true l c txs = (rs, ok, l') -> sorted l'.
Proof. intros S H. exact (strict_sorted _ _ _ (run_block_strict _ _ _ _ _ _ S H) S). Qed.

Lemma run_chain_strict blocks : forall l : ledger, sorted l ->
  strict l (chain_events (run_chain true l blocks)) (final_ledger l (run_chain true l blocks)).
Proof.
  induction blocks as [|[c txs] r IH]; intros l S; cbn [run_chain]; [constructor|].
  destruct (run_block true l c txs) as [[rs ok] l'] eqn:E.
  unfold chain_events; cbn [map concat snd final_ledger].
  exact (strict_app _ _ _ _ _ (run_block_strict _ _ _ _ _ _ S E) (IH l' (run_block_sorted _ _ _ _ _ _ S E))).
Qed.

Definition no_double_consume (evs : list event) : Prop :=
  forall pre k u mid u' post, evs = pre ++ Consume k u :: mid ++ Consume k u' :: post ->
  exists u'', In (Create k u'') mid.
Definition consumed_existed (l : ledger) (evs : list event) : Prop :=
  forall pre k u post, evs = pre ++ Consume k u :: post ->
  get k l = Some u \/ exists u', In (Create k u') pre.

Lemma strict_consumed_existed l evs l' : strict l evs l' -> sorted l -> consumed_existed l evs.
Proof.
  intros H S pre k u post ->. apply strict_app_inv in H as (lm & Hpre & Hk).
  inversion Hk; subst. eapply strict_origin; eauto.
Qed.

Lemma strict_no_double_consume l evs l' : strict l evs l' -> sorted l -> no_double_consume evs.
Proof.
  intros H S pre k u mid u' post ->. apply strict_app_inv in H as (lm & Hpre & Hk).
  pose proof (strict_sorted _ _ _ Hpre S) as Sm. inversion Hk as [|? ? ? ? ? _ Hmid|]; subst.
  destruct (strict_consumed_existed _ _ _ Hmid (del_sorted _ _ Sm) _ _ _ _ eq_refl) as [G|Hc]; [|exact Hc].
  rewrite get_del_same in G by exact Sm. discriminate.
Qed.

Lemma strict_spent_once (l : ledger) evs l' : sorted l -> strict l evs l' ->
  strict l evs l' /\ no_double_consume evs /\ consumed_existed l evs.
Proof. eauto using strict_no_double_consume, strict_consumed_existed. Qed.

Definition w_owner : list N := [0; 200; 1; 1; 1; 1; 1; 1; 1; 1; 1; 1; 1; 1; 1; 1; 1; 1; 1; 1].
Definition w_out1 : list N := [0; 201; 2; 2; 2; 2; 2; 2; 2; 2; 2; 2; 2; 2; 2; 2; 2; 2; 2; 2].
Definition w_out2 : list N := [0; 202; 3; 3; 3; 3; 3; 3; 3; 3; 3; 3; 3; 3; 3; 3; 3; 3; 3; 3].
Definition w_op : key := [7; 7; 7; 7; 7; 7; 7; 7; 7; 7; 7; 7; 7; 7; 7; 7; 7; 7; 7; 7; 7; 7; 7; 7; 7; 7; 7; 7; 7; 7; 7; 7; 0; 0].
Definition w_hash : list N := [9; 9; 9; 9; 9; 9; 9; 9; 9; 9; 9; 9; 9; 9; 9; 9; 9; 9; 9; 9; 9; 9; 9; 9; 9; 9; 9; 9; 9; 9; 9; 9].
Definition w_ledger : ledger := [(w_op, mkU 6 w_owner 0)].
Definition w_ctx : ctx :=
  mkCtx 0 0 1000 2000000 5000000 1 1000000 1 (repeat 255 32) etx_r_limit_min etx_p_limit_min.
(* one UTXO of 1000 qits named by both inputs; two outputs of 1000 and 500 qits *)
Definition w_tx : tx :=
  mkTx w_hash true [mkIn w_op w_owner true; mkIn w_op w_owner true]
       [mkOut 6 w_out1 0; mkOut 5 w_out2 0] [] 22600 false false.

Lemma untracked_refuted :
  exists (l : ledger) c t rs l', sorted l /\ ~ NoDup (map i_op (t_ins t))
    /\ run_block false l c [t] = (rs, true, l') /\ value_of l < value_of l'
    /\ exists rs', run_block true l c [t] = (rs', false, l).
Proof.
  exists w_ledger, w_ctx, w_tx. eexists; eexists.
  split; [apply sortedb_sorted; reflexivity|]. split.
  - intros H. inversion H as [|? ? Hn _]; subst. apply Hn. left; reflexivity.
  - split; [vm_compute; reflexivity|]. split; [reflexivity|]. eexists. vm_compute. reflexivity.
Qed.

(* C01_Steps.counts under the name the no-merge-up statement uses *)
Definition counted (c : ctx) (t : tx) (o : txout) : bool := negb (is_conv_out c t o) && negb (is_wrap_out c t o).

Lemma sum_den_rev l : sum_den (rev l) = sum_den l.
Proof. induction l as [|x l IH]; cbn [rev]; [reflexivity|]. rewrite sum_den_app, IH, !sum_den_cons. change (sum_den []) with 0. lia. Qed.

Lemma vge_rev d l : vge d (rev l) = vge d l.
Proof.
  unfold vge. induction l as [|x l IH]; cbn [rev filter]; [reflexivity|].
  rewrite filter_app, sum_den_app, IH. cbn [filter]. destruct (d <=? x); rewrite ?sum_den_cons; change (sum_den []) with 0; lia.
Qed.

Lemma process_qi_no_merge_up {S} (st : store S) c (b b' : bst (S:=S)) t r :
  process_qi st c b t = Ok (b', r) -> b_first b = false ->
  value_of (r_spent r) < two64 ->
  forall d, 1 <= d <= max_denomination ->
    vge d (map o_den (filter (counted c t) (t_outs t))) <= vge d (map (fun ku => u_den (snd ku)) (r_spent r)).
Proof.
  intros H Hfirst Hbound d Hdr. apply process_qi_facts in H as (_ & _ & Hden).
  rewrite <- (vge_rev d (map o_den _)), <- (vge_rev d (map _ (r_spent r))).
  apply (proj1 (check_denominations_iff _ _ ltac:(rewrite sum_den_rev; exact Hbound)) (Hden Hfirst) d Hdr).
Qed.

Lemma worker_block_accepted_view c (l : ledger) txs : sorted l ->
  Forall (fun t => pool_ok c l t /\ fresh l t /\ sig_fine t) txs ->
  exists rs l', run_block true l c (accepted_txs txs (fst (worker_txs c l true (init_wenv c) txs))) = (rs, true, l')
    /\ Forall2 res_agree (somes (fst (worker_txs c l true (init_wenv c) txs))) rs.
Proof.
  intros S H. destruct (worker_txs_proc c l txs true _ _ (init_winv c l S) H) as (rs & b' & Hrun & Hres).
  rewrite run_block_tracked_ref by exact S. unfold run_block_ref. rewrite Hrun. eauto.
Qed.

Definition x_tx1 : tx :=
  mkTx w_hash true [mkIn w_op w_owner true] [mkOut 5 w_out1 0; mkOut 4 w_out2 0] [] 21800 true true.
Definition x_hash2 : list N := repeat 11 32.
Definition x_tx2 : tx :=
  mkTx x_hash2 true [mkIn w_op w_owner true] [mkOut 5 w_out1 0] [] 12800 true true.
(* spends the first output of x_tx1 (owner w_out1) inside the same block *)
Definition x_tx3 : tx :=
  mkTx x_hash2 true [mkIn (outkey w_hash 0) w_out1 true] [mkOut 4 w_out2 0; mkOut 4 w_owner 0] [] 21800 true true.
