(* C02 — balance maps: finite association lists account -> Z with default 0, and their sum. *)
From Coq Require Import List ZArith NArith Bool Lia.
From GQ Require Import Lib.Lists.
Import ListNotations.
Local Open Scope Z_scope.

Definition addr := N.
Definition bmap := list (addr * Z).

Fixpoint bget (a : addr) (m : bmap) : Z :=
  match m with
  | [] => 0
  | (k, v) :: r => if N.eqb a k then v else bget a r
  end.

Fixpoint bset (a : addr) (v : Z) (m : bmap) : bmap :=
  match m with
  | [] => [(a, v)]
  | (k, w) :: r => if N.eqb a k then (k, v) :: r else (k, w) :: bset a v r
  end.

Fixpoint bsum (m : bmap) : Z :=
  match m with
  | [] => 0
  | (_, v) :: r => v + bsum r
  end.

Definition bkeys (m : bmap) : list addr := map fst m.
Definition nonneg (m : bmap) : Prop := forall a, 0 <= bget a m.
Definition mem (a : addr) (l : list addr) : bool := existsb (N.eqb a) l.

Lemma bget_bset a b v m : bget b (bset a v m) = if N.eqb b a then v else bget b m.
Proof.
  induction m as [|[k w] r IH]; cbn.
  - reflexivity.
  - destruct (N.eqb_spec a k) as [->|Hak]; cbn.
    + now destruct (N.eqb b k).
    + rewrite IH. destruct (N.eqb_spec b k) as [->|]; [|reflexivity].
      now destruct (N.eqb_spec k a) as [->|].
Qed.

Lemma bget_bset_same a v m : bget a (bset a v m) = v.
Proof. now rewrite bget_bset, N.eqb_refl. Qed.

Lemma bget_bset_other a b v m : b <> a -> bget b (bset a v m) = bget b m.
Proof. intros H. apply N.eqb_neq in H. now rewrite bget_bset, H. Qed.

(* also with repeated keys: [bget] and [bset] both address the first binding of [a] *)
Lemma bsum_bset a v m : bsum (bset a v m) = bsum m - bget a m + v.
Proof.
  induction m as [|[k w] r IH]; cbn.
  - lia.
  - destruct (N.eqb a k) eqn:E; cbn; [lia|]. rewrite IH. lia.
Qed.

Lemma mem_true a l : mem a l = true <-> In a l.
Proof. exact (existsb_eqb_In N.eqb N.eqb_eq a l). Qed.

Lemma mem_false a l : mem a l = false <-> ~ In a l.
Proof. exact (existsb_eqb_not_In N.eqb N.eqb_eq a l). Qed.

Lemma mem_cons a x l : mem a (x :: l) = N.eqb a x || mem a l.
Proof. reflexivity. Qed.

Lemma bkeys_bset a v m : bkeys (bset a v m) = if mem a (bkeys m) then bkeys m else bkeys m ++ [a].
Proof.
  unfold bkeys, mem. induction m as [|[k w] r IH]; cbn; [reflexivity|].
  destruct (N.eqb a k); cbn; [reflexivity|]. rewrite IH. now destruct (existsb (N.eqb a) (map fst r)).
Qed.

Lemma bset_nodup a v m : NoDup (bkeys m) -> NoDup (bkeys (bset a v m)).
Proof.
  intros ND. rewrite bkeys_bset. destruct (mem a (bkeys m)) eqn:M; [exact ND|].
  apply NoDup_app_iff. split; [exact ND|]. split; [repeat constructor; intros []|].
  intros x Hx [<-|[]]. now apply mem_false in M.
Qed.

Lemma fold_bget_skip k w r l : ~ In k l ->
  fold_right (fun a acc => bget a ((k, w) :: r) + acc) 0 l = fold_right (fun a acc => bget a r + acc) 0 l.
Proof.
  induction l as [|x l IHl]; cbn; intros NI; [reflexivity|].
  destruct (N.eqb x k) eqn:E.
  - apply N.eqb_eq in E. subst. exfalso. apply NI. now left.
  - f_equal. apply IHl. intros H. apply NI. now right.
Qed.

Lemma bsum_keys m : NoDup (bkeys m) -> bsum m = fold_right (fun a acc => bget a m + acc) 0 (bkeys m).
Proof.
  induction m as [|[k w] r IH]; intros ND; [reflexivity|].
  inversion ND as [|? ? NI ND']; subst.
  change (bkeys ((k, w) :: r)) with (k :: bkeys r).
  cbn [fold_right bsum]. rewrite (fold_bget_skip k w r _ NI), <- (IH ND').
  cbn. now rewrite N.eqb_refl.
Qed.

Lemma nonneg_bset a v m : nonneg m -> 0 <= v -> nonneg (bset a v m).
Proof. intros H Hv b. rewrite bget_bset. destruct (N.eqb b a); auto. Qed.

Lemma nonneg_of_forallb (b : bmap) : forallb (fun p => 0 <=? snd p) b = true -> nonneg b.
Proof.
  intros H a. induction b as [|[k v] r IH]; cbn [bget]; [lia|].
  cbn [forallb snd] in H. apply andb_true_iff in H. destruct H as [Hv Hr].
  destruct (N.eqb a k); [now apply Z.leb_le in Hv|exact (IH Hr)].
Qed.
