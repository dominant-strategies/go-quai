(* C05 -- the hand-over of the per-transaction ETX cache to the transaction's result / receipt and the block's
   outbound list (Model/C05.v: transition_db, apply_transaction, process, hprocess). *)
From Coq Require Import String List NArith Lia.
From GQ Require Import Generated.C05Params Lib.C05_Slice Model.C05 Proofs.C05.
Import ListNotations.

Lemma process_empty_cache : forall txs,
  process [] txs = (map tx_sent txs, List.concat (map tx_sent txs)).
Proof.
  induction txs as [|[ok em] rest IH]; [reflexivity|].
  cbn [process apply_transaction transition_db fst snd app]. rewrite IH.
  cbn [map List.concat tx_sent fst snd]. destruct ok; reflexivity.
Qed.

(* whatever the cache held before: nothing of a transaction shows up in the receipt of a later one *)
Lemma process_later_receipts_independent : forall cache t rest,
  let (rs, bl) := process cache (t :: rest) in
  tl rs = map tx_sent rest.
Proof.
  intros cache [ok em] rest. cbn [process apply_transaction transition_db fst snd].
  rewrite process_empty_cache. reflexivity.
Qed.

(* slice level: with the copy, what a receipt reads never changes *)

Lemma hprocess_copy_inv : forall grow txs h cache, sl_ok h cache -> sl_read h cache = [] ->
  forall hf rs bl, hprocess grow true h cache txs = (hf, rs, bl) ->
  map (read_receipt hf) rs = map tx_sent (map abs_tx txs) /\
  bl = List.concat (map tx_sent (map abs_tx txs)) /\ keeps h (sl_arr cache) hf.
Proof.
  intros grow. induction txs as [|t rest IH]; intros h cache Hok Hempty hf rs bl E.
  - cbn in E. inversion E; subst. repeat split; auto.
  - cbn [hprocess] in E. unfold htransition_db in E.
    destruct (run_cops_spec etx dummy_etx grow (snd t) h cache Hok) as [(Ok1 & [L1 F1] & _) R].
    destruct (run_cops_h dummy_etx grow h cache (snd t)) as [h1 c1]. cbn [fst snd] in Ok1, L1, F1, R.
    rewrite Hempty in R.
    destruct (copy_spec etx h1 c1 Ok1) as (Rc & Ac & Lc & Fc).
    destruct (sl_copy h1 c1) as [h2 etxs]. cbn [fst snd] in Rc, Ac, Lc, Fc.
    unfold sl_make in E.
    (* the next transaction starts on the empty slice of a new array; the copy [etxs] is array [length h1], below it *)
    assert (Ok3 : sl_ok (h2 ++ [[]]) (mkSl (length h2) 0)).
    { split; cbn [sl_arr sl_len]; [rewrite app_length; simpl|]; lia. }
    destruct (hprocess grow true (h2 ++ [[]]) (mkSl (length h2) 0) rest) as [[hf' rs'] bl'] eqn:HP.
    inversion E; subst hf rs bl. clear E.
    destruct (IH _ _ Ok3 eq_refl _ _ _ HP) as (I1 & I2 & [I3 I4]).
    rewrite app_length in I3, I4. cbn [length sl_arr] in I3, I4.
    assert (Rd : forall hh, arr hh (length h1) = arr h2 (length h1) -> sl_read hh etxs = run_cops [] (snd t)).
    { intros hh Hh. transitivity (sl_read h2 etxs); [unfold sl_read; rewrite Ac, Hh; reflexivity|rewrite Rc; exact R]. }
    split; [|split; [|split]].
    + cbn [map]. rewrite I1. f_equal.
      unfold tx_sent, abs_tx. cbn [fst snd]. destruct (fst t); cbn [read_receipt]; [|reflexivity].
      apply Rd. rewrite I4 by lia. apply arr_app_old. lia.
    + cbn [map List.concat]. rewrite I2. f_equal.
      unfold tx_sent, abs_tx. cbn [fst snd]. destruct (fst t); [|reflexivity].
      apply Rd. apply arr_app_old. lia.
    + lia.
    + intros b Hb Hn. rewrite I4, arr_app_old, Fc by lia. apply F1; assumption.
Qed.

(* ... and without it (etxs := ETXCache; ETXCache = ETXCache[:0]) the receipt of the first of two sending
   transactions ends up reading the second one's ETX, while the block's list is still right *)
Definition alias_e1 : etx := mkEtx 1 10 1111 0 0 21000.
Definition alias_e2 : etx := mkEtx 2 20 2222 0 0 21000.
Definition alias_txs : list hbtx := [(true, [CPush alias_e1]); (true, [CPush alias_e2])].

Lemma hprocess_alias_witness :
  match hprocess (fun n => n) false [[]] (mkSl 0 0) alias_txs with
  | (hf, rs, bl) =>
      map (read_receipt hf) rs = [[alias_e2]; [alias_e2]] /\ bl = [alias_e1; alias_e2] /\
      fst (process [] (map abs_tx alias_txs)) = [[alias_e1]; [alias_e2]]
  end.
Proof. vm_compute. repeat split; reflexivity. Qed.

Lemma hprocess_alias_refuted : exists grow txs,
  match hprocess grow false [[]] (mkSl 0 0) txs with
  | (hf, rs, bl) => map (read_receipt hf) rs <> fst (process [] (map abs_tx txs))
  end.
Proof. exists (fun n => n), alias_txs. vm_compute. intro H. discriminate H. Qed.

Local Open Scope string_scope.
(* TransitionDb: the five early returns carry no ETXs; after the call the cache is COPIED into a new array
   (make(len) + copy), the EVM gets a NEW empty cache, the copy goes into the result ([htransition_db true]);
   applyTransaction: Reset (which does not touch the cache), ApplyMessage, OutboundEtxs only if not failed *)
Definition handover_as_modelled : bool :=
  strs_eqb src_handover_TransitionDb
    ["Etxs:nil"; "Etxs:nil"; "Etxs:nil"; "Etxs:nil"; "Etxs:nil";
     "etxs=make(len(ETXCache))"; "copy(etxs,ETXCache)"; "ETXCache=make(0)"; "Etxs:etxs"] &&
  (* "@else(Failed)": the hand-over to the receipt sits in the success branch of "if result.Failed()" and under no other condition
     (the dump in TransitionDb is unconditional: no "@" suffix) *)
  strs_eqb src_handover_applyTransaction ["Reset"; "ApplyMessage"; "Failed"; "receipt.OutboundEtxs=result.Etxs@else(Failed)"] &&
  strs_eqb src_handover_Reset [].

