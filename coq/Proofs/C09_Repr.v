(* C09 — the line-by-line transcription of mathutil.BinaryLog (binary_log_f: big.Int numerator + fracBits,
   partial trailing-zero stripping in normalize(), early exit on eq1()) computes the same result as the
   value-semantics model binary_log the theorems are stated over, for every n > 0, provided no squaring
   step rounds to exactly 2.0 (decidable side condition on the number of mantissa bits, true for 64). *)
From Coq Require Import ZArith Bool Lia.
From GQ Require Import Model.C09 Proofs.C09_Log.
Local Open Scope Z_scope.

(* no integer x has x^2 rounding (to mb fractional bits) to exactly 2 * 2^mb *)
Definition no_sqrt2_hit (mb : Z) : bool :=
  let s := Z.sqrt (2 ^ (2 * mb + 1) + 2 ^ (mb - 1) - 1) in
  s * s <? 2 ^ (2 * mb + 1) - 2 ^ (mb - 1).

Lemma pow2_succ k : 0 <= k -> 2 ^ (k + 1) = 2 ^ k * 2.
Proof. intros Hk. rewrite Z.pow_add_r by lia. reflexivity. Qed.
Lemma pow2_pred k : 1 <= k -> 2 ^ k = 2 ^ (k - 1) * 2.
Proof. intros Hk. rewrite <- pow2_succ by lia. f_equal. lia. Qed.

Lemma shiftr_low_bit n i : Z.shiftr n i = 2 * Z.shiftr n (i + 1) + Z.b2z (Z.testbit n i).
Proof.
  rewrite (Z.div2_odd (Z.shiftr n i)) at 1.
  rewrite Z.div2_spec, Z.shiftr_shiftr, <- Z.bit0_odd, Z.shiftr_spec by lia. reflexivity.
Qed.

Lemma round_shift n d : 1 <= d ->
  Z.shiftr n d + Z.b2z (Z.testbit n (d - 1)) = (n + 2 ^ (d - 1)) / 2 ^ d.
Proof.
  intros Hd. assert (Hp : 0 < 2 ^ (d - 1)) by (apply pow2_gt0; lia).
  (* divide by 2^(d-1) first: with a = n >> (d-1), whose low bit is the tested one, the right side is (a + 1) / 2 *)
  rewrite (pow2_pred d), <- Z.div_div by lia.
  replace (n + 2 ^ (d - 1)) with (n + 1 * 2 ^ (d - 1)) by lia.
  rewrite Z.div_add, <- Z.shiftr_div_pow2, (shiftr_low_bit n (d - 1)) by lia.
  replace (d - 1 + 1) with d by lia. destruct (Z.testbit n (d - 1)); cbn [Z.b2z]; Z.div_mod_to_equations; lia.
Qed.

Lemma strip_loop_spec : forall fuel n fb i fb' i', 0 <= fb ->
  strip_loop fuel n fb i = (fb', i') ->
  0 <= fb' <= fb /\ Z.shiftr n i' * 2 ^ (fb - fb') = Z.shiftr n i.
Proof.
  induction fuel as [|fuel IH]; intros n fb i fb' i' Hfb H; cbn [strip_loop] in H.
  - inversion H; subst. rewrite Z.sub_diag. lia.
  - destruct ((0 <? fb) && (i <=? fb) && negb (Z.testbit n i)) eqn:E.
    + apply andb_prop in E. destruct E as [E E3]. apply andb_prop in E. destruct E as [E1 _].
      apply Z.ltb_lt in E1. apply negb_true_iff in E3.
      destruct (IH n (fb - 1) (i + 1) fb' i' ltac:(lia) H) as (A & B).
      (* bit i is clear: the numerator shifted by i places is twice the one shifted by i + 1 *)
      rewrite (shiftr_low_bit n i), E3, <- B, (pow2_pred (fb - fb')) by lia.
      replace (fb - fb' - 1) with (fb - 1 - fb') by lia. cbn [Z.b2z]. split; lia.
    + inversion H; subst. rewrite Z.sub_diag. lia.
Qed.

Lemma bitlen_gt n k : 0 < n -> 0 <= k -> (k <? bitlen n) = (2 ^ k <=? n).
Proof.
  intros Hn Hk. unfold bitlen. destruct (Z.leb_spec n 0); [lia|].
  destruct (Z.leb_spec (2 ^ k) n) as [H1|H1].
  - apply Z.ltb_lt. apply Z.log2_le_pow2 in H1; lia.
  - apply Z.ltb_ge. apply Z.log2_lt_pow2 in H1; lia.
Qed.

Section Repr.
Variable mb : Z.
Hypothesis Hmb : 1 <= mb.
Hypothesis Hsq : no_sqrt2_hit mb = true.

Lemma normalize_spec n fb : 0 < n -> 0 <= fb ->
  let x := normalize mb (mkF n fb) in 0 <= f_fb x <= mb /\ f_n x * 2 ^ (mb - f_fb x) = round_to mb n fb.
Proof.
  intros Hn Hfb. unfold normalize. cbn [f_n f_fb].
  destruct (Z.eqb_spec n 0); [lia|].
  set (r := if 0 <? fb - mb then (Z.shiftr n (fb - mb) + Z.b2z (Z.testbit n (fb - mb - 1)), fb - (fb - mb)) else (n, fb)).
  assert (Hr : 0 <= snd r <= mb /\ fst r * 2 ^ (mb - snd r) = round_to mb n fb).
  { subst r. unfold round_to. destruct (Z.ltb_spec 0 (fb - mb)) as [Hgt|Hle]; cbn [fst snd].
    - destruct (Z.leb_spec fb mb); [lia|].
      rewrite round_shift by lia.
      replace (mb - (fb - (fb - mb))) with 0 by lia. rewrite Z.mul_1_r. split; [lia|reflexivity].
    - destruct (Z.leb_spec fb mb); [|lia]. split; [lia|reflexivity]. }
  clearbody r. destruct r as [n1 fb1]. cbn [fst snd] in Hr. destruct Hr as (Hfb1 & Hv).
  destruct (strip_loop (Z.to_nat fb1 + 1) n1 fb1 0) as [fb2 i] eqn:ES.
  destruct (strip_loop_spec _ n1 fb1 0 fb2 i (proj1 Hfb1) ES) as (Hfb2 & En1).
  rewrite Z.shiftr_0_r in En1.
  replace (if i =? 0 then n1 else Z.shiftr n1 i) with (Z.shiftr n1 i)
    by (destruct (Z.eqb_spec i 0) as [->|]; [apply Z.shiftr_0_r|reflexivity]).
  cbn [f_n f_fb]. split; [lia|].
  replace (mb - fb2) with (fb1 - fb2 + (mb - fb1)) by lia. rewrite <- Hv, Z.pow_add_r, Z.mul_assoc by lia. f_equal. exact En1.
Qed.

(* the float x stands for the value X / 2^mb, which is at least 1 *)
Record repr (x : bfloat) (X : Z) : Prop := {
  repr_numerator : 0 < f_n x;
  repr_frac_bits : 0 <= f_fb x <= mb;
  repr_value : f_n x * 2 ^ (mb - f_fb x) = X;
  repr_ge_one : 2 ^ mb <= X
}.

Lemma normalize_repr n fb X : 0 < n -> 0 <= fb -> round_to mb n fb = X -> 2 ^ mb <= X ->
  repr (normalize mb (mkF n fb)) X.
Proof.
  intros Hn Hfb <- Hge. destruct (normalize_spec n fb Hn Hfb) as [A C]. split; [|exact A|exact C|exact Hge].
  (* the numerator stays positive because the value does *)
  assert (0 < 2 ^ mb) by (apply pow2_gt0; lia).
  assert (0 < 2 ^ (mb - f_fb (normalize mb (mkF n fb)))) by (apply pow2_gt0; lia). nia.
Qed.

Lemma ge2_repr x X : repr x X -> f_ge2 x = (2 ^ (mb + 1) <=? X).
Proof.
  intros [Hn Hfb <- _]. unfold f_ge2. rewrite bitlen_gt by lia.
  assert (Hp : 0 < 2 ^ (mb - f_fb x)) by (apply pow2_gt0; lia).
  assert (E : 2 ^ (mb + 1) = 2 ^ (f_fb x + 1) * 2 ^ (mb - f_fb x)) by (rewrite <- Z.pow_add_r by lia; f_equal; lia).
  rewrite E. destruct (Z.leb_spec (2 ^ (f_fb x + 1)) (f_n x)); symmetry; [apply Z.leb_le|apply Z.leb_gt]; nia.
Qed.

Lemma eq1_repr x X : repr x X -> f_eq1 x = true -> X = 2 ^ mb.
Proof.
  intros [Hn Hfb <- _] H. unfold f_eq1 in H. apply andb_prop in H. destruct H as [H1 H2].
  apply Z.eqb_eq in H1. apply Z.eqb_eq in H2. unfold bitlen in H2. destruct (Z.leb_spec (f_n x) 0) as [Hle|Hgt]; [lia|].
  assert (Hl : Z.log2 (f_n x) = 0) by lia.
  assert (Hone : f_n x = 1).
  { pose proof (Z.log2_spec (f_n x) Hn) as S. rewrite Hl in S. cbn in S. lia. }
  rewrite Hone, H1. rewrite Z.sub_0_r. lia.
Qed.

Lemma sqr_repr x X : repr x X -> repr (f_sqr mb x) (step_y mb X).
Proof.
  intros [Hn Hfb <- Hge]. unfold f_sqr. apply normalize_repr; [nia|lia| |apply step_y_above_one; assumption].
  rewrite (round_to_scaled mb _ _ mb) by lia. unfold step_y. do 2 f_equal.
  replace (mb + mb - 2 * f_fb x) with (mb - f_fb x + (mb - f_fb x)) by lia. rewrite Z.pow_add_r by lia. ring.
Qed.

Lemma div2_repr x X : repr x X -> 2 ^ (mb + 1) <= X -> repr (f_div2 mb x) ((X + 1) / 2).
Proof.
  intros [Hn Hfb <- _] Hge. unfold f_div2. apply normalize_repr; [exact Hn|lia| |].
  - rewrite (round_to_scaled mb _ _ 1) by lia.
    replace (mb + 1 - (f_fb x + 1)) with (mb - f_fb x) by lia. reflexivity.
  - assert (E : 2 ^ (mb + 1) = 2 ^ mb * 2) by (apply pow2_succ; lia).
    apply Z.div_le_lower_bound; lia.
Qed.

Lemma never_exactly_two X : 0 <= X -> step_y mb X <> 2 ^ (mb + 1).
Proof.
  intros HX Hy. unfold no_sqrt2_hit in Hsq. cbv zeta in Hsq. apply Z.ltb_lt in Hsq.
  set (T := 2 ^ (2 * mb + 1) + 2 ^ (mb - 1) - 1) in *.
  assert (Hpm : 0 < 2 ^ mb) by (apply pow2_gt0; lia).
  assert (Hh : 0 < 2 ^ (mb - 1)) by (apply pow2_gt0; lia).
  assert (E1 : 2 ^ (mb + 1) * 2 ^ mb = 2 ^ (2 * mb + 1)) by (rewrite <- Z.pow_add_r by lia; f_equal; lia).
  assert (E2 : 2 ^ mb = 2 ^ (mb - 1) * 2) by (apply pow2_pred; lia).
  unfold step_y in Hy.
  pose proof (Z.div_mod (X * X + 2 ^ (mb - 1)) (2 ^ mb) ltac:(lia)) as D.
  pose proof (Z.mod_pos_bound (X * X + 2 ^ (mb - 1)) (2 ^ mb) Hpm) as B.
  rewrite Hy in D.
  assert (Hlo : 2 ^ (2 * mb + 1) - 2 ^ (mb - 1) <= X * X) by nia.
  assert (Hhi : X * X <= T) by (subst T; nia).
  (* so X is at most the integer square root of T, whose square is below the lower bound *)
  assert (X <= Z.sqrt T) by (rewrite <- (Z.sqrt_square X HX); apply Z.sqrt_le_mono; exact Hhi).
  assert (X * X <= Z.sqrt T * Z.sqrt T) by (apply Z.mul_le_mono_nonneg; lia).
  lia.
Qed.

(* The early exit on eq1() returns m as it is, the value model doubles it k more times: they agree only for m = 0.
   Value 1.0 is met only with m = 0: it stays 1.0 under squaring, and halving reaches it only from exactly 2.0. *)
Lemma loop_equiv : forall k x X m, repr x X -> (X = 2 ^ mb -> m = 0) ->
  blog_loop_f mb k x m = blog_mant mb k X m.
Proof.
  induction k as [|k IH]; intros x X m R Hm; [reflexivity|].
  cbn [blog_loop_f]. destruct (f_eq1 x) eqn:E1.
  - pose proof (eq1_repr x X R E1) as Hv. rewrite Hv, (Hm Hv). symmetry. apply blog_mant_at_one. exact Hmb.
  - rewrite blog_mant_S, blog_step_spec by exact Hmb.
    pose proof (sqr_repr x X R) as Ry. rewrite (ge2_repr _ _ Ry).
    pose proof (repr_ge_one _ _ R) as Hge. destruct (step_y_above_one mb X Hmb Hge) as [_ Hgt].
    destruct (Z.leb_spec (2 ^ (mb + 1)) (step_y mb X)) as [Hb|Hb]; cbn [fst snd Z.b2z].
    + apply IH; [apply div2_repr; assumption|].
      (* value 1 after div2 would need the square to be exactly 2.0 *)
      intros Hv. exfalso. apply (never_exactly_two X); [pose proof (pow2_gt0 mb); lia|].
      assert (E : 2 ^ (mb + 1) = 2 ^ mb * 2) by (apply pow2_succ; lia).
      revert Hv. Z.div_mod_to_equations. lia.
    + replace (2 * m + 0) with (2 * m) by lia. apply IH; [exact Ry|].
      intros Hv. destruct (Z.eq_dec X (2 ^ mb)) as [Ev|Hne]; [rewrite (Hm Ev); reflexivity|].
      specialize (Hgt ltac:(lia)). lia.
Qed.

Theorem binary_log_f_eq n : 0 < n -> binary_log_f n mb = binary_log n mb.
Proof.
  intros Hn. unfold binary_log_f, binary_log. cbv zeta. f_equal.
  apply loop_equiv; [|intros _; reflexivity].
  apply normalize_repr; [exact Hn|apply Z.log2_nonneg|symmetry; apply blog_init_spec|apply blog_init_ge_one; assumption].
Qed.

End Repr.
