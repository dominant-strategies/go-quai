(* C01 -- the pending block the worker assembles consumes every outpoint at most once, whatever it
   rejected in between, and only records of the committed database: no hypothesis about the pool,
   the keys or the signatures (worker.go: processQiTx, the per-block set env.deletedUtxos that is
   only ever grown -- the reservation of a rejected transaction is NOT released). *)
From Coq Require Import List NArith.
From GQ Require Import Lib.Key Lib.SMap Model.C01 Proofs.C01_Worker2 Proofs.C01.
Import ListNotations.
Local Open Scope N_scope.

Definition named (t : tx) : list key := map i_op (t_ins t).

Lemma worker_txs_spends_once c l txs : forall first e,
  (exists d', reserves (w_deleted e) (concat (map named (accepted_txs txs (fst (worker_txs c l first e txs))))) d')
  /\ Forall (fun t => Forall (fun i => exists u, get (i_op i) l = Some u /\ u_lock u <= c_height c) (t_ins t))
            (accepted_txs txs (fst (worker_txs c l first e txs))).
Proof.
  induction txs as [|t r IH]; intros first e.
  - split; [exists (w_deleted e); apply reserves_nil, incl_refl|constructor].
  - rewrite worker_txs_cons. pose proof (worker_qi_cases c l first e t) as C.
    destruct (worker_qi c l first e t) as [e' [res|err g]]; cbn [accepted_txs map concat].
    + destruct (IH false e') as ((d' & IHr) & IHall).
      destruct C as [deleted wa p _ _ Hin _ _ _]. destruct (w_in_loop_spec _ _ _ _ _ _ _ _ Hin) as (Hr & Hall).
      split; [exists d'; exact (reserves_app _ _ _ _ _ Hr IHr)|constructor; assumption].
    (* a rejected call only leaves a larger set *)
    + destruct C as (Hincl & _). destruct (IH (if w_retry err then first else false) e') as ((d' & IHr) & IHall).
      split; [exists d'; exact (reserves_app _ _ _ _ _ (reserves_nil _ _ Hincl) IHr)|exact IHall].
Qed.

(* a third spender of the outpoint x_tx1 and x_tx2 spend *)
Definition x_hash3 : list N := repeat 12 32.
Definition x_tx2b : tx :=
  mkTx x_hash3 true [mkIn w_op w_owner true] [mkOut 4 w_out1 0] [] 12800 true true.

(* two records; the holder of the key of w_owner names both and carries his key twice *)
Definition y_op2 : key := repeat 8 32 ++ [0; 0].
Definition w_out3 : list N := [0; 203; 4; 4; 4; 4; 4; 4; 4; 4; 4; 4; 4; 4; 4; 4; 4; 4; 4; 4].
Definition y_ledger_foreign : ledger := [(w_op, mkU 6 w_owner 0); (y_op2, mkU 6 w_out1 0)].
Definition y_ledger_own : ledger := [(w_op, mkU 6 w_owner 0); (y_op2, mkU 6 w_owner 0)].
Definition y_tx (checksig : bool) : tx :=
  mkTx w_hash true [mkIn w_op w_owner true; mkIn y_op2 w_owner true]
       [mkOut 6 w_out2 0; mkOut 5 w_out3 0] [] 22600 checksig true.
