(* C12 — lemmas about the journal model (Model/C12.v).
   Architecture: every mutator is a sequence of journalled writes (journal.append, then the change
   itself); for each write the entry's revert, applied to the state right after it, gives back
   exactly the state before ([wrote], [mutate_wrote]).  Rewinding to an older journal length therefore
   passes through every earlier state ([extm], [rewind_core_compose]) and the induction over arbitrary
   histories with nested snapshots/reverts only needs list reasoning about validRevisions ([anchored], [tracked]).
   Call frames are said through [anchored] as well: what a frame guarantees is a preorder that folds over its body
   ([framed]).  Last, and needing of the above only [mutate_wrote], [step_mut] and [step_revert]: journal.dirties
   as the image of the journal ([DI]). *)
From Coq Require Import List NArith ZArith Bool Lia Sorted.
From GQ Require Import Lib.Key Lib.SMap Lib.Lists Model.C12 Proofs.C12_Inventory.
Import ListNotations.

Lemma set_objs_id c : set_objs c (objs c) = c.  Proof. destruct c; reflexivity. Qed.
Lemma set_objs_set_objs c u v : set_objs (set_objs c u) v = set_objs c v.  Proof. reflexivity. Qed.
Lemma objs_set_objs c v : objs (set_objs c v) = v.  Proof. reflexivity. Qed.
Lemma set_refund_id c : set_refund c (refund c) = c.  Proof. destruct c; reflexivity. Qed.
Lemma set_preim_id c : set_preim c (preim c) = c.  Proof. destruct c; reflexivity. Qed.
Lemma set_transient_id c : set_transient c (transient c) = c.  Proof. destruct c; reflexivity. Qed.
Lemma set_al_id c : set_al c (al_addr c) (al_slots c) = c.  Proof. destruct c; reflexivity. Qed.
Lemma set_logs_id c : set_logs c (logs c) (logsize c) = c.  Proof. destruct c; reflexivity. Qed.
Lemma core_eta c : mkCore (objs c) (refund c) (logs c) (logsize c) (preim c) (al_addr c) (al_slots c) (transient c) = c.
Proof. destruct c; reflexivity. Qed.

Lemma replace_nth_restore {A} n (x y : A) l :
  nth_error l n = Some x -> replace_nth n x (replace_nth n y l) = l.
Proof.
  revert n; induction l as [|h t IH]; intros [|n]; cbn; try discriminate.
  - intros H; inversion H; reflexivity.
  - intros H. f_equal. apply IH. exact H.
Qed.

Lemma nth_error_replace_nth_same {A} n (y : A) l x :
  nth_error l n = Some x -> nth_error (replace_nth n y l) n = Some y.
Proof.
  revert n; induction l as [|h t IH]; intros [|n]; cbn; try discriminate; auto.
Qed.

Lemma nth_error_replace_nth_other {A} n k (y : A) l :
  k <> n -> nth_error (replace_nth n y l) k = nth_error l k.
Proof.
  revert n k; induction l as [|h t IH]; intros [|n] [|k] H; cbn; try reflexivity; try congruence.
  apply IH. congruence.
Qed.

Definition nz (m : smap word) : Prop := forall k, get k m <> Some 0%N.

Lemma nz_nil : nz [].  Proof. intros k; cbn; discriminate. Qed.

Lemma setw_sorted k v m : sorted m -> sorted (setw k v m).
Proof. intros S. unfold setw. destruct (N.eqb v 0); [apply del_sorted|apply put_sorted]; exact S. Qed.

Lemma setw_nz k v m : sorted m -> nz m -> nz (setw k v m).
Proof.
  intros S Z k0. unfold setw. destruct (N.eqb v 0) eqn:E.
  - rewrite get_del by exact S. destruct (keqb k0 k); [discriminate|apply Z].
  - rewrite get_put. destruct (keqb k0 k); [|apply Z].
    intros H; inversion H; subst. rewrite N.eqb_refl in E. discriminate.
Qed.

Lemma setw_restore k v m : sorted m -> nz m -> setw k (getw k m) (setw k v m) = m.
Proof.
  intros S Z. unfold getw, setw. destruct (get k m) as [p|] eqn:G.
  - assert (p <> 0%N) as P by (intros ->; exact (Z k G)).
    apply N.eqb_neq in P. rewrite P. destruct (N.eqb v 0).
    + apply put_del_restore; assumption.
    + apply put_restore; assumption.
  - cbn. destruct (N.eqb v 0).
    + rewrite (del_absent k m G). exact (del_absent k m G).
    + apply del_put_absent; assumption.
Qed.

Definition wf_objs (m : smap acct) : Prop :=
  forall a o, get a m = Some o -> sorted (a_stor o) /\ nz (a_stor o).

Definition wf_al (addr : smap Z) (slots : list (smap unit)) : Prop :=
  forall a i, get a addr = Some i ->
    i = (-1)%Z \/ ((0 <= i)%Z /\ exists ss, nth_error slots (Z.to_nat i) = Some ss /\ ss <> []).

Definition WFc (c : core) : Prop :=
  wf_objs (objs c) /\ sorted (transient c) /\ nz (transient c) /\ wf_al (al_addr c) (al_slots c).

Lemma wf_objs_put a o m : wf_objs m -> sorted (a_stor o) -> nz (a_stor o) -> wf_objs (put a o m).
Proof.
  intros W S Z a0 o0. rewrite get_put. destruct (keqb a0 a).
  - intros H; inversion H; subst; auto.
  - apply W.
Qed.

Lemma WFc_set_objs c v : WFc c -> wf_objs v -> WFc (set_objs c v).
Proof. intros (W1 & W2 & W3 & W4) Wv. split; [exact Wv|split; [exact W2|split; [exact W3|exact W4]]]. Qed.

Lemma WFc_set_al c a s : WFc c -> wf_al a s -> WFc (set_al c a s).
Proof. intros (W1 & W2 & W3 & W4) H. split; [exact W1|split; [exact W2|split; [exact W3|exact H]]]. Qed.

Lemma wf_al_grow addr slots slots' : wf_al addr slots ->
  (forall n ss, nth_error slots n = Some ss -> ss <> [] -> exists ss', nth_error slots' n = Some ss' /\ ss' <> []) ->
  wf_al addr slots'.
Proof.
  intros W H a i G. destruct (W a i G) as [->|[P [ss [N NE]]]]; [left; reflexivity|].
  right. split; [exact P|exact (H _ ss N NE)].
Qed.

Lemma wf_al_put addr slots a i : wf_al addr slots ->
  i = (-1)%Z \/ ((0 <= i)%Z /\ exists ss, nth_error slots (Z.to_nat i) = Some ss /\ ss <> []) ->
  wf_al (put a i addr) slots.
Proof.
  intros W H a0 i0. rewrite get_put. destruct (keqb a0 a); [intros E; inversion E; subst i0; exact H|apply W].
Qed.

(* accessList.AddSlot in its two forms: a first slot set appended for the address, a slot added to the set it has *)
Lemma wf_al_first addr slots a s : wf_al addr slots ->
  wf_al (put a (Z.of_nat (length slots)) addr) (slots ++ [[(s, tt)]]).
Proof.
  intros W. apply wf_al_put.
  - apply (wf_al_grow addr slots); [exact W|]. intros n ss N NE. exists ss.
    split; [rewrite nth_error_app1; [exact N|apply nth_error_Some; congruence]|exact NE].
  - right. split; [apply Nat2Z.is_nonneg|]. rewrite Nat2Z.id, nth_error_app_mid.
    eexists; split; [reflexivity|discriminate].
Qed.

Lemma wf_al_more addr slots n s ss : wf_al addr slots -> nth_error slots n = Some ss ->
  wf_al addr (replace_nth n (put s tt ss) slots).
Proof.
  intros W N. apply (wf_al_grow addr slots); [exact W|]. intros k ss0 N0 NE0.
  destruct (Nat.eq_dec k n) as [->|E].
  - rewrite (nth_error_replace_nth_same _ _ _ _ N). eexists; split; [reflexivity|]. intros H.
    pose proof (get_put_same s tt ss) as X. rewrite H in X. discriminate X.
  - rewrite nth_error_replace_nth_other by exact E. exists ss0. auto.
Qed.

Lemma forallb_get {V} (f : key * V -> bool) (m : smap V) k v :
  sorted m -> forallb f m = true -> get k m = Some v -> f (k, v) = true.
Proof.
  intros S F G. rewrite forallb_forall in F. apply F. apply get_in; assumption.
Qed.

Lemma nzb_nz m : sortedb m = true -> nzb m = true -> nz m.
Proof.
  intros S Z k G. apply sortedb_sorted in S.
  pose proof (forallb_get _ _ _ _ S Z G) as H. cbn in H. discriminate.
Qed.

Lemma wf_coreb_WFc c : wf_coreb c = true -> WFc c.
Proof.
  unfold wf_coreb. intros H.
  apply andb_prop in H as [H Al]. apply andb_prop in H as [H _]. apply andb_prop in H as [H Sa].
  apply andb_prop in H as [H Zt]. apply andb_prop in H as [H St]. apply andb_prop in H as [Ho So].
  split; [|split; [|split]].
  - intros a o G.
    pose proof (forallb_get _ _ _ _ (sortedb_sorted _ So) Ho G) as E. cbn in E.
    apply andb_prop in E as [E1 E2]. split; [apply sortedb_sorted; exact E1|apply nzb_nz; assumption].
  - apply sortedb_sorted; exact St.
  - apply nzb_nz; assumption.
  - intros a i G. pose proof (forallb_get _ _ _ _ (sortedb_sorted _ Sa) Al G) as E.
    unfold wf_al_entryb in E. cbn [snd] in E.
    destruct (Z.ltb_spec i 0) as [Li|Li]; [left; apply Z.eqb_eq; exact E|]. right. split; [exact Li|].
    destruct (nth_error (al_slots c) (Z.to_nat i)) as [[|x ss]|] eqn:N; try discriminate.
    exists (x :: ss). split; [reflexivity|discriminate].
Qed.

Lemma rewind_core_ge n c j : length j <= n -> rewind_core n c j = Some (c, j).
Proof.
  destruct j as [|e j]; cbn [rewind_core]; [reflexivity|]. intros H.
  destruct (Nat.ltb n (length (e :: j))) eqn:E; [|reflexivity].
  apply Nat.ltb_lt in E. lia.
Qed.

Lemma rewind_core_lt n c e j : n < length (e :: j) ->
  rewind_core n c (e :: j) = match undo_core e c with Some c' => rewind_core n c' j | None => None end.
Proof.
  intros H. cbn [rewind_core]. destruct (Nat.ltb n (length (e :: j))) eqn:E; [reflexivity|].
  apply Nat.ltb_ge in E. lia.
Qed.

Lemma rewind_core_skipn n c j c' j' : rewind_core n c j = Some (c', j') -> j' = skipn (length j - n) j.
Proof.
  revert c; induction j as [|e j IH]; intros c.
  - cbn. intros H; inversion H; reflexivity.
  - destruct (Nat.lt_ge_cases n (length (e :: j))) as [E|E].
    + rewrite rewind_core_lt by exact E. destruct (undo_core e c) as [c1|]; [|discriminate].
      intros H. apply IH in H. cbn [length] in *. replace (S (length j) - n) with (S (length j - n)) by lia. exact H.
    + rewrite rewind_core_ge by exact E. intros H; inversion H; subst.
      replace (length (e :: j) - n) with 0 by lia. reflexivity.
Qed.

Lemma rewind_core_length n c j c' j' : rewind_core n c j = Some (c', j') -> length j' = Nat.min n (length j).
Proof. intros H. rewrite (rewind_core_skipn _ _ _ _ _ H), skipn_length. lia. Qed.

Lemma rewind_core_compose n m c j c' j' :
  n <= m -> rewind_core m c j = Some (c', j') -> rewind_core n c j = rewind_core n c' j'.
Proof.
  intros L. revert c; induction j as [|e j IH]; intros c.
  - cbn. intros H; inversion H; subst. reflexivity.
  - destruct (Nat.lt_ge_cases m (length (e :: j))) as [E|E].
    + rewrite rewind_core_lt by exact E. rewrite rewind_core_lt by lia.
      destruct (undo_core e c) as [c1|]; [|discriminate]. apply IH.
    + rewrite rewind_core_ge by exact E. intros H; inversion H; subst. reflexivity.
Qed.

Lemma rewind_dirt_ge n d j : length j <= n -> rewind_dirt n d j = d.
Proof.
  destruct j as [|e j]; cbn [rewind_dirt]; [reflexivity|]. intros H.
  destruct (Nat.ltb n (length (e :: j))) eqn:E; [|reflexivity]. apply Nat.ltb_lt in E. lia.
Qed.

(* not an instance of [ext] (Lib/C12_Laws.v): [rewind_core] is partial, a revert may panic *)
Definition extc (x y : core * list entry) : Prop :=
  exists es, snd y = es ++ snd x /\ rewind_core (length (snd x)) (fst y) (snd y) = Some x.

Lemma extc_refl x : extc x x.
Proof. exists []. split; [reflexivity|]. destruct x as [c j]. apply rewind_core_ge. cbn. lia. Qed.

Lemma extc_trans x y z : extc x y -> extc y z -> extc x z.
Proof.
  intros [es1 [E1 R1]] [es2 [E2 R2]]. exists (es2 ++ es1). split.
  - rewrite E2, E1. apply app_assoc.
  - destruct y as [cy jy]. cbn [fst snd] in *.
    rewrite (rewind_core_compose (length (snd x)) (length jy) _ _ _ _ ltac:(rewrite E1, app_length; lia) R2).
    exact R1.
Qed.

Definition cj (m : mstate) : core * list entry := (m_core m, m_jr m).
Definition extm (m m' : mstate) : Prop := extc (cj m) (cj m').

Lemma extm_append m e c' : undo_core e c' = Some (m_core m) -> extm m (with_core (append e m) c').
Proof.
  intros U. exists [e]. split; [reflexivity|]. cbn [cj fst snd with_core append m_core m_jr].
  rewrite rewind_core_lt by (cbn; lia). rewrite U. apply rewind_core_ge. lia.
Qed.

Lemma extm_same_cj m m' : cj m' = cj m -> extm m m'.
Proof. intros E. unfold extm. rewrite E. apply extc_refl. Qed.

Lemma extm_length m m' : extm m m' -> length (m_jr m) <= length (m_jr m').
Proof. intros [es [E _]]. cbn in E. rewrite E, app_length. lia. Qed.

Lemma extm_rewind m m' n : extm m m' -> n <= length (m_jr m) ->
  rewind_core n (m_core m') (m_jr m') = rewind_core n (m_core m) (m_jr m).
Proof.
  intros [es [E R]] L. cbn [cj fst snd] in *.
  apply (rewind_core_compose n (length (m_jr m))); [exact L|exact R].
Qed.

Lemma live_get a c o : live a c = Some o -> get a (objs c) = Some o /\ a_del o = false.
Proof.
  unfold live. destruct (get a (objs c)) as [o'|]; [|discriminate].
  destruct (a_del o') eqn:D; [discriminate|]. intros H; inversion H; subst; auto.
Qed.

Lemma live_put a o c : a_del o = false -> live a (set_objs c (put a o (objs c))) = Some o.
Proof. intros D. unfold live. cbn. rewrite get_put_same, D. reflexivity. Qed.

Lemma undo_obj_live a g c o : live a c = Some o -> undo_obj a g c = Some (set_objs c (put a (g o) (objs c))).
Proof. unfold undo_obj. intros ->. reflexivity. Qed.

(* accessList.DeleteSlot after either form of AddSlot; after the first the address goes back to -1 ("no slots"),
   whatever it was before *)
Lemma undo_al_first c a s addr :
  undo_core (EALSlot a s) (set_al c (put a (Z.of_nat (length (al_slots c))) addr) (al_slots c ++ [[(s, tt)]]))
  = Some (set_al c (put a (-1)%Z addr) (al_slots c)).
Proof.
  cbn [undo_core al_addr al_slots set_al]. rewrite get_put_same.
  rewrite (proj2 (Z.ltb_ge _ 0) (Nat2Z.is_nonneg _)), Nat2Z.id, nth_error_app_mid. cbn [del]. rewrite kcmp_refl.
  rewrite put_put_same, firstn_app_length. reflexivity.
Qed.

Lemma undo_al_more c a s i ss : get a (al_addr c) = Some i -> Z.ltb i 0 = false ->
  nth_error (al_slots c) (Z.to_nat i) = Some ss -> ss <> [] -> get s ss = None ->
  undo_core (EALSlot a s) (set_al c (al_addr c) (replace_nth (Z.to_nat i) (put s tt ss) (al_slots c))) = Some c.
Proof.
  intros G Li N NE Gs. cbn [undo_core al_addr al_slots set_al]. rewrite G, Li.
  rewrite (nth_error_replace_nth_same _ _ _ _ N), del_put_absent by exact Gs.
  destruct ss as [|x ss]; [congruence|]. rewrite replace_nth_restore by exact N. exact (f_equal Some (set_al_id c)).
Qed.

Section Wrote.
Variables (K : list jkind) (B R : Prop).

(* B: the condition under which reverting an entry undoes its write (it fails for some Suicides: finding F8).
   [wrote_dirty] is the journal.dirty(ripemd) of stateObject.touch, the one step that is not a write, possible
   only under R. *)
Inductive wrote (m : mstate) : mstate -> Prop :=
| wrote_nil : wrote m m
| wrote_step m1 e c' : wrote m m1 -> In (kind_of e) K ->
    (WFc (m_core m1) -> WFc c' /\ (B -> undo_core e c' = Some (m_core m1))) ->
    wrote m (with_core (append e m1) c')
| wrote_dirty m1 : wrote m m1 -> R -> wrote m (mkM (m_core m1) (dinc ripemd (m_dirt m1)) (m_jr m1)).

Lemma wrote_ext m m' : wrote m m' -> WFc (m_core m) -> WFc (m_core m') /\ (B -> extm m m').
Proof.
  induction 1 as [|m1 e c' _ IH _ U|m1 _ IH _]; intros W.
  - split; [exact W|intros _; apply extc_refl].
  - destruct (IH W) as (W1 & E1). destruct (U W1) as (W2 & U2). split; [exact W2|].
    intros b. apply (extc_trans (cj m) (cj m1)); [exact (E1 b)|apply extm_append; exact (U2 b)].
  - exact (IH W).
Qed.

Lemma wrote_kinds m m' : wrote m m' ->
  exists es, m_jr m' = es ++ m_jr m /\ Forall (fun e => In (kind_of e) K) es.
Proof.
  induction 1 as [|m1 e c' _ (es & E & F) Hk _|m1 _ IH _].
  - exists []. split; [reflexivity|constructor].
  - exists (e :: es). split; [cbn; rewrite E; reflexivity|constructor; assumption].
  - exact IH.
Qed.

Lemma wrote_trans m m1 m2 : wrote m m1 -> wrote m1 m2 -> wrote m m2.
Proof.
  intros W1 W2. induction W2 as [|m' e c' _ IH Hk U|m' _ IH r]; [exact W1|exact (wrote_step m m' e c' IH Hk U)|].
  exact (wrote_dirty m m' IH r).
Qed.

Lemma wrote_one m e c' : In (kind_of e) K ->
  (WFc (m_core m) -> WFc c' /\ (B -> undo_core e c' = Some (m_core m))) -> wrote m (with_core (append e m) c').
Proof. exact (wrote_step m m e c' (wrote_nil m)). Qed.

Lemma wrote_upd m1 a ob o' e :
  In (kind_of e) K -> live a (m_core m1) = Some ob -> a_del o' = a_del ob ->
  (sorted (a_stor ob) -> nz (a_stor ob) -> sorted (a_stor o') /\ nz (a_stor o') /\
     (B -> forall c, live a c = Some o' -> undo_core e c = Some (set_objs c (put a ob (objs c))))) ->
  wrote m1 (upd a o' (append e m1)).
Proof.
  intros Hk L D S. apply live_get in L as [G Dl]. rewrite Dl in D.
  apply (wrote_one m1 e (set_objs (m_core m1) (put a o' (objs (m_core m1)))) Hk).
  intros Wc. destruct (proj1 Wc a ob G) as [So Zo]. destruct (S So Zo) as (So' & Zo' & U). split.
  - apply WFc_set_objs; [exact Wc|]. apply wf_objs_put; [apply Wc|exact So'|exact Zo'].
  - intros b. rewrite (U b _ (live_put a o' _ D)). cbn [objs set_objs].
    rewrite set_objs_set_objs, put_put_same, put_present by exact G. rewrite set_objs_id. reflexivity.
Qed.

Lemma wrote_setter {V} (rd : acct -> V) (wr : acct -> V -> acct) (E : V -> entry) m1 a ob v :
  (forall o p, a_stor (wr o p) = a_stor o /\ a_del (wr o p) = a_del o /\ wr (wr o p) (rd o) = o) ->
  (forall p c, undo_core (E p) c = undo_obj a (fun o => wr o p) c) ->
  In (kind_of (E (rd ob))) K -> live a (m_core m1) = Some ob ->
  wrote m1 (upd a (wr ob v) (append (E (rd ob)) m1)).
Proof.
  intros L U Hk Lm. destruct (L ob v) as (Ls & Ld & Lw).
  apply (wrote_upd m1 a ob (wr ob v) (E (rd ob)) Hk Lm Ld).
  rewrite Ls. intros S Z. split; [exact S|split; [exact Z|]].
  intros _ c Lv. rewrite U, (undo_obj_live a _ c _ Lv), Lw. reflexivity.
Qed.

Lemma wrote_set_balance m1 a ob v : In KbalanceChange K ->
  live a (m_core m1) = Some ob -> wrote m1 (obj_set_balance a ob v m1).
Proof. apply (wrote_setter a_bal set_bal (EBalance a)); [intros [] p; auto|reflexivity]. Qed.

Lemma wrote_set_size m1 a ob v : In KsizeChange K ->
  live a (m_core m1) = Some ob -> wrote m1 (obj_set_size a ob v m1).
Proof. apply (wrote_setter a_size set_size (ESize a)); [intros [] p; auto|reflexivity]. Qed.

Lemma wrote_touch m1 a : In KtouchChange K -> (keqb a ripemd = true -> R) -> wrote m1 (touch a m1).
Proof.
  intros Hk Hr.
  assert (W' : wrote m1 (append (ETouch a) m1)).
  { apply (wrote_one m1 (ETouch a) (m_core m1) Hk). intros Wc. split; [exact Wc|reflexivity]. }
  unfold touch. destruct (keqb a ripemd) eqn:E; [|exact W'].
  specialize (Hr eq_refl). apply keqb_eq in E. subst a. exact (wrote_dirty m1 _ W' Hr).
Qed.

(* StateDB.AddAddressToAccessList of an absent address, also the first write of AddSlotToAccessList *)
Lemma wrote_al_account m a : In KaccessListAddAccountChange K -> get a (al_addr (m_core m)) = None ->
  wrote m (with_core (append (EALAccount a) m) (set_al (m_core m) (put a (-1)%Z (al_addr (m_core m))) (al_slots (m_core m)))).
Proof.
  intros Hk G. apply wrote_one; [exact Hk|]. intros W. split.
  - apply WFc_set_al; [exact W|]. apply wf_al_put; [apply W|left; reflexivity].
  - intros _. cbn [undo_core al_addr al_slots set_al]. rewrite del_put_absent by exact G.
    exact (f_equal Some (set_al_id (m_core m))).
Qed.
End Wrote.

(* createObject with [o'] = [new_acct]; CreateAccount carries balance and size over into [o'] *)
Lemma wrote_new_object rest B R a m o' : a_stor o' = [] ->
  wrote (KcreateObjectChange :: KresetObjectChange :: rest) B R m
    (with_core (append (match get a (objs (m_core m)) with None => ECreateObject a | Some p => EResetObject a p end) m)
               (set_objs (m_core m) (put a o' (objs (m_core m))))).
Proof.
  intros E. apply wrote_one.
  - destruct (get a (objs (m_core m))); cbn; auto.
  - intros W. split.
    + apply WFc_set_objs; [exact W|]. apply wf_objs_put; [apply W|rewrite E; exact I|rewrite E; apply nz_nil].
    + intros _. destruct (get a (objs (m_core m))) as [p|] eqn:G; cbn [undo_core objs set_objs]; rewrite set_objs_set_objs.
      * rewrite put_restore by exact G. rewrite set_objs_id. reflexivity.
      * rewrite del_put_absent by exact G. rewrite set_objs_id. reflexivity.
Qed.

Lemma wrote_create_object rest B R a m :
  wrote (KcreateObjectChange :: KresetObjectChange :: rest) B R m (fst (create_object a m)).
Proof. exact (wrote_new_object rest B R a m new_acct eq_refl). Qed.

Lemma get_or_new_spec rest B R a m :
  wrote (KcreateObjectChange :: KresetObjectChange :: rest) B R m (fst (get_or_new a m)) /\
  live a (m_core (fst (get_or_new a m))) = Some (snd (get_or_new a m)).
Proof.
  unfold get_or_new. destruct (live a (m_core m)) as [o|] eqn:L; cbn [fst snd].
  - split; [apply wrote_nil|exact L].
  - split; [apply wrote_create_object|apply live_put; reflexivity].
Qed.

Lemma wrote_al_add_slot B R a s m :
  wrote [KaccessListAddAccountChange; KaccessListAddSlotChange] B R m (al_add_slot a s m).
Proof.
  unfold al_add_slot. set (c := m_core m).
  destruct (get a (al_addr c)) as [i|] eqn:G.
  - destruct (Z.ltb i 0) eqn:Li.
    + (* present without slots: by well-formedness the index is -1, where DeleteSlot puts it back *)
      apply (wrote_one _ B R m (EALSlot a s)); [cbn; auto|]. intros W. pose proof W as (_ & _ & _ & WA). fold c in WA. split.
      * apply WFc_set_al; [exact W|]. apply wf_al_first. exact WA.
      * intros _. cbn [m_core with_core]. rewrite undo_al_first.
        destruct (WA a i G) as [->|[Hpos _]]; [|apply Z.ltb_lt in Li; lia].
        rewrite put_present by exact G. exact (f_equal Some (set_al_id c)).
    + destruct (nth_error (al_slots c) (Z.to_nat i)) as [ss|] eqn:N; [|apply wrote_nil].
      destruct (get s ss) eqn:Gs; [apply wrote_nil|].
      apply (wrote_one _ B R m (EALSlot a s)); [cbn; auto|]. intros W. pose proof W as (_ & _ & _ & WA). fold c in WA. split.
      * apply WFc_set_al; [exact W|]. apply wf_al_more; [exact WA|exact N].
      * intros _. destruct (WA a i G) as [->|[_ [ss' [N' NE]]]]; [discriminate Li|].
        rewrite N in N'. inversion N'; subst ss'. exact (undo_al_more c a s i ss G Li N NE Gs).
  - (* address absent: two entries; the second write starts from the address at -1 *)
    apply (wrote_step _ B R m (with_core (append (EALAccount a) m) (set_al c (put a (-1)%Z (al_addr c)) (al_slots c)))
             (EALSlot a s) (set_al c (put a (Z.of_nat (length (al_slots c))) (al_addr c)) (al_slots c ++ [[(s, tt)]])));
      [apply wrote_al_account; [cbn; auto|exact G]|cbn; auto|].
    intros W. cbn [m_core with_core] in W |- *. pose proof (wf_al_first _ _ a s (proj2 (proj2 (proj2 W)))) as WA.
    cbn [al_addr al_slots set_al] in WA. rewrite put_put_same in WA. split; [exact (WFc_set_al _ _ _ W WA)|].
    intros _. exact (undo_al_first c a s (al_addr c)).
Qed.

(* a single write to a part of the core that well-formedness does not speak of *)
Lemma wrote_plain k (B R : Prop) m e c' : kind_of e = k ->
  objs c' = objs (m_core m) -> transient c' = transient (m_core m) ->
  al_addr c' = al_addr (m_core m) -> al_slots c' = al_slots (m_core m) ->
  undo_core e c' = Some (m_core m) -> wrote [k] B R m (with_core (append e m) c').
Proof.
  intros E E1 E2 E3 E4 U. apply wrote_one; [left; symmetry; exact E|]. intros W. split; [|intros _; exact U].
  unfold WFc. rewrite E1, E2, E3, E4. exact W.
Qed.

Lemma wrote_gon rest (B R : Prop) a m (F : mstate -> acct -> mstate * out) :
  (forall m1 ob, live a (m_core m1) = Some ob ->
     wrote (KcreateObjectChange :: KresetObjectChange :: rest) B R m1 (fst (F m1 ob))) ->
  wrote (KcreateObjectChange :: KresetObjectChange :: rest) B R m (fst (let '(m1, ob) := get_or_new a m in F m1 ob)).
Proof.
  intros H. destruct (get_or_new_spec rest B R a m) as (W1 & L).
  destruct (get_or_new a m) as [m1 ob]. exact (wrote_trans _ _ _ _ _ _ W1 (H m1 ob L)).
Qed.

(* false on the mutator calls after which journal.dirties may no longer be the image of the journal *)
Definition dirt_safe (o : op) : bool :=
  match o with
  | OSetSize _ _ | OAddSize _ | OSubSize _ => negb code_rejournal   (* sizeChange.revert re-journals *)
  | OAddBalance a v => negb (keqb a ripemd && Z.eqb v 0)      (* RIPEMD touch stays dirty by design *)
  | _ => true
  end.

Lemma mutate_wrote fx o m :
  wrote (op_kinds o) (benign fx o m = true) (dirt_safe o = false) m (fst (mutate fx o m)).
Proof.
  destruct o; unfold mutate; cbn [op_kinds].   (* one case per mutator, in the order of [op] *)
  - apply wrote_gon. intros m1 ob L. cbn [fst].
    destruct (Z.eqb v 0) eqn:V; cbn [fst].
    + destruct (acct_empty ob); [|apply wrote_nil]. apply wrote_touch; [cbn; tauto|].
      intros E. cbn [dirt_safe]. rewrite E, V. reflexivity.
    + apply wrote_set_balance; [cbn; tauto|exact L].
  - apply wrote_gon. intros m1 ob L. cbn [fst].
    destruct (Z.eqb v 0); cbn [fst]; [apply wrote_nil|]. apply wrote_set_balance; [cbn; tauto|exact L].
  - apply wrote_gon. intros m1 ob. apply wrote_set_balance. cbn; tauto.
  - apply wrote_gon. intros m1 ob.
    apply (wrote_setter _ _ _ a_nonce set_nonce (ENonce a)); [intros [] p; auto|reflexivity|cbn; tauto].
  - apply wrote_gon. intros m1 ob.
    apply (wrote_setter _ _ _ a_code set_code (ECode a)); [intros [] p; auto|reflexivity|cbn; tauto].
  - apply wrote_gon. intros m1 ob L. cbn [fst].
    destruct (N.eqb (getw k (a_stor ob)) v); cbn [fst]; [apply wrote_nil|].
    apply (wrote_upd _ _ _ m1 a ob (set_stor ob (setw k v (a_stor ob))) (EStorage a k (getw k (a_stor ob))));
      [cbn; tauto|exact L|reflexivity|].
    intros S Z. cbn [a_stor set_stor]. split; [apply setw_sorted; exact S|split; [apply setw_nz; assumption|]].
    intros _ c Lv. cbn [undo_core]. rewrite (undo_obj_live a _ c _ Lv). cbn [a_stor set_stor].
    rewrite setw_restore by assumption. destruct ob; reflexivity.
  - (* Suicide: the entry restores the size counter only in the repaired variant *)
    destruct (live a (m_core m)) as [ob|] eqn:L; cbn [fst]; [|apply wrote_nil].
    apply (wrote_upd _ _ _ m a ob _ (ESuicide a (a_suic ob) (a_bal ob) (if fx then Some (a_size ob) else None)));
      [cbn; tauto|exact L|reflexivity|].
    intros S Z. split; [exact S|split; [exact Z|]]. cbn [benign]. rewrite L.
    intros Bn c Lv. cbn [undo_core]. rewrite Lv.
    destruct fx; cbn [orb] in Bn; [destruct ob; reflexivity|].
    apply Z.eqb_eq in Bn. destruct ob; cbn in *; subst; reflexivity.
  - (* CreateAccount: the balance and size carried over from a live predecessor are part of the same write *)
    pose proof (wrote_new_object [] (benign fx (OCreateAccount a) m = true) (dirt_safe (OCreateAccount a) = false) a m) as W.
    unfold create_object. destruct (get a (objs (m_core m))) as [p|]; [|exact (W new_acct eq_refl)].
    destruct (a_del p); cbn [fst]; [exact (W new_acct eq_refl)|].
    unfold upd, with_objs. cbn [m_core with_core objs set_objs]. rewrite put_put_same. apply W. reflexivity.
  - exact (proj1 (get_or_new_spec [] _ _ a m)).
  - apply wrote_gon. intros m1 ob. apply wrote_set_size. cbn; tauto.
  - apply wrote_gon. intros m1 ob. apply wrote_set_size. cbn; tauto.
  - apply wrote_gon. intros m1 ob. apply wrote_set_size. cbn; tauto.
  - apply wrote_plain; try reflexivity. cbn [m_core append undo_core logs logsize set_logs].
    rewrite removelast_last, N.add_sub. destruct (m_core m); reflexivity.
  - destruct (get h (preim (m_core m))) eqn:G; cbn [fst]; [apply wrote_nil|].
    apply wrote_plain; try reflexivity. cbn [m_core append undo_core preim set_preim].
    rewrite del_put_absent by exact G. destruct (m_core m); reflexivity.
  - apply wrote_plain; try reflexivity. cbn [m_core append undo_core]. destruct (m_core m); reflexivity.
  - (* SubRefund: the entry is appended before the panic *)
    cbn [m_core append]. destruct (N.ltb (refund (m_core m)) g); cbn [fst].
    + apply (wrote_plain _ _ _ m (ERefund (refund (m_core m))) (m_core m)); try reflexivity.
      cbn [undo_core]. rewrite set_refund_id. reflexivity.
    + apply wrote_plain; try reflexivity. cbn [m_core append undo_core]. destruct (m_core m); reflexivity.
  - destruct (get a (al_addr (m_core m))) eqn:G; cbn [fst]; [apply wrote_nil|].
    apply wrote_al_account; [cbn; auto|exact G].
  - apply wrote_al_add_slot.
  - destruct (N.eqb (getw (a ++ k) (transient (m_core m))) v); cbn [fst]; [apply wrote_nil|].
    apply wrote_one; [left; reflexivity|]. intros (W1 & St & Zt & W4). split.
    + split; [exact W1|]. cbn [transient set_transient al_addr al_slots m_core append].
      split; [apply setw_sorted; exact St|split; [apply setw_nz; assumption|exact W4]].
    + intros _. cbn [m_core append undo_core transient set_transient]. rewrite setw_restore by assumption.
      destruct (m_core m); reflexivity.
  - apply wrote_nil.
  - apply wrote_nil.
Qed.

Lemma mutate_ext fx o m : WFc (m_core m) -> benign fx o m = true -> extm m (fst (mutate fx o m)).
Proof. intros W. apply (wrote_ext _ _ _ m _ (mutate_wrote fx o m) W). Qed.

Lemma mutate_WFc fx o m : WFc (m_core m) -> WFc (m_core (fst (mutate fx o m))).
Proof. intros W. apply (wrote_ext _ _ _ m _ (mutate_wrote fx o m) W). Qed.

Lemma SS_app_iff {A} (R : A -> A -> Prop) l1 l2 : StronglySorted R (l1 ++ l2) <->
  StronglySorted R l1 /\ StronglySorted R l2 /\ (forall a b, In a l1 -> In b l2 -> R a b).
Proof.
  induction l1 as [|h t IH]; cbn [app].
  - split; [intros S; repeat split; [constructor|exact S|intros a b []]|intros (_ & S & _); exact S].
  - split.
    + intros S. apply StronglySorted_inv in S as [S F]. apply IH in S as (S1 & S2 & Rel). apply Forall_app in F as [F1 F2].
      repeat split; [constructor; assumption|exact S2|]. intros a b [<-|Ha] Hb; [|exact (Rel a b Ha Hb)].
      exact (proj1 (Forall_forall _ _) F2 b Hb).
    + intros (S1 & S2 & Rel). apply StronglySorted_inv in S1 as [S1 F1]. constructor.
      * apply IH. repeat split; [exact S1|exact S2|]. intros a b Ha. apply Rel. right. exact Ha.
      * apply Forall_app. split; [exact F1|]. apply Forall_forall. intros b Hb. apply Rel; [left; reflexivity|exact Hb].
Qed.

Lemma step_mut fx x o : is_mut o = true ->
  s_m (fst (step fx x o)) = fst (mutate fx o (s_m x)) /\
  s_revs (fst (step fx x o)) = s_revs x /\ s_next (fst (step fx x o)) = s_next x /\
  snd (step fx x o) = snd (mutate fx o (s_m x)).
Proof.
  intros H. destruct o; try discriminate; unfold step;
    destruct (mutate fx _ (s_m x)) as [m' r]; cbn; auto.
Qed.

Lemma search_rev_spec id l k i r :
  search_rev id l k = Some (i, r) -> exists l1 l2, l = l1 ++ r :: l2 /\ i = k + length l1.
Proof.
  revert k; induction l as [|h t IH]; intros k; cbn [search_rev]; [discriminate|].
  destruct (N.leb id (fst h)).
  - intros H; inversion H; subst. exists [], t. split; [reflexivity|cbn; lia].
  - intros H. destruct (IH _ H) as (l1 & l2 & -> & ->). exists (h :: l1), l2. split; [reflexivity|cbn; lia].
Qed.

Lemma search_rev_found id n l1 l2 k :
  (forall r', In r' l1 -> (fst r' < id)%N) ->
  search_rev id (l1 ++ (id, n) :: l2) k = Some (k + length l1, (id, n)).
Proof.
  revert k; induction l1 as [|h t IH]; intros k F; cbn [search_rev app length].
  - cbn [fst]. rewrite N.leb_refl, Nat.add_0_r. reflexivity.
  - rewrite (proj2 (N.leb_gt id (fst h)) (F h (or_introl eq_refl))).
    rewrite IH by (intros r' Hr; apply F; right; exact Hr). rewrite Nat.add_succ_r. reflexivity.
Qed.

Lemma step_revert fx x id :
  step fx x (ORevert id) = (x, OutPanic) \/
  exists l1 n l2, s_revs x = l1 ++ (id, n) :: l2 /\
    step fx x (ORevert id) =
    match rewind n (s_m x) with
    | Some m' => (mkSdb m' l1 (s_next x) (s_added x) (s_removed x), OutNone)
    | None => (x, OutCrash)
    end.
Proof.
  cbn [step]. destruct (search_rev id (s_revs x) 0) as [[i [id' n]]|] eqn:S; [|left; reflexivity].
  destruct (N.eqb_spec id' id) as [->|]; [|left; reflexivity].
  apply search_rev_spec in S as (l1 & l2 & E & ->). right. exists l1, n, l2. split; [exact E|].
  cbn [Nat.add]. rewrite E, firstn_app_length. reflexivity.
Qed.

Definition Rrev (r1 r2 : N * nat) : Prop := (fst r1 < fst r2)%N /\ snd r1 <= snd r2.

Record Inv (x : sdb) : Prop := mkInv {
  inv_wf : WFc (m_core (s_m x));
  inv_ids : forall r, In r (s_revs x) -> (fst r < s_next x)%N;
  inv_sorted : StronglySorted Rrev (s_revs x);
  inv_idx : forall r, In r (s_revs x) -> snd r <= length (m_jr (s_m x));
  inv_back : forall r, In r (s_revs x) ->
      exists c j, rewind_core (snd r) (m_core (s_m x)) (m_jr (s_m x)) = Some (c, j) /\ WFc c
}.

Lemma Inv_fresh c d n : WFc c -> Inv (fresh c d n).
Proof.
  intros W. constructor; cbn; try (intros ? []); [exact W|constructor].
Qed.

Lemma Inv_at x id n l1 l2 : Inv x -> s_revs x = l1 ++ (id, n) :: l2 ->
  (forall r, In r l1 -> (fst r < id)%N /\ snd r <= n) /\ n <= length (m_jr (s_m x)) /\
  exists c j, rewind_core n (m_core (s_m x)) (m_jr (s_m x)) = Some (c, j) /\ WFc c.
Proof.
  intros I E.
  assert (Hin : In (id, n) (s_revs x)) by (rewrite E; apply in_elt).
  split; [|split; [exact (inv_idx x I _ Hin)|exact (inv_back x I _ Hin)]].
  intros r Hr. pose proof (inv_sorted x I) as Srt. rewrite E in Srt.
  apply SS_app_iff in Srt as (_ & _ & Rel). apply (Rel r (id, n) Hr). left. reflexivity.
Qed.

Lemma Inv_step fx x o : Inv x -> benign fx o (s_m x) = true -> Inv (fst (step fx x o)).
Proof.
  intros I B. pose proof I as [W Ids Srt Idx Back].
  destruct (is_mut o) eqn:M.
  - destruct (step_mut fx x o M) as (E1 & E2 & E3 & _).
    pose proof (mutate_ext fx o (s_m x) W B) as X.
    constructor; rewrite ?E1, ?E2, ?E3; auto.
    + apply mutate_WFc. exact W.
    + intros r Hr. pose proof (Idx r Hr). pose proof (extm_length _ _ X). lia.
    + intros r Hr. rewrite (extm_rewind _ _ _ X (Idx r Hr)). apply Back. exact Hr.
  - destruct o; try discriminate.
    + cbn [step fst]. constructor; cbn [s_m s_revs s_next].
      * exact W.
      * intros r Hr. apply in_app_or in Hr as [Hr|[<-|[]]]; [pose proof (Ids r Hr); lia|cbn; lia].
      * apply SS_app_iff. split; [exact Srt|split; [repeat constructor|]].
        intros a b Ha [<-|[]]. split; cbn; [apply Ids; exact Ha|apply Idx; exact Ha].
      * intros r Hr. apply in_app_or in Hr as [Hr|[<-|[]]]; [apply Idx; exact Hr|cbn; lia].
      * intros r Hr. apply in_app_or in Hr as [Hr|[<-|[]]]; [apply Back; exact Hr|].
        cbn [snd]. exists (m_core (s_m x)), (m_jr (s_m x)). split; [apply rewind_core_ge; lia|exact W].
    + destruct (step_revert fx x id) as [P|(l1 & n & l2 & E & St)]; [rewrite P; exact I|].
      destruct (Inv_at x id n l1 l2 I E) as (Le & Ln & c & j & R & Wc).
      rewrite St. unfold rewind. rewrite R. cbn [fst].
      pose proof (rewind_core_length _ _ _ _ _ R) as Lj.
      assert (forall r, In r l1 -> In r (s_revs x)) as Sub by (intros r Hr; rewrite E; apply in_or_app; left; exact Hr).
      constructor; cbn [s_m s_revs s_next m_core m_jr].
      * exact Wc.
      * intros r Hr. apply Ids. apply Sub. exact Hr.
      * rewrite E in Srt. apply SS_app_iff in Srt. apply Srt.
      * intros r Hr. pose proof (proj2 (Le r Hr)). lia.
      * intros r Hr. rewrite <- (rewind_core_compose (snd r) n _ _ _ _ (proj2 (Le r Hr)) R). apply Back. apply Sub. exact Hr.
Qed.

Fixpoint all_benign (fx : bool) (x : sdb) (ops : list op) : bool :=
  match ops with
  | [] => true
  | o :: t => benign fx o (s_m x) && all_benign fx (fst (step fx x o)) t
  end.

Lemma benign_fixed o m : benign true o m = true.
Proof. destruct o; reflexivity. Qed.

Lemma all_benign_fixed x ops : all_benign true x ops = true.
Proof. revert x; induction ops as [|o t IH]; intros x; cbn; [reflexivity|]. rewrite benign_fixed, IH. reflexivity. Qed.

Lemma Inv_run fx ops : forall x, Inv x -> all_benign fx x ops = true -> Inv (run fx x ops).
Proof.
  induction ops as [|o t IH]; intros x I B; cbn in *; [exact I|].
  apply andb_prop in B as [B1 B2]. apply IH; [apply Inv_step; assumption|exact B2].
Qed.

(* snapshot [id], taken in x, is still a valid revision of y, and the journal of y rewinds to exactly x's state *)
Definition anchored (x y : sdb) (id : N) : Prop :=
  exists top, s_revs y = s_revs x ++ (id, length (m_jr (s_m x))) :: top /\
    rewind_core (length (m_jr (s_m x))) (m_core (s_m y)) (m_jr (s_m y)) = Some (m_core (s_m x), m_jr (s_m x)).

Lemma anchored_self fx y : anchored y (fst (step fx y OSnapshot)) (s_next y).
Proof. exists []. cbn. split; [reflexivity|]. apply rewind_core_ge. lia. Qed.

Lemma anchored_mut fx x y o id :
  Inv y -> benign fx o (s_m y) = true -> is_mut o = true -> anchored x y id ->
  anchored x (fst (step fx y o)) id.
Proof.
  intros I B M (top & Er & Rw).
  assert (Ln : length (m_jr (s_m x)) <= length (m_jr (s_m y))) by (apply (inv_idx y I (id, _)); rewrite Er; apply in_elt).
  destruct (step_mut fx y o M) as (E1 & E2 & _). exists top. rewrite E1, E2. split; [exact Er|].
  rewrite (extm_rewind _ _ _ (mutate_ext fx o (s_m y) (inv_wf y I) B) Ln). exact Rw.
Qed.

Lemma anchored_snapshot fx x y id : anchored x y id -> anchored x (fst (step fx y OSnapshot)) id.
Proof.
  intros (top & Er & Rw). cbn [step fst]. exists (top ++ [(s_next y, length (m_jr (s_m y)))]). cbn [s_revs s_m].
  split; [|exact Rw]. rewrite Er, <- app_assoc. reflexivity.
Qed.

Lemma revert_anchored fx x y id :
  (forall r, In r (s_revs x) -> (fst r < id)%N) -> anchored x y id ->
  step fx y (ORevert id) =
  (mkSdb (mkM (m_core (s_m x)) (rewind_dirt (length (m_jr (s_m x))) (m_dirt (s_m y)) (m_jr (s_m y))) (m_jr (s_m x)))
         (s_revs x) (s_next y) (s_added y) (s_removed y), OutNone).
Proof.
  intros Old (top & Er & Rw). cbn [step]. rewrite Er, search_rev_found by exact Old. cbn [Nat.add].
  rewrite N.eqb_refl. unfold rewind. rewrite Rw, firstn_app_length. reflexivity.
Qed.

(* [id < s_next y]: the id is never handed out again.  A later revert either leaves our revision on the stack,
   and then rewinding further passes through the same states, or it takes the id off for good. *)
Definition tracked (x y : sdb) (id : N) : Prop :=
  (id < s_next y)%N /\ (In id (map fst (s_revs y)) -> anchored x y id).

Lemma tracked_step fx x y o id :
  (forall r, In r (s_revs x) -> (fst r < id)%N) -> Inv y -> benign fx o (s_m y) = true ->
  tracked x y id -> tracked x (fst (step fx y o)) id.
Proof.
  intros Old I B [Lt A]. destruct (is_mut o) eqn:M.
  - destruct (step_mut fx y o M) as (_ & E2 & E3 & _). unfold tracked. rewrite E2, E3.
    split; [exact Lt|]. intros Hin. apply anchored_mut; auto.
  - destruct o; try discriminate.
    + split; cbn [step fst s_revs s_next]; [lia|]. rewrite map_app, in_app_iff.
      intros [Hin|[Hin|[]]]; [|cbn in Hin; lia]. apply (anchored_snapshot fx). exact (A Hin).
    + destruct (step_revert fx y id0) as [P|(l1 & n' & l2 & E & St)]; [rewrite P; split; assumption|].
      destruct (Inv_at y id0 n' l1 l2 I E) as (Le & _ & c & j & R & _).
      rewrite St. unfold rewind. rewrite R. cbn [fst].
      split; cbn [s_revs s_next s_m m_core m_jr]; [exact Lt|]. intros Hin.
      (* our id is among the revisions that stay: they are not all older than our snapshot *)
      assert (NSub : ~ (forall r, In r l1 -> In r (s_revs x))).
      { intros Sub. apply in_map_iff in Hin as (r & Hr1 & Hr2). specialize (Old r (Sub r Hr2)). lia. }
      destruct A as (top & Er & Rw); [rewrite E, map_app; apply in_or_app; left; exact Hin|].
      set (n := length (m_jr (s_m x))) in *.
      rewrite Er in E. symmetry in E. apply app_eq_app in E as [l [[E1 E2]|[E1 E2]]].
      * destruct l as [|r0 l]; [exfalso; apply NSub; rewrite E1, app_nil_r; auto|].
        cbn in E2. inversion E2; subst r0 top. exists l. cbn [s_revs s_m m_core m_jr]. fold n. split; [exact E1|].
        assert (n <= n') as Len by (apply (Le (id, n)); rewrite E1; apply in_elt).
        rewrite <- (rewind_core_compose n n' _ _ _ _ Len R). exact Rw.
      * exfalso. apply NSub. intros r Hr. rewrite E1. apply in_or_app. left. exact Hr.
Qed.

Lemma tracked_run fx x id ops : forall y,
  (forall r, In r (s_revs x) -> (fst r < id)%N) ->
  Inv y -> all_benign fx y ops = true -> tracked x y id -> tracked x (run fx y ops) id.
Proof.
  induction ops as [|o t IH]; intros y Old I B T; cbn in *; [exact T|].
  apply andb_prop in B as [B1 B2].
  apply IH; [exact Old|apply Inv_step; assumption|exact B2|apply tracked_step; assumption].
Qed.

(* The main lemma: any history after a snapshot, then revert to it. *)
Lemma revert_restores_gen fx x ops :
  Inv x ->
  let id := s_next x in
  let x1 := fst (step fx x OSnapshot) in
  all_benign fx x1 ops = true ->
  let x2 := run fx x1 ops in
  In id (map fst (s_revs x2)) ->
  snd (step fx x2 (ORevert id)) = OutNone /\
  m_core (s_m (fst (step fx x2 (ORevert id)))) = m_core (s_m x) /\
  m_jr (s_m (fst (step fx x2 (ORevert id)))) = m_jr (s_m x) /\
  s_revs (fst (step fx x2 (ORevert id))) = s_revs x.
Proof.
  intros I id x1 B x2 Hin.
  assert (I1 : Inv x1) by (apply Inv_step; [exact I|reflexivity]).
  assert (T1 : tracked x x1 id) by (split; [cbn; lia|intros _; apply anchored_self]).
  destruct (tracked_run fx x id ops x1 (inv_ids x I) I1 B T1) as [_ A2].
  rewrite (revert_anchored fx x x2 id (inv_ids x I) (A2 Hin)). cbn [fst snd s_m s_revs m_core m_jr]. auto.
Qed.

Fixpoint frame_ind' (P : frame -> Prop) (HOp : forall o, P (FOp o))
    (HCall : forall body e, Forall P body -> P (FCall body e)) (f : frame) : P f :=
  match f with
  | FOp o => HOp o
  | FCall body e =>
      HCall body e (Forall_all P (frame_ind' P HOp HCall) body)
  end.

(* A preorder, so that it folds over a body ([fold_left_preorder]); the flag only ever falls, hence everything
   is said under its value at the end. *)
Definition framed (a b : sdb * bool) : Prop :=
  snd b = true -> snd a = true /\
    (Inv (fst a) -> Inv (fst b) /\ (s_next (fst a) <= s_next (fst b))%N /\
       forall x id, anchored x (fst a) id -> anchored x (fst b) id).

Lemma framed_refl a : framed a a.
Proof. intros H. split; [exact H|]. intros I. split; [exact I|split; [lia|auto]]. Qed.

Lemma framed_trans a b c : framed a b -> framed b c -> framed a c.
Proof.
  intros H1 H2 Hc. destruct (H2 Hc) as (Hb & K2). destruct (H1 Hb) as (Ha & K1). split; [exact Ha|].
  intros I. destruct (K1 I) as (I1 & N1 & A1). destruct (K2 I1) as (I2 & N2 & A2).
  split; [exact I2|split; [lia|]]. intros x id A. apply A2. apply A1. exact A.
Qed.

Lemma failed_call fx y b r :
  framed (fst (step fx y OSnapshot), b) r -> Inv y -> snd r = true ->
  let y' := fst (step fx (fst r) (ORevert (s_next y))) in
  m_core (s_m y') = m_core (s_m y) /\ m_jr (s_m y') = m_jr (s_m y) /\ s_revs y' = s_revs y /\
  (s_next y <= s_next y')%N /\ Inv y'.
Proof.
  intros Hb I H. destruct (Hb H) as (_ & K).
  destruct (K (Inv_step fx y OSnapshot I eq_refl)) as (I2 & N2 & A2).
  pose proof (Inv_step fx _ (ORevert (s_next y)) I2 eq_refl) as I'. revert I'. cbv zeta.
  rewrite (revert_anchored fx y _ (s_next y) (inv_ids y I) (A2 y (s_next y) (anchored_self fx y))).
  cbn [step fst s_next s_m s_revs m_core m_jr] in N2 |- *. intros I'.
  split; [reflexivity|split; [reflexivity|split; [reflexivity|split; [lia|exact I']]]].
Qed.

Lemma exec_framed fx oog f : forall a, framed a (exec fx oog f a).
Proof.
  induction f as [o|body e IHb] using frame_ind'; intros [y b]; cbn [exec fst snd].
  - unfold framed. cbn [fst snd]. intros H.
    apply andb_prop in H as [H B]. apply andb_prop in H as [Hb M]. split; [exact Hb|]. intros I.
    split; [apply Inv_step; assumption|split].
    + destruct (step_mut fx y o M) as (_ & _ & E3 & _). rewrite E3. lia.
    + intros x id A. apply anchored_mut; assumption.
  - pose proof (fold_left_preorder framed _ body framed_refl framed_trans IHb (fst (step fx y OSnapshot), b)) as Hb.
    destruct (ending_reverts oog e).
    + unfold framed. cbn [fst snd]. intros H. split; [exact (proj1 (Hb H))|]. intros I.
      destruct (failed_call fx y b _ Hb I H) as (Ec & Ej & Er & En & I').
      split; [exact I'|split; [exact En|]].
      intros x id (top & E1 & E2). exists top. rewrite Er, Ec, Ej. auto.
    + apply (framed_trans _ (fst (step fx y OSnapshot), b)); [|exact Hb].
      intros H. split; [exact H|]. intros I. split; [apply Inv_step; [exact I|reflexivity]|split; [cbn; lia|]].
      intros x id A. apply anchored_snapshot. exact A.
Qed.

Lemma body_framed fx oog body a : framed a (fold_left (fun acc g => exec fx oog g acc) body a).
Proof.
  exact (fold_left_preorder framed _ body framed_refl framed_trans (Forall_all _ (exec_framed fx oog) body) a).
Qed.

(* the image of the journal in journal.dirties, over the counts d0 it started from *)
Fixpoint dirt_of (d0 : smap Z) (j : list entry) : smap Z :=
  match j with
  | [] => d0
  | e :: j' => match dirtied e with Some a => dinc a (dirt_of d0 j') | None => dirt_of d0 j' end
  end.

Definition dpos (d : smap Z) : Prop := forall a c, get a d = Some c -> (0 < c)%Z.

Lemma dpos_dinc a d : dpos d -> dpos (dinc a d).
Proof.
  intros P a0 c. unfold dinc, dcount. rewrite get_put. destruct (keqb a0 a).
  - intros H; inversion H; subst. destruct (get a d) as [c0|] eqn:G; [specialize (P a c0 G)|]; lia.
  - apply P.
Qed.

Lemma dpos_dirt_of d0 j : dpos d0 -> dpos (dirt_of d0 j).
Proof. intros P. induction j as [|e j IH]; cbn; [exact P|]. destruct (dirtied e); [apply dpos_dinc|]; exact IH. Qed.

Lemma ddec_dinc a d : dpos d -> ddec a (dinc a d) = d.
Proof.
  intros P. unfold ddec.
  assert (dcount a (dinc a d) = dcount a d + 1)%Z as H
    by (unfold dcount at 1, dinc; rewrite get_put_same; reflexivity).
  rewrite H, Z.add_simpl_r.
  unfold dinc, dcount. destruct (get a d) as [c|] eqn:G.
  - rewrite (proj2 (Z.eqb_neq c 0)) by (specialize (P a c G); lia). apply put_restore. exact G.
  - cbn. apply del_put_absent. exact G.
Qed.

(* entries whose revert takes one count off journal.dirties, exactly what their append put on *)
Definition not_size (e : entry) : Prop := match e with ESize _ _ => code_rejournal = false | _ => True end.

Lemma undo_dirt_dirt_of d0 e j : dpos d0 -> not_size e -> undo_dirt e (dirt_of d0 (e :: j)) = dirt_of d0 j.
Proof.
  intros P NS. cbn [dirt_of]. destruct e; cbn [undo_dirt dirtied]; try reflexivity;
    try (cbn [not_size] in NS; rewrite NS); apply ddec_dinc; apply dpos_dirt_of; exact P.
Qed.

(* dirties is the image of the journal, and no sizeChange entry is pending while its revert re-journals *)
Definition DI (d0 : smap Z) (m : mstate) : Prop := m_dirt m = dirt_of d0 (m_jr m) /\ Forall not_size (m_jr m).

Lemma rewind_DI d0 n j : dpos d0 -> forall c c' j', rewind_core n c j = Some (c', j') -> Forall not_size j ->
  rewind_dirt n (dirt_of d0 j) j = dirt_of d0 j' /\ Forall not_size j'.
Proof.
  intros P. induction j as [|e j IH]; intros c c' j' R F; cbn [rewind_core rewind_dirt] in *.
  - inversion R; subst. split; [reflexivity|exact F].
  - destruct (Nat.ltb n (length (e :: j))); [|inversion R; subst; split; [reflexivity|exact F]].
    inversion F as [|? ? NS F']; subst. rewrite undo_dirt_dirt_of by assumption.
    destruct (undo_core e c) as [c1|]; [|discriminate]. exact (IH c1 c' j' R F').
Qed.

Lemma wrote_DI K B R d0 m m' : wrote K B R m m' -> ~ R -> (forall e, In (kind_of e) K -> not_size e) ->
  DI d0 m -> DI d0 m'.
Proof.
  intros W NR NS D. induction W as [|m1 e c' _ [D1 F1] Hk _|m1 _ _ r]; [exact D| |contradiction].
  split; cbn [with_core append m_dirt m_jr dirt_of].
  - destruct (dirtied e); rewrite D1; reflexivity.
  - constructor; [apply NS; exact Hk|exact F1].
Qed.

Lemma kinds_not_size o e : dirt_safe o = true -> In (kind_of e) (op_kinds o) -> not_size e.
Proof.
  destruct e; try (intros; exact I). cbn [not_size kind_of].
  destruct o; cbn [dirt_safe op_kinds In]; intros S H; try (apply negb_true_iff; exact S);
    repeat (destruct H as [H|H]; try discriminate H); contradiction.
Qed.

Lemma DI_step d0 fx x o : dpos d0 -> dirt_safe o = true -> DI d0 (s_m x) -> DI d0 (s_m (fst (step fx x o))).
Proof.
  intros P S H. destruct (is_mut o) eqn:M.
  - destruct (step_mut fx x o M) as (E1 & _). rewrite E1.
    apply (wrote_DI _ _ _ d0 _ _ (mutate_wrote fx o (s_m x))); [rewrite S; discriminate| |exact H].
    intros e. apply kinds_not_size. exact S.
  - destruct o; try discriminate.
    + exact H.
    + destruct (step_revert fx x id) as [Pn|(l1 & n & l2 & _ & St)]; rewrite ?Pn, ?St; [exact H|].
      unfold rewind. destruct (rewind_core n (m_core (s_m x)) (m_jr (s_m x))) as [[c j]|] eqn:R; [|exact H].
      destruct H as [D F]. unfold DI. cbn [fst s_m m_dirt m_jr]. rewrite D. exact (rewind_DI d0 n _ P _ _ _ R F).
Qed.

Lemma DI_run d0 fx ops : forall x, dpos d0 -> forallb dirt_safe ops = true -> DI d0 (s_m x) -> DI d0 (s_m (run fx x ops)).
Proof.
  intros x P S. apply (fold_left_inv (fun s => DI d0 (s_m s))). intros s o Ho. apply DI_step; [exact P|].
  exact (proj1 (forallb_forall _ _) S o Ho).
Qed.

Lemma wf_dirtb_dpos d : wf_dirtb d = true -> forall a, get a d <> Some 0%Z.
Proof.
  unfold wf_dirtb. intros H a G. apply andb_prop in H as [S Z]. apply sortedb_sorted in S.
  pose proof (forallb_get _ _ _ _ S Z G) as E. cbn in E. discriminate.
Qed.
