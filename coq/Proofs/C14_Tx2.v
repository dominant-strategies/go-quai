(* C14 — Transaction.ProtoEncode / ProtoDecode model: the well-formed transactions of the three types, their encodings
   as structs, and the round trip at tree level of the Quai and External types (Qi: Proofs/C14_Tx3.v, through its lists). *)
From Coq Require Import List NArith Bool.
From GQ Require Import Lib.Key Lib.C14_Varint Lib.C14_ProtoWire Model.C14 Proofs.C14 Proofs.C14_Tx.
Import ListNotations.
Local Open Scope N_scope.

Definition ohash_nf (o : option bytes) : Prop := match o with Some h => hash_nf h | None => True end.
Definition work_nf (w : workf) : Prop :=
  ohash_nf (w_parent w) /\ ohash_nf (w_mix w) /\ match w_nonce w with Some n => n < u64 | None => True end.
(* unsigned (all zero) or passing crypto.ValidateSignatureValues *)
Definition sig_nf (v r s : N) : Prop := (v = 0 /\ r = 0 /\ s = 0) \/ ecdsa_sane v r s = true.
Definition quai_nf (q : quaitx) : Prop :=
  match q_to q with Some a => addr_nf a | None => True end /\ q_nonce q < u64 /\ q_gas q < u64 /\ wf_bytes (q_data q)
  /\ Forall at_nf (q_al q) /\ sig_nf (q_v q) (q_r q) (q_s q) /\ work_nf (q_work q).
Definition ext_nf (e : exttx) : Prop :=
  addr_nf (e_to e) /\ e_gas e < u64 /\ wf_bytes (e_data e) /\ Forall at_nf (e_al e) /\ hash_nf (e_orig e)
  /\ e_index e < 65536 /\ addr_nf (e_sender e) /\ e_type e < u64.

Lemma ohash_roundtrip o : ohash_nf o ->
  option_map (fun v => hash_of_msg (as_msg v)) (option_map (fun h => FMsg (hash_msg h)) o) = o.
Proof. destruct o as [h|]; [|reflexivity]. intros [Hl _]. cbn [option_map as_msg]. rewrite hash_msg_roundtrip by exact Hl. reflexivity. Qed.

(* the three work fields have the numbers 19 to 21, behind the fields of the type *)
Lemma work_decode_build l w : forallb (fun e => fst e <? 19) l = true -> work_nf w ->
  work_decode (build (l ++ work_entries w)) = w.
Proof.
  intros Hl (Hpa & Hmi & _). unfold work_decode. rewrite !get_field_build.
  rewrite !(lookup_above 19) by (assumption || discriminate).
  cbn [lookup work_entries N.eqb Pos.eqb]. rewrite !lookup_some_none, !ohash_roundtrip by assumption.
  destruct w as [? ? [n|]]; reflexivity.
Qed.

Definition quai_entries (q : quaitx) : list (N * option fval) :=
  [(1, Some (FInt QuaiTxType)); (2, option_map FBytes (q_to q)); (3, Some (FInt (q_nonce q)));
   (4, Some (FBytes (big_bytes (q_value q)))); (5, Some (FInt (q_gas q))); (6, Some (FBytes (q_data q)));
   (7, Some (FBytes (big_bytes (q_chain q)))); (8, Some (FBytes (big_bytes (q_price q))));
   (9, Some (FMsg (al_encode (q_al q)))); (10, Some (FBytes (big_bytes (q_v q))));
   (11, Some (FBytes (big_bytes (q_r q)))); (12, Some (FBytes (big_bytes (q_s q))))] ++ work_entries (q_work q).
Lemma tx_encode_quai c q : tx_encode c (TQuai q) = Some (build (quai_entries q)).
Proof. reflexivity. Qed.

(* Stated for any message, so that in [build (quai_entries q)] each field is looked up on its own, whatever the
   optional To is. *)
Lemma tx_decode_quai d m n va g da ch pr al v r s :
  get_field m 1 = Some (FInt QuaiTxType) -> get_field m 3 = Some (FInt n) -> get_field m 4 = Some (FBytes va) ->
  get_field m 5 = Some (FInt g) -> get_field m 6 = Some (FBytes da) -> get_field m 7 = Some (FBytes ch) ->
  get_field m 8 = Some (FBytes pr) -> get_field m 9 = Some (FMsg al) -> get_field m 10 = Some (FBytes v) ->
  get_field m 11 = Some (FBytes r) -> get_field m 12 = Some (FBytes s) ->
  tx_decode d m =
    if (negb (big_of_bytes v =? 0) || negb (big_of_bytes r =? 0) || negb (big_of_bytes s =? 0))
       && negb (ecdsa_sane (big_of_bytes v) (big_of_bytes r) (big_of_bytes s))
    then DErr
    else DOk (TQuai (mkQuai (option_map (fun x => addr_of_bytes (as_bytes x)) (get_field m 2)) n (big_of_bytes va) g da
                            (big_of_bytes ch) (big_of_bytes pr) (al_decode al)
                            (big_of_bytes v) (big_of_bytes r) (big_of_bytes s) (work_decode m))).
Proof.
  intros H1 H3 H4 H5 H6 H7 H8 H9 H10 H11 H12. unfold tx_decode, has, get_int. rewrite H1.
  (* the type is known: the branches of the two other types go before the fields are looked at *)
  cbn [negb as_int QuaiTxType N.eqb]. unfold get_bytes, get_msg.
  rewrite H3, H4, H5, H6, H7, H8, H9, H10, H11, H12. reflexivity.
Qed.

Lemma quai_tree_roundtrip q d : quai_nf q -> tx_decode d (build (quai_entries q)) = DOk (TQuai q).
Proof.
  intros (Hto & Hn & Hg & Hd & Hal & Hsig & Hw).
  erewrite tx_decode_quai by (rewrite get_field_build; reflexivity).
  rewrite !big_roundtrip, al_roundtrip by exact Hal.
  replace ((negb (q_v q =? 0) || negb (q_r q =? 0) || negb (q_s q =? 0)) && negb (ecdsa_sane (q_v q) (q_r q) (q_s q)))
    with false by (destruct Hsig as [(-> & -> & ->) | ->]; [reflexivity|symmetry; apply andb_false_r]).
  unfold quai_entries at 2. rewrite work_decode_build by (reflexivity || exact Hw).
  (* field 2 is the optional To, looked up last *)
  rewrite get_field_build. destruct q as [[a|] ? ? ? ? ? ? ? ? ? ? ?]; [|reflexivity].
  cbn [quai_entries lookup app option_map N.eqb Pos.eqb as_bytes q_to]. rewrite addr_roundtrip by exact (proj1 Hto). reflexivity.
Qed.

(* evaluation of [tx_decode] on a struct whose fields below 19 are all present and given explicitly *)
Ltac decode_struct :=
  cbn [build app option_map has get_int get_bytes get_msg get_field fst snd N.eqb Pos.eqb negb
       as_int as_bytes as_msg QuaiTxType ExternalTxType QiTxType].

Definition ext_entries (e : exttx) : list (N * option fval) :=
  [(1, Some (FInt ExternalTxType)); (2, Some (FBytes (e_to e))); (4, Some (FBytes (big_bytes (e_value e))));
   (5, Some (FInt (e_gas e))); (6, Some (FBytes (e_data e))); (9, Some (FMsg (al_encode (e_al e))));
   (13, Some (FMsg (hash_msg (e_orig e)))); (14, Some (FInt (e_index e mod 65536)));
   (18, Some (FBytes (e_sender e))); (22, Some (FInt (e_type e)))].
Lemma tx_encode_ext c e : tx_encode c (TExt e) = Some (build (ext_entries e)).
Proof. reflexivity. Qed.

Lemma ext_tree_roundtrip e d : ext_nf e -> tx_decode d (build (ext_entries e)) = DOk (TExt e).
Proof.
  intros (Hto & Hg & Hd & Hal & Ho & Hi & Hs & Ht).
  unfold tx_decode, ext_entries. decode_struct.
  rewrite big_roundtrip, al_roundtrip by exact Hal.
  rewrite hash_msg_roundtrip by exact (proj1 Ho).
  rewrite (addr_roundtrip (e_to e)), (addr_roundtrip (e_sender e)) by (exact (proj1 Hto) || exact (proj1 Hs)).
  rewrite N.mod_mod by discriminate. rewrite N.mod_small by exact Hi. destruct e. reflexivity.
Qed.

Section Qi.
  Variable c d : bytes -> option bytes.

  (* in memory: an uncompressed key that the curve code compresses to 33 bytes and decompresses back *)
  Definition txin_nf (i : txin) : Prop :=
    hash_nf (op_hash (in_prev i)) /\ op_index (in_prev i) < 65536 /\ length (in_pub i) = 65%nat /\
    exists w, c (in_pub i) = Some w /\ length w = 33%nat /\ wf_bytes w /\ d w = Some (in_pub i).
  Definition qi_nf (i : qitx) : Prop :=
    i_ins i <> [] /\ Forall txin_nf (i_ins i) /\ Forall txout_nf (i_outs i) /\ schnorr_ok (i_sig i) = true
    /\ wf_bytes (i_sig i) /\ wf_bytes (i_data i) /\ work_nf (i_work i).
  Definition qi_norm (i : qitx) : qitx :=
    mkQi (i_chain i) (i_ins i) (map txout_norm (i_outs i)) (i_sig i) (i_data i) (i_work i).

  Definition qi_entries (i : qitx) (ins : list msg) : list (N * option fval) :=
    [(1, Some (FInt QiTxType)); (6, Some (FBytes (i_data i))); (7, Some (FBytes (big_bytes (i_chain i))));
     (15, Some (FMsg (map (fun m => (1, FMsg m)) ins)));
     (16, Some (FMsg (map (fun o => (1, FMsg (txout_encode o))) (i_outs i))));
     (17, Some (FBytes (i_sig i)))] ++ work_entries (i_work i).
  Lemma tx_encode_qi i : tx_encode c (TQi i) =
    match all_some (map (txin_encode c) (i_ins i)) with Some ins => Some (build (qi_entries i ins)) | None => None end.
  Proof. reflexivity. Qed.
End Qi.
