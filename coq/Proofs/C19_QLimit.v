(* C19 -- truncateQueue re-establishes the GlobalQueue bound, whatever the eviction order,
   as long as the order lists every account that has queued transactions. *)
From Coq Require Import List NArith Lia.
From GQ Require Import Lib.Lists Model.C19 Proofs.C19_Lists Proofs.C19_Moves Proofs.C19_Struct Proofs.C19_Ops.
Import ListNotations.
Local Open Scope N_scope.

(* atotal sums every entry and aget reads the first one: they agree when there is one entry per account *)
Definition wf (m : amap) : Prop := NoDup (akeys m).

Lemma akeys_adel a m : akeys (adel a m) = filter (fun b => negb (b =? a)) (akeys m).
Proof.
  unfold akeys. induction m as [|[k l] r IH]; cbn; [reflexivity|]. destruct (k =? a) eqn:E; cbn; [exact IH|]. rewrite IH. reflexivity.
Qed.
Lemma wf_adel a m : wf m -> wf (adel a m).
Proof. unfold wf. rewrite akeys_adel. apply NoDup_filter. Qed.
Lemma notin_adel a m : ~ In a (akeys (adel a m)).
Proof. rewrite akeys_adel. intros H. apply filter_In in H as [_ H]. rewrite N.eqb_refl in H. discriminate. Qed.
Lemma wf_aset a l m : wf m -> wf (aset a l m).
Proof.
  intros H. unfold aset. destruct l; [apply wf_adel; exact H|]. unfold wf. cbn. constructor; [apply notin_adel|apply wf_adel; exact H].
Qed.

Lemma atotal_adel a m : wf m -> atotal (adel a m) + len (aget a m) = atotal m.
Proof.
  unfold wf. induction m as [|[k l] r IH]; cbn; [intros _; unfold len; cbn; lia|].
  intros H. inversion H as [|? ? Hn Hd]; subst. specialize (IH Hd). destruct (k =? a) eqn:E.
  - (* a is no key of the rest: the rest loses nothing *)
    assert (k = a) by lia. subst k. rewrite (aget_notin a r Hn) in IH. unfold atotal, len in *. cbn [length] in IH. lia.
  - cbn [fold_right snd]. unfold atotal in IH. lia.
Qed.
Lemma atotal_aset a l m : wf m -> atotal (aset a l m) + len (aget a m) = atotal m + len l.
Proof.
  intros H. pose proof (atotal_adel a m H) as E. unfold aset. destruct l as [|x r]; [unfold len at 2; cbn [length]; lia|].
  unfold atotal in *. cbn [fold_right snd]. lia.
Qed.

Lemma all_empty_total m : wf m -> (forall b, aget b m = []) -> atotal m = 0.
Proof.
  unfold wf. induction m as [|[k l] r IH]; cbn; [reflexivity|]. intros Hn Hall. inversion Hn as [|? ? Hk Hd]; subst.
  pose proof (Hall k) as Ek. cbn in Ek. rewrite N.eqb_refl in Ek. subst l. unfold len at 1. cbn. apply IH; auto.
  intros b. specialize (Hall b). cbn in Hall. destruct (k =? b) eqn:E; [|exact Hall].
  assert (b = k) by lia. subst. apply aget_notin. exact Hk.
Qed.

Definition wfq (p : pool) : Prop := wf (p_queue p).
Lemma wfq_move G p0 q : move G p0 q -> wfq p0 -> wfq q.
Proof.
  intros M H. induction M; try exact IHM; [exact H|apply wf_aset, IHM|]. unfold heap_put. destruct l; exact IHM.
Qed.
Lemma wfq_step c o qo : pres wfq (fun p => fst (step c p o qo)).
Proof. intros p H. apply (wfq_move _ _ _ (mv_step c p o qo)). destruct o; exact H. Qed.

Lemma remove_queued_total c t ob p :
  Inv0 p -> wfq p -> In t (aget (t_from t) (p_queue p)) ->
  atotal (p_queue (remove_tx c t ob p)) + 1 = atotal (p_queue p).
Proof.
  intros H0 Hw Ht. rewrite (remove_tx_queued c t ob p H0 Ht).
  pose proof (atotal_aset (t_from t) (l_remove (t_nonce t) (aget (t_from t) (p_queue p))) (p_queue p) Hw) as E1.
  pose proof (len_l_remove (t_nonce t) _ t (proj1 (ir_queue _ _ _ H0 _)) Ht eq_refl) as E2. lia.
Qed.

Lemma fold_remove_total c a L p :
  Inv0 p -> wfq p -> NoDup L -> (forall t, In t L -> In t (aget a (p_queue p))) ->
  atotal (p_queue (fold_left (fun s t => remove_tx c t true s) L p)) + len L = atotal (p_queue p).
Proof.
  revert p. induction L as [|t L IH]; intros p H0 Hw Hnd HL; cbn [fold_left]; [unfold len; cbn; lia|].
  inversion Hnd as [|? ? Hn Hd]; subst. pose proof (HL t (or_introl eq_refl)) as Ht.
  assert (Ft : t_from t = a) by (apply (proj2 (ir_queue _ _ _ H0 a)), Ht).
  pose proof (remove_queued_total c t true p H0 Hw) as E1. rewrite Ft in E1. specialize (E1 Ht).
  destruct (evict_queued c a [t] p H0) as [_ D]; [intros x [<-|[]]; exact Ht|]. cbn [evict_list fold_left] in D.
  rewrite <- (IH (remove_tx c t true p)) in E1.
  - unfold len in *. cbn [length]. lia.
  - apply remove_tx_inv0, H0.
  - apply (wfq_move (fun _ _ => False) p), Hw. apply mv_remove_tx, mv_refl.
  - exact Hd.
  - intros x Hx. apply D. split; [apply HL; right; exact Hx|]. intros [<-|[]]. exact (Hn Hx).
Qed.

Lemma tq_loop_total c order : forall drop p,
  Inv0 p -> wfq p -> drop <= atotal (p_queue p) -> (forall b, aget b (p_queue p) <> [] -> In b order) ->
  atotal (p_queue (tq_loop c order drop p)) + drop = atotal (p_queue p).
Proof.
  induction order as [|a rest IH]; intros drop p H0 Hw Hle Hcov; cbn [tq_loop].
  - assert (atotal (p_queue p) = 0).
    { apply all_empty_total; [exact Hw|]. intros b. destruct (aget b (p_queue p)) eqn:E; [reflexivity|]. exfalso. apply (Hcov b). rewrite E. discriminate. }
    lia.
  - destruct (drop =? 0) eqn:E0; [lia|].
    pose proof (ir_queue _ _ _ H0 a) as [Sq Oq].
    set (l := aget a (p_queue p)) in *.
    destruct (len l <=? drop) eqn:El.
    + pose proof (fold_remove_total c a l p H0 Hw (sorted_nodup _ Sq) (fun t Ht => Ht)) as C.
      pose proof (evict_queue_queues c a p) as D. unfold evict_list in D. fold l in D.
      set (p1 := fold_left (fun s t => remove_tx c t true s) l p) in *.
      assert (Hx : atotal (p_queue (tq_loop c rest (drop - len l) p1)) + (drop - len l) = atotal (p_queue p1)).
      { apply IH; [apply (evict_list_inv0 c l p H0)|apply (wfq_move (fun _ _ => False) p), Hw; apply mv_remove_txs, mv_refl|lia|].
        (* a's queue is gone, the others are as before *)
        intros b Hb. rewrite (D b H0) in Hb. destruct (a =? b) eqn:E; [congruence|].
        destruct (Hcov b Hb) as [<-|Hr]; [lia|exact Hr]. }
      lia.
    + set (L := firstn (N.to_nat drop) (rev l)).
      assert (HL : forall t, In t L -> In t l) by (intros t Ht; apply in_rev; eapply firstn_In; eauto).
      assert (Hnd : NoDup L) by (apply NoDup_firstn, NoDup_rev, sorted_nodup, Sq).
      pose proof (fold_remove_total c a L p H0 Hw Hnd HL) as C.
      assert (len L = drop) by (unfold L, len; rewrite firstn_length, rev_length; unfold len in El; lia).
      lia.
Qed.

Lemma truncate_queue_bound c order p :
  Inv0 p -> wfq p -> (forall b, aget b (p_queue p) <> [] -> In b order) ->
  atotal (p_queue (truncate_queue c order p)) <= c_gqueue c.
Proof.
  intros H0 Hw Hcov. unfold truncate_queue. destruct (atotal (p_queue p) <=? c_gqueue c) eqn:E; [lia|].
  pose proof (tq_loop_total c order (atotal (p_queue p) - c_gqueue c) p H0 Hw) as X.
  assert (atotal (p_queue p) - c_gqueue c <= atotal (p_queue p)) by lia. specialize (X H Hcov). lia.
Qed.

Example queue_limit_nonvacuous :
  let c := Cfg 10 16 64 16 2 in
  let p := fst (fst (add_txs c [T 0 1 5 21000 0; T 0 2 5 21000 0; T 1 3 5 21000 0; T 1 4 5 21000 0; T 2 9 5 21000 0] false
                     (init 1 (St [] [(0,1000000000);(1,1000000000);(2,1000000000)] 1 5000000)))) in
  atotal (p_queue p) = 5 /\ atotal (p_queue (truncate_queue c [2;1;0] p)) = 2 /\ atotal (p_queue (truncate_queue c [0;1;2] p)) = 2.
Proof. vm_compute. repeat split. Qed.
