(* C10 — Reorganisation leaves exactly the state of the winning branch.
   Property theorems, each followed by [Print Assumptions].
   Model: Model/C10.v, Model/C10_Undo.v  Lemmas: Proofs/C10.v, Proofs/C10_Undo.v *)
From Coq Require Import List NArith Bool.
From GQ Require Import Lib.Key Lib.SMap Generated.C10Params Model.C10 Model.C10_Undo Proofs.C10 Proofs.C10_Undo.
Import ListNotations.
Local Open Scope N_scope.

(* The order of the database calls in the rollback loop of SetCurrentHeader, the key lengths
   and the set of undo records written by Process/Finalize are what the model assumes
   (data regenerated from the source on every run). *)
Theorem rollback_order_as_modelled : rollback_order_ok = true.
Proof. vm_compute. reflexivity. Qed.
Print Assumptions rollback_order_as_modelled.

(* Each of the four write loops of the rollback (re-create spent/trimmed, delete created keys,
   restore deleted lockups, delete created lockups) performs its write on EVERY record: no guard,
   no continue/break (AST of the source, regenerated on every run). *)
Theorem rollback_writes_unconditional_as_modelled : rollback_writes_ok = true.
Proof. vm_compute. reflexivity. Qed.
Print Assumptions rollback_writes_unconditional_as_modelled.

Theorem key_lengths_as_modelled : key_lengths_ok = true.
Proof. vm_compute. reflexivity. Qed.
Print Assumptions key_lengths_as_modelled.

Theorem undo_records_all_written : undo_records_written = true.
Proof. vm_compute. reflexivity. Qed.
Print Assumptions undo_records_all_written.

(* One block: rolling back (SetCurrentHeader's batch) what was just appended restores the Qi
   outputs, the lockup records, the canonical map and the head EXACTLY (Leibniz equality of the
   whole state), provided the undo log is well formed w.r.t. the state before the block. *)
Theorem rollback_apply_id : forall {L} (d : db L) (e : effect L),
  db_ok d -> wf_effect d e -> rollback (apply d e) e = d.
Proof.
  intros L d e (Su & Sl & _) (Wu & Wl & Wc). apply db_ext.
  - apply utxo_rollback_apply; assumption.
  - apply lockups_rollback_apply; assumption.
  - apply canon_rollback_apply; exact Wc.
  - symmetry. apply Wc.
Qed.
Print Assumptions rollback_apply_id.

(* A whole branch, any length, rolled back tip first. *)
Theorem rollback_branch_restores_ancestor : forall {L} (es : list (effect L)) (d : db L),
  db_ok d -> wf_branch d es -> rollback_all (apply_all d es) (rev es) = d.
Proof.
  intros L es. induction es as [|e es IH]; intros d Hok Hwf; [reflexivity|]. destruct Hwf as [We Wes].
  rewrite apply_all_cons. cbn [rev]. rewrite rollback_all_app.
  rewrite IH; [|apply apply_ok; exact Hok|exact Wes].
  apply rollback_apply_id; assumption.
Qed.
Print Assumptions rollback_branch_restores_ancestor.

(* Switching from branch A to branch B = following B from the common ancestor on a node that
   never saw A: same outputs, lockups, canonical map, head. Any branch lengths. *)
Theorem reorg_equals_direct : forall {L} (anc : db L) (A B : list (effect L)),
  db_ok anc -> wf_branch anc A -> reorg (apply_all anc A) (rev A) B = apply_all anc B.
Proof.
  intros L anc A B Hok Hwf. unfold reorg. rewrite rollback_branch_restores_ancestor by assumption. reflexivity.
Qed.
Print Assumptions reorg_equals_direct.

(* The same when the effects of the re-appended blocks are whatever re-execution produces on the
   state it finds (any deterministic [process]): the reorganised node and the fresh node execute
   the blocks of B on identical states. *)
Theorem reorg_reexecution_equals_direct : forall {L} (block : Type) (process : db L -> block -> effect L)
  (anc : db L) (A B : list block),
  db_ok anc -> wf_branch anc (effects_of block process anc A) ->
  run block process (rollback_all (run block process anc A) (rev (effects_of block process anc A))) B
  = run block process anc B.
Proof.
  intros L block process anc A B Hok Hwf. rewrite (run_apply_all block process A anc).
  rewrite rollback_branch_restores_ancestor by assumption. reflexivity.
Qed.
Print Assumptions reorg_reexecution_equals_direct.

(* Switching back gives the original state. *)
Theorem reorg_back_restores : forall {L} (anc : db L) (A B : list (effect L)),
  db_ok anc -> wf_branch anc A -> wf_branch anc B ->
  reorg (reorg (apply_all anc A) (rev A) B) (rev B) A = apply_all anc A.
Proof.
  intros L anc A B Hok WA WB. rewrite (reorg_equals_direct anc A B Hok WA).
  apply reorg_equals_direct; assumption.
Qed.
Print Assumptions reorg_back_restores.

(* Nothing created only on the abandoned branch is present afterwards: an outpoint absent at the
   common ancestor and not created on the winning branch is absent after the switch. *)
Theorem abandoned_outputs_unspendable : forall {L} (anc : db L) (A B : list (effect L)) k,
  db_ok anc -> wf_branch anc A ->
  get k (utxo anc) = None -> (forall e, In e B -> ~ In k (map fst (e_created e))) ->
  get k (utxo (reorg (apply_all anc A) (rev A) B)) = None.
Proof.
  intros L anc A B k Hok WA G N. rewrite reorg_equals_direct by assumption.
  apply (apply_all_invariant (fun d => get k (utxo d) = None)); [|exact Hok|exact G].
  intros d e Hin Hd Hg. rewrite (get_utxo_apply d e k (proj1 Hd) (N e Hin)).
  destruct (kmem k (map fst (e_spent e ++ e_trimmed e))); [reflexivity|exact Hg].
Qed.
Print Assumptions abandoned_outputs_unspendable.

(* Nothing the abandoned branch spent (or trimmed) stays missing: an outpoint the winning branch
   neither creates nor spends nor trims has exactly its ancestor value. *)
Theorem nothing_spent_stays_missing : forall {L} (anc : db L) (A B : list (effect L)) k,
  db_ok anc -> wf_branch anc A ->
  (forall e, In e B -> ~ In k (map fst (e_created e)) /\ ~ In k (map fst (e_spent e ++ e_trimmed e))) ->
  get k (utxo (reorg (apply_all anc A) (rev A) B)) = get k (utxo anc).
Proof.
  intros L anc A B k Hok WA N. rewrite reorg_equals_direct by assumption.
  apply (apply_all_invariant (fun d => get k (utxo d) = get k (utxo anc))); [|exact Hok|reflexivity].
  intros d e Hin Hd <-. destruct (N e Hin) as [N1 N2].
  rewrite (get_utxo_apply d e k (proj1 Hd) N1), (kmem_notin _ _ N2). reflexivity.
Qed.
Print Assumptions nothing_spent_stays_missing.

Theorem lockup_records_follow_winning_branch : forall {L} (anc : db L) (A B : list (effect L)) k,
  db_ok anc -> wf_branch anc A ->
  (forall e, In e B -> ~ In k (map fst (e_lk_writes e))) ->
  get k (lockups (reorg (apply_all anc A) (rev A) B)) = get k (lockups anc).
Proof.
  intros L anc A B k Hok WA N. rewrite reorg_equals_direct by assumption.
  apply (apply_all_invariant (fun d => get k (lockups d) = get k (lockups anc))); [|exact Hok|reflexivity].
  intros d e Hin Hd <-. apply lk_writes_untouched; [apply Hd|apply N; exact Hin].
Qed.
Print Assumptions lockup_records_follow_winning_branch.

(* Canonical number->hash mapping and head pointer of a (well-formed) branch: every block of the
   branch is canonical at its number, other numbers are as at the ancestor (in particular the
   entries of a longer abandoned branch are gone, by reorg_equals_direct), head = tip. *)
Theorem canonical_map_and_head_of_branch : forall {L} (es : list (effect L)) (d : db L),
  db_ok d -> wf_branch d es ->
  (forall e, In e es -> get (nkey (e_num e)) (canon (apply_all d es)) = Some (e_hash e)) /\
  (forall n, (forall e, In e es -> e_num e <> n) -> get (nkey n) (canon (apply_all d es)) = get (nkey n) (canon d)) /\
  head (apply_all d es) = last (map (@e_hash L) es) (head d).
Proof.
  intros L es d _ Hwf. split; [exact (proj2 (canon_of_branch es d Hwf))|].
  split; [intros n; apply canon_apply_all_other|apply head_apply_all].
Qed.
Print Assumptions canonical_map_and_head_of_branch.

(* What the correspondence check evaluates on every real reorganisation (booleans over the real
   undo records and scans) is sufficient for the theorems above. *)
Theorem checked_wf_implies_exact : forall (anc : db val) (A B : list (effect val)),
  db_sortedb anc = true -> wf_branchb keqb anc A = true ->
  reorg (apply_all anc A) (rev A) B = apply_all anc B.
Proof.
  intros anc A B Hs Hw. apply reorg_equals_direct.
  - apply db_sortedb_ok; exact Hs.
  - apply (wf_branchb_sound keqb keqb_eq); exact Hw.
Qed.
Print Assumptions checked_wf_implies_exact.

(* A correspondence case that passes the check with a well-formed undo log is an instance of
   reorg_equals_direct: the real scan after the real SetCurrentHeader is exactly the state of
   following the winning branch from the (oracle) image of the common ancestor. *)
Theorem checked_case_exact : forall id anc olds news pre post wn,
  case_ok (CReorg id anc olds news pre post true wn) = true -> post = apply_all anc news.
Proof.
  intros id anc olds news pre post wn. unfold case_ok. intros H.
  apply andb_prop in H as [H _]. apply andb_prop in H as [H W].
  apply andb_prop in H as [H E2]. apply andb_prop in H as [S E1].
  apply (db_eqb_eq keqb keqb_eq) in E1, E2. apply Bool.eqb_prop in W.
  subst pre. rewrite <- E2. apply checked_wf_implies_exact; assumption.
Qed.
Print Assumptions checked_case_exact.

(* Necessity: an undo log that is well formed in every respect EXCEPT that a lockup restore
   record does not carry the bytes that were there (the shape produced by AddNewLock when an
   update changes the delegate) is not inverted by the rollback. *)
Theorem lockup_restore_record_must_carry_previous_bytes_refuted :
  exists (d : db val) (e : effect val),
    db_ok d /\ wf_utxo d e /\ wf_chain d e /\
    (forall k, In k (e_lk_created e) -> get k (lockups d) = None) /\
    (forall k w, In (k, w) (e_lk_writes e) -> In k (e_lk_created e) \/ In k (map fst (e_lk_deleted e))) /\
    rollback (apply d e) e <> d.
Proof. exists f6_db, f6_eff. exact f6_shape_refuted. Qed.
Print Assumptions lockup_restore_record_must_carry_previous_bytes_refuted.

(* The undo records Process derives from AddNewLock / ClaimCoinbaseLockup for one block (any
   sequence of coinbase lockups and claims; a key claimed in a block is never topped up in the
   same block: claims need epoch < current epoch, AddNewLock writes the current epoch).
   FULL statement (holds when oldLockupData is built with the OLD delegate):
     lockups (rollback (apply d e) e) = lockups d   for e = lk_effect use_old ...            *)
Theorem addnewlock_undo_exact_if_old_delegate : forall eb n h p (d : db lkrec) rs,
  sorted (lockups d) -> heights_ok (lockups d) -> no_add_after_claim rs ->
  let e := lk_effect true eb n h p (lockups d) rs in
  lockups (rollback (apply d e) e) = lockups d.
Proof.
  intros eb n h p d rs S H0 Hno e. apply lockups_rollback_apply; [exact S|].
  apply lk_effect_wf; assumption.
Qed.
Print Assumptions addnewlock_undo_exact_if_old_delegate.

(* With the NEW delegate in oldLockupData (AddNewLock before go-quai 6881531a) the full statement
   is false ... *)
Theorem addnewlock_undo_exact_refuted : exists eb n h p (d : db lkrec) rs,
  sorted (lockups d) /\ heights_ok (lockups d) /\ no_add_after_claim rs /\
  let e := lk_effect false eb n h p (lockups d) rs in
  lockups (rollback (apply d e) e) <> lockups d.
Proof.
  exists 4, 7, [7], [6], (mkDb [] f6_map [] []), f6_reqs. repeat split.
  - intros k v [].
  - intros k r H. cbn in H. destruct (kcmp k f6_key); inversion H; subst; discriminate.
  - intros k [H|[]]. discriminate.
  - vm_compute. discriminate.
Qed.
Print Assumptions addnewlock_undo_exact_refuted.

(* ... and holds for the blocks in which no update changes the stored delegate. *)
Theorem addnewlock_undo_exact_partial : forall eb n h p (d : db lkrec) rs,
  sorted (lockups d) -> heights_ok (lockups d) -> no_add_after_claim rs ->
  delegate_stable eb (lockups d) rs = true ->
  let e := lk_effect false eb n h p (lockups d) rs in
  lockups (rollback (apply d e) e) = lockups d.
Proof.
  intros eb n h p d rs S H0 Hno Hst. rewrite lk_effect_stable by exact Hst.
  apply addnewlock_undo_exact_if_old_delegate; assumption.
Qed.
Print Assumptions addnewlock_undo_exact_partial.

(* For the source under check (flag regenerated from core/vm/contracts.go on every run): either
   the lockup undo log is exact for every block, or there is a block whose rollback is wrong. *)
Theorem lockup_undo_of_this_source :
  (undo_uses_old_delegate = true ->
     forall eb n h p (d : db lkrec) rs,
       sorted (lockups d) -> heights_ok (lockups d) -> no_add_after_claim rs ->
       let e := lk_effect undo_uses_old_delegate eb n h p (lockups d) rs in
       lockups (rollback (apply d e) e) = lockups d)
  /\
  (undo_uses_old_delegate = false ->
     exists eb n h p (d : db lkrec) rs,
       sorted (lockups d) /\ heights_ok (lockups d) /\ no_add_after_claim rs /\
       let e := lk_effect undo_uses_old_delegate eb n h p (lockups d) rs in
       lockups (rollback (apply d e) e) <> lockups d).
Proof.
  split; intros ->; [exact addnewlock_undo_exact_if_old_delegate|exact addnewlock_undo_exact_refuted].
Qed.
Print Assumptions lockup_undo_of_this_source.

(* In whatever state the rollback batch of a block is applied: none of the keys the block created
   is present afterwards — in particular an output the block also spent (it is in the spent record,
   so the batch first re-creates it) is unspendable after the reorganisation. *)
Theorem intra_block_output_absent_after_rollback : forall {L} (d : db L) (e : effect L) k,
  sorted (utxo d) -> In k (created_keys e) -> get k (utxo (rollback d e)) = None.
Proof.
  intros L d e k S H. rewrite get_utxo_rollback by exact S. apply undone_created. exact H.
Qed.
Print Assumptions intra_block_output_absent_after_rollback.

(* The ORDER "re-create spent, THEN delete created" is necessary: with the two loops swapped there
   is a well-formed block (on which [rollback] is exact) after whose rollback an output that never
   existed before the block and did not exist after it is in the UTXO set. *)
Theorem rollback_delete_before_restore_refuted :
  exists (d : db val) e k, db_ok d /\ wf_effect d e /\ rollback (apply d e) e = d /\
    get k (utxo d) = None /\ get k (utxo (apply d e)) = None /\
    get k (utxo (rollback_delete_first (apply d e) e)) <> None.
Proof.
  exists ic_db, ic_eff, [7]. destruct ic_wf as [A B].
  split; [exact A|]. split; [exact B|]. split; [apply rollback_apply_id; assumption|].
  split; [reflexivity|]. split; [reflexivity|]. vm_compute. discriminate.
Qed.
Print Assumptions rollback_delete_before_restore_refuted.

(* The delete of a created key must be UNCONDITIONAL: skipping it when the key is not in the
   database (the re-creating Put sits in the same batch) resurrects the same kind of output. *)
Theorem rollback_delete_only_if_present_refuted :
  exists (d : db val) e k, db_ok d /\ wf_effect d e /\ rollback (apply d e) e = d /\
    get k (utxo d) = None /\ get k (utxo (apply d e)) = None /\
    get k (utxo (rollback_skip_absent (apply d e) e)) <> None.
Proof.
  exists ic_db, ic_eff, [9]. destruct ic_wf as [A B].
  split; [exact A|]. split; [exact B|]. split; [apply rollback_apply_id; assumption|].
  split; [reflexivity|]. split; [reflexivity|]. vm_compute. discriminate.
Qed.
Print Assumptions rollback_delete_only_if_present_refuted.

(* Both wrong rollbacks are EXACT on every well-formed block in which no spent/trimmed output was
   created by the block itself: only blocks with an intra-block chain of Qi spends distinguish
   them from the source's rollback (the shape the harness therefore generates on every branch). *)
Theorem wrong_rollbacks_differ_only_on_intra_block_spends : forall {L} (d : db L) (e : effect L),
  db_ok d -> wf_effect d e -> no_intra_spend e ->
  rollback_delete_first (apply d e) e = d /\ rollback_skip_absent (apply d e) e = d.
Proof.
  intros L d e Hok Hwf N.
  destruct (wrong_rollbacks_same (apply d e) e) as [-> ->]; [apply utxo_apply_sorted; apply Hok|exact N|].
  split; apply rollback_apply_id; assumption.
Qed.
Print Assumptions wrong_rollbacks_differ_only_on_intra_block_spends.

Definition nv_anc : db val :=
  mkDb [([1], [10]); ([2], [20]); ([3], [30])] [([9;1], [5])] [([0], [100]); ([1], [101])] [101].
(* branch A: block 2 spends [1], trims [3], creates [7] and [8] (37-byte style keys are only
   stripped at length 37; short keys are used as they are), updates lockup [9;1], creates [9;2];
   block 3 spends [7] created by block 2 *)
Definition nv_a2 : effect val :=
  mkEff 2 [102] [101] [([7], [70]); ([8], [80])] [[7]; [8]] [([1], [10])] [([3], [30])]
        [([9;1], Some [6]); ([9;2], Some [1])] [[9;2]] [([9;1], [5])].
Definition nv_a3 : effect val :=
  mkEff 3 [103] [102] [([6], [60])] [[6]] [([7], [70])] [] [([9;1], None)] [] [([9;1], [6])].
(* branch B: block 2' spends [2], creates [5] *)
Definition nv_b2 : effect val :=
  mkEff 2 [202] [101] [([5], [50])] [[5]] [([2], [20])] [] [] [] [].

Example branches_wf_nonvacuous :
  db_sortedb nv_anc = true /\ wf_branchb keqb nv_anc [nv_a2; nv_a3] = true /\ wf_branchb keqb nv_anc [nv_b2] = true.
Proof. vm_compute. repeat split. Qed.

Example reorg_nonvacuous :
  apply_all nv_anc [nv_a2; nv_a3]
  = mkDb [([2], [20]); ([6], [60]); ([8], [80])] [([9;2], [1])]
         [([0], [100]); ([1], [101]); ([2], [102]); ([3], [103])] [103]
  /\ reorg (apply_all nv_anc [nv_a2; nv_a3]) [nv_a3; nv_a2] [nv_b2]
  = mkDb [([1], [10]); ([3], [30]); ([5], [50])] [([9;1], [5])]
         [([0], [100]); ([1], [101]); ([2], [202])] [202].
Proof. vm_compute. split; reflexivity. Qed.

(* a block with a chain tx1 -> tx2 -> tx3 (outputs [7] and [9] created and spent inside the block)
   plus a trimmed old output: well formed, and its rollback is exact *)
Example intra_block_chain_nonvacuous :
  db_ok ic_db /\ wf_effect ic_db ic_eff
  /\ apply ic_db ic_eff = mkDb [([2], [20]); ([6], [60]); ([8], [80])] [] [([4], [44]); ([5], [55])] [55]
  /\ rollback (apply ic_db ic_eff) ic_eff = ic_db
  /\ no_intra_spend nv_b2 /\ ~ no_intra_spend ic_eff.
Proof.
  destruct ic_wf as [A B].
  split; [exact A|]. split; [exact B|]. split; [reflexivity|].
  split; [apply rollback_apply_id; assumption|]. split.
  - intros k H. cbn in H. destruct H as [<-|[]]. cbn. intros [H|[]]. discriminate H.
  - intros H. apply (H [7]); [right; left; reflexivity|left; reflexivity].
Qed.

Example addnewlock_nonvacuous :
  (* create, top up with the same delegate, top up with another one: undo record of the last
     update names the NEW delegate under the pinned source *)
  let a := lk_process false 4 [] [RAdd [1] 100 9 [7;7]; RAdd [1] 50 10 [7;7]; RAdd [1] 25 11 [8;8]] in
  a_created a = [[1]] /\
  a_deleted a = [([1], mkLk 100 8 1 [7;7]); ([1], mkLk 150 8 2 [8;8])] /\
  a_map a = [([1], mkLk 175 8 3 [8;8])] /\
  delegate_stable 4 [] [RAdd [1] 100 9 [7;7]; RAdd [1] 50 10 [7;7]] = true /\
  delegate_stable 4 [] [RAdd [1] 100 9 [7;7]; RAdd [1] 50 10 [7;7]; RAdd [1] 25 11 [8;8]] = false.
Proof. vm_compute. repeat split. Qed.

Example enc_dec_nonvacuous :
  enc_lk (mkLk 5000 8 1 []) = be 32 5000 ++ [0;0;0;8] ++ [0;1]
  /\ dec_lk (enc_lk (mkLk 5000 8 1 [58;214])) = mkLk 5000 8 1 []   (* a 2-byte "delegate" is not 58 bytes *)
  /\ dec_lk (enc_lk (mkLk 5000 8 1 (repeat 9 20))) = mkLk 5000 8 1 (repeat 9 20).
Proof. vm_compute. repeat split. Qed.

(* The rollback reads the 'deleted coinbase lockups' record of a block only through the FIRST
   image per key: any record list with the same first images gives the same state (in ANY state). *)
Theorem lockup_undo_record_read_through_first_image : forall {L} (d : db L) (e : effect L) l',
  db_ok d -> (forall k, first_rec k l' = first_rec k (e_lk_deleted e)) ->
  rollback d (with_lk_deleted e l') = rollback d e.
Proof.
  intros L d e l' D H. apply db_ext; try reflexivity.
  apply sorted_ext; [apply (rollback_ok _ _ D)..|].
  intros k. rewrite !get_lockups_rollback by apply D.
  unfold undone; cbn [with_lk_deleted e_lk_created e_lk_deleted]. rewrite H. reflexivity.
Qed.
Print Assumptions lockup_undo_record_read_through_first_image.

(* ... so a writer that keeps one entry per key, the one of the FIRST modification, is harmless *)
Theorem lockup_undo_record_dedup_keep_first_harmless : forall {L} (d : db L) (e : effect L),
  db_ok d -> rollback d (with_lk_deleted e (dedup_first (e_lk_deleted e))) = rollback d e.
Proof.
  intros L d e D. apply lockup_undo_record_read_through_first_image; [exact D|].
  intros k. apply first_rec_dedup_first.
Qed.
Print Assumptions lockup_undo_record_dedup_keep_first_harmless.

(* ... and nothing less will do: a record whose first image of a (not created) key differs restores
   that other image. *)
Theorem lockup_undo_record_first_image_needed : forall {L} (d : db L) (e : effect L) l' k a b,
  db_ok d -> ~ In k (e_lk_created e) ->
  first_rec k l' = Some a -> first_rec k (e_lk_deleted e) = Some b -> a <> b ->
  get k (lockups (rollback d (with_lk_deleted e l'))) = Some a /\
  get k (lockups (rollback d e)) = Some b /\
  rollback d (with_lk_deleted e l') <> rollback d e.
Proof.
  intros L d e l' k a b (_ & S & _) NC Fa Fb NE.
  assert (A : get k (lockups (rollback d (with_lk_deleted e l'))) = Some a).
  { rewrite get_lockups_rollback by exact S. apply undone_recorded; assumption. }
  assert (B : get k (lockups (rollback d e)) = Some b).
  { rewrite get_lockups_rollback by exact S. apply undone_recorded; assumption. }
  split; [exact A|]. split; [exact B|].
  intros E. rewrite E, B in A. congruence.
Qed.
Print Assumptions lockup_undo_record_first_image_needed.

(* 'One entry per key, value of the LAST modification' (a tranche topped up twice in one block):
   the block is well formed, the faithful rollback and the keep-first writer are exact, the
   keep-last writer leaves the intermediate balance. *)
Theorem lockup_undo_record_dedup_keep_last_refuted :
  exists (d : db val) (e : effect val),
    db_ok d /\ wf_effect d e /\ rollback (apply d e) e = d /\
    rollback (apply d e) (with_lk_deleted e (dedup_first (e_lk_deleted e))) = d /\
    rollback (apply d e) (with_lk_deleted e (dedup_last (e_lk_deleted e))) <> d.
Proof.
  exists dd_db, dd_eff. destruct dd_wf as [A B]. pose proof (apply_ok dd_db dd_eff A) as A'.
  split; [exact A|]. split; [exact B|]. split; [apply rollback_apply_id; assumption|].
  split; [rewrite lockup_undo_record_dedup_keep_first_harmless by exact A'; apply rollback_apply_id; assumption|].
  vm_compute. discriminate.
Qed.
Print Assumptions lockup_undo_record_dedup_keep_last_refuted.

(* The spent / trimmed record must carry the COMPLETE previous output: with an encoder f of the
   undo image, the rollback restores f v for every pre-block output the block spent or trimmed;
   if f changes one of them (drops the lock height, say) the rollback is not exact. *)
Theorem spent_undo_image_restored_as_stored : forall {L} (d : db L) (e : effect L) f k v,
  db_ok d -> wf_effect d e ->
  In (k, v) (e_spent e ++ e_trimmed e) -> ~ In k (created_keys e) ->
  get k (utxo (rollback (apply d e) (map_spent f e))) = Some (f v) /\ get k (utxo d) = Some v.
Proof.
  intros L d e f k v (S & _) (Wu & _) Hin NC. pose proof Wu as (_ & W2 & _).
  assert (G : get k (utxo d) = Some v) by (destruct (W2 _ _ Hin); [contradiction|assumption]).
  split; [|exact G].
  (* the rollback puts back the encoding of what the faithful rollback puts back, which is [v] *)
  rewrite get_utxo_rollback_map_spent; [|apply utxo_apply_sorted; exact S|apply (in_map fst) in Hin; exact Hin].
  rewrite utxo_rollback_apply, G by assumption. reflexivity.
Qed.
Print Assumptions spent_undo_image_restored_as_stored.

Theorem lossy_spent_undo_image_not_exact : forall {L} (d : db L) (e : effect L) f k v,
  db_ok d -> wf_effect d e ->
  In (k, v) (e_spent e ++ e_trimmed e) -> ~ In k (created_keys e) -> f v <> v ->
  rollback (apply d e) (map_spent f e) <> d.
Proof.
  intros L d e f k v D W Hin NC NE E.
  destruct (spent_undo_image_restored_as_stored d e f k v D W Hin NC) as [A B].
  rewrite E, B in A. congruence.
Qed.
Print Assumptions lossy_spent_undo_image_not_exact.

Example undo_records_nonvacuous :
  (* double top-up 150 -> 157 -> 166: keep-last leaves 157 *)
  lockups (rollback (apply dd_db dd_eff) (with_lk_deleted dd_eff (dedup_last (e_lk_deleted dd_eff))))
    = [(dd_key, [157;3])]
  (* an encoder dropping the last byte (lock height) of a spent output *)
  /\ db_ok lo_db /\ wf_effect lo_db lo_eff
  /\ In ([1], [12;7;2]) (e_spent lo_eff ++ e_trimmed lo_eff) /\ ~ In [1] (created_keys lo_eff)
  /\ drop_lock [12;7;2] <> [12;7;2]
  /\ utxo (rollback (apply lo_db lo_eff) (map_spent drop_lock lo_eff)) = [([1], [12;7]); ([2], [8;7])].
Proof.
  destruct lo_wf as [A B].
  split; [reflexivity|]. split; [exact A|]. split; [exact B|]. split; [left; reflexivity|].
  split; [intros [H|[]]; discriminate H|]. split; [discriminate|]. reflexivity.
Qed.
