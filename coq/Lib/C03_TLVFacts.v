(* C03 — facts about Lib/C03_TLV: a varint can be read back off the front of a byte string, so
   varints and fields are prefix codes and a message is determined by its bytes; minimal
   big-endian byte strings are injective (read back by [from_le]). *)
From Coq Require Import List NArith ZArith Zpow_facts Bool Lia.
From GQ Require Import Lib.Lists Lib.C03_TLV.
Import ListNotations.
Local Open Scope N_scope.

Definition injective {A B : Type} (f : A -> B) : Prop := forall a b, f a = f b -> a = b.

Lemma pow2_S : forall f : nat, 2 ^ N.of_nat (S f) = 2 * 2 ^ N.of_nat f.
Proof. intros f. rewrite Nat2N.inj_succ. apply N.pow_succ_r'. Qed.

Lemma size_nat_bound : forall n, n < 2 ^ N.of_nat (N.size_nat n).
Proof.
  intros [|p]; [reflexivity|]. cbn [N.size_nat].
  apply N2Z.inj_lt. rewrite N2Z.inj_pow, nat_N_Z. apply Zpower2_Psize, le_n.
Qed.

(* dropping a digit of any base frees one unit of fuel *)
Lemma div_fuel : forall k (f : nat) n, 2 <= k -> n < 2 ^ N.of_nat (S f) -> n / k < 2 ^ N.of_nat f.
Proof.
  intros k f n Hk H. rewrite pow2_S in H.
  apply N.div_lt_upper_bound; [lia|].
  apply (N.lt_le_trans _ _ _ H). apply N.mul_le_mono_r. exact Hk.
Qed.

Fixpoint unvarint (l : list N) : N * list N :=
  match l with
  | [] => (0, [])
  | b :: l' => if b <? 128 then (b, l') else let (n, r) := unvarint l' in (b - 128 + 128 * n, r)
  end.

Lemma unvarint_varint_f : forall f n r, n < 2 ^ N.of_nat f -> unvarint (varint_f f n ++ r) = (n, r).
Proof.
  induction f as [|f IH]; intros n r Hn; cbn [varint_f].
  - change (2 ^ N.of_nat 0) with 1 in Hn. assert (n = 0) by lia. subst n. reflexivity.
  - destruct (n <? 128) eqn:Hlt; cbn [app unvarint].
    + rewrite Hlt. reflexivity.
    + destruct (N.ltb_spec (128 + n mod 128) 128) as [Hx|_]; [lia|].
      rewrite IH by (apply (div_fuel 128); [lia|exact Hn]).
      f_equal. rewrite (N.add_comm 128), N.add_sub, N.add_comm.
      symmetry. apply N.div_mod. discriminate.
Qed.

Lemma varint_prefix_free : forall n1 n2 r1 r2,
  varint n1 ++ r1 = varint n2 ++ r2 -> n1 = n2 /\ r1 = r2.
Proof.
  intros n1 n2 r1 r2 He. apply (f_equal unvarint) in He. unfold varint in He.
  rewrite !unvarint_varint_f in He by apply size_nat_bound.
  injection He as Hn Hr. split; assumption.
Qed.

Lemma varint_nonempty : forall n, varint n <> [].
Proof.
  intros n. unfold varint. destruct (N.size_nat n); cbn [varint_f]; [discriminate|].
  destruct (n <? 128); discriminate.
Qed.

Lemma encode_field_prefix_free : forall a b r1 r2,
  encode_field a ++ r1 = encode_field b ++ r2 -> a = b /\ r1 = r2.
Proof.
  intros [ta va] [tb vb] r1 r2. unfold encode_field. cbn [fst snd].
  destruct va as [na|ba]; destruct vb as [nb|bb]; rewrite <- !app_assoc; intros He;
    apply varint_prefix_free in He; destruct He as [Ht He].
  - apply varint_prefix_free in He. destruct He as [Hn Hr].
    assert (ta = tb) by lia. subst. split; reflexivity || exact Hr.
  - exfalso. lia.
  - exfalso. lia.
  - apply varint_prefix_free in He. destruct He as [Hl He].
    assert (Hlen : length ba = length bb) by (unfold len in Hl; lia).
    destruct (app_inv_length _ _ _ _ Hlen He) as [Hb Hr].
    assert (ta = tb) by lia. subst. split; reflexivity || exact Hr.
Qed.

Lemma encode_field_nonempty : forall a, encode_field a <> [].
Proof.
  intros [t v]. unfold encode_field. cbn [fst snd].
  destruct v; intros H; apply app_eq_nil in H; destruct H as [H _]; exact (varint_nonempty _ H).
Qed.

Lemma encode_msg_cons : forall f fs, encode_msg (f :: fs) = encode_field f ++ encode_msg fs.
Proof. reflexivity. Qed.

Lemma encode_msg_app : forall a b, encode_msg (a ++ b) = encode_msg a ++ encode_msg b.
Proof. intros a b. unfold encode_msg. rewrite map_app, concat_app. reflexivity. Qed.

Lemma encode_msg_nil_inv : forall l, encode_msg l = [] -> l = [].
Proof.
  intros [|a l] He; [reflexivity|].
  rewrite encode_msg_cons in He. apply app_eq_nil in He. destruct (encode_field_nonempty a (proj1 He)).
Qed.

(* a message is not a prefix code (more fields may follow), but its bytes determine its fields *)
Theorem encode_msg_inj : injective encode_msg.
Proof.
  intros l1. induction l1 as [|a l1 IH]; intros l2 He.
  - symmetry. apply encode_msg_nil_inv. symmetry. exact He.
  - destruct l2 as [|b l2]; [exact (encode_msg_nil_inv _ He)|].
    rewrite !encode_msg_cons in He.
    destruct (encode_field_prefix_free _ _ _ _ He) as [Hab Ht].
    subst. f_equal. apply IH. exact Ht.
Qed.

(* whether an optional field is present can be read off the tag of the first field: it is enough
   that what follows does not START with the same tag *)
Definition not_headed (t : N) (r : list field) : Prop := forall v r', r <> (t, v) :: r'.

Lemma opt_field_inj : forall t o1 o2 r1 r2, not_headed t r1 -> not_headed t r2 ->
  opt_field t o1 ++ r1 = opt_field t o2 ++ r2 -> o1 = o2 /\ r1 = r2.
Proof.
  intros t [v1|] [v2|] r1 r2 H1 H2 He; cbn [opt_field app] in He.
  - injection He as Hv Hr. subst. split; reflexivity.
  - destruct (H2 _ _ (eq_sym He)).
  - destruct (H1 _ _ He).
  - split; [reflexivity|exact He].
Qed.

Lemma opt_field_inj_nil : forall t, injective (opt_field t).
Proof.
  intros t o1 o2 He. apply (opt_field_inj t o1 o2 [] []); [discriminate..|].
  rewrite !app_nil_r. exact He.
Qed.

Lemma opt_bytes_field_opt : forall t b,
  opt_bytes_field t b = opt_field t (match b with [] => None | _ => Some (VBytes b) end).
Proof. intros t [|x b]; reflexivity. Qed.

Lemma opt_bytes_field_inj : forall t b1 b2 r1 r2, not_headed t r1 -> not_headed t r2 ->
  opt_bytes_field t b1 ++ r1 = opt_bytes_field t b2 ++ r2 -> b1 = b2 /\ r1 = r2.
Proof.
  intros t b1 b2 r1 r2 H1 H2 He. rewrite !opt_bytes_field_opt in He.
  apply opt_field_inj in He; [|assumption..]. destruct He as [Ho Hr].
  split; [|exact Hr]. destruct b1, b2; congruence.
Qed.

Lemma opt_bytes_field_inj_nil : forall t, injective (opt_bytes_field t).
Proof.
  intros t b1 b2 He. apply (opt_bytes_field_inj t b1 b2 [] []); [discriminate..|].
  rewrite !app_nil_r. exact He.
Qed.

Lemma from_le_le_bytes_f : forall f n, n < 2 ^ N.of_nat f -> from_le (le_bytes_f f n) = n.
Proof.
  induction f as [|f IH]; intros n H.
  - change (2 ^ N.of_nat 0) with 1 in H. cbn. lia.
  - cbn [le_bytes_f]. destruct (n =? 0) eqn:Hz.
    + cbn. lia.
    + cbn [from_le]. rewrite IH by (apply (div_fuel 256); [lia|exact H]).
      rewrite N.add_comm. symmetry. apply N.div_mod. discriminate.
Qed.

Theorem be_bytes_inj : injective be_bytes.
Proof.
  intros a b H. unfold be_bytes in H.
  apply (f_equal (@rev N)) in H. rewrite !rev_involutive in H.
  rewrite <- (from_le_le_bytes_f _ a (size_nat_bound a)).
  rewrite <- (from_le_le_bytes_f _ b (size_nat_bound b)).
  rewrite H. reflexivity.
Qed.

Lemma bytes_eqb_eq : forall a b, bytes_eqb a b = true <-> a = b.
Proof.
  induction a as [|x a IH]; intros b; destruct b as [|y b]; cbn [bytes_eqb]; split; intros H;
    try reflexivity; try discriminate.
  - apply andb_true_iff in H. destruct H as [Hx Ht]. apply N.eqb_eq in Hx. apply IH in Ht. subst. reflexivity.
  - injection H as Hx Ht. subst. rewrite N.eqb_refl. cbn. apply IH. reflexivity.
Qed.
