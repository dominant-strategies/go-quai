(* C06 — the whole rollback loop of HeaderChain.SetCurrentHeader: for every branch of blocks of Qi operations whose
   created keys are new when the block is appended, undoing the blocks newest first, every iteration on the database
   the previous one left, restores exactly the UTXO set of the common ancestor. *)
From Coq Require Import List.
From GQ Require Import Model.C06 Proofs.C06_Db Proofs.C06 Proofs.C06_R3.
Import ListNotations.

Lemma undo_block_eq : forall o tv s ops cands d,
  undo_block o tv s ops cands d
  = undo o (fst (undo_records (s_db s) ops) ++ trimmed tv s ops cands) (snd (undo_records (s_db s) ops)) d.
Proof.
  intros. unfold undo_block, trimmed, view_of, ops_db.
  destruct (run_ops (s_db s) ops) as [[d1 cr] de]. destruct (undo_records (s_db s) ops) as [sp ck]. reflexivity.
Qed.

Lemma rollback_block_eq : forall o tv s ops cands,
  rollback_block o tv s ops cands
  = option_map (fun r => undo_block o tv s ops cands (s_db (fst r))) (finalize tv s ops cands).
Proof.
  intros. unfold rollback_block, undo_block.
  destruct (finalize tv s ops cands) as [[s' trk]|]; [|reflexivity].
  destruct (run_ops (s_db s) ops) as [[d1 cr] de]. destruct (undo_records (s_db s) ops) as [sp ck]. reflexivity.
Qed.

Lemma switch_back_one : forall o tv s b,
  switch_back o tv s [b] = rollback_block o tv s (fst b) (snd b).
Proof.
  intros o tv s b. rewrite rollback_block_eq. cbn [switch_back].
  destruct (finalize tv s (fst b) (snd b)) as [[s' trk]|]; reflexivity.
Qed.

(* every block of the branch that is rolled back: Qi operations only, created keys new in the state it is appended on *)
Fixpoint chain_rollbackable (s : st) (bs : list block) : Prop :=
  match bs with
  | [] => True
  | b :: t =>
      forallb is_ut (fst b) = true /\ creates_new (s_db s) (fst b) /\
      match finalize ParentDb s (fst b) (snd b) with
      | Some (s', _) => chain_rollbackable s' t
      | None => True
      end
  end.

Lemma chain_rollbackable_cons : forall s b t s' trk,
  forallb is_ut (fst b) = true -> creates_new (s_db s) (fst b) ->
  finalize ParentDb s (fst b) (snd b) = Some (s', trk) -> chain_rollbackable s' t ->
  chain_rollbackable s (b :: t).
Proof. intros s b t s' trk Hut Hnew F Hc. cbn [chain_rollbackable]. rewrite F. auto. Qed.

Lemma undo_block_restores : forall s ops cands s' trk,
  db_ok (s_db s) -> forallb is_ut ops = true -> creates_new (s_db s) ops ->
  finalize ParentDb s ops cands = Some (s', trk) ->
  undo_block RestoreThenDelete ParentDb s ops cands (s_db s') = s_db s.
Proof.
  intros s ops cands s' trk Hok Hut Hnew F. rewrite undo_block_eq, (finalize_db _ _ _ _ _ _ F).
  apply rollback_restores; try assumption. apply trimmed_in_view.
Qed.

Lemma switch_back_restores : forall bs s d,
  db_ok (s_db s) -> chain_rollbackable s bs ->
  switch_back RestoreThenDelete ParentDb s bs = Some d -> d = s_db s.
Proof.
  induction bs as [|b t IH]; intros s d Hok Hc H; cbn [switch_back chain_rollbackable] in *.
  - injection H as <-. reflexivity.
  - destruct Hc as (Hut & Hnew & Hrest).
    destruct (finalize ParentDb s (fst b) (snd b)) as [[s' trk]|] eqn:F; [|discriminate H].
    destruct (switch_back RestoreThenDelete ParentDb s' t) as [d0|] eqn:SB; [|discriminate H].
    (* the newer blocks are undone first and leave the database this block wrote *)
    injection H as <-. rewrite (IH s' d0 (finalize_db_ok _ _ _ _ _ _ Hok F) Hrest SB).
    exact (undo_block_restores s (fst b) (snd b) s' trk Hok Hut Hnew F).
Qed.
