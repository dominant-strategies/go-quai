(* Shared by the journal proofs (C12): the extends-and-rewinds preorder of a journal whose undo is total, and the
   erasure of failed frames from bodies and blocks, for any machine that runs frames as a fold. *)
From Coq Require Import List Arith.
From GQ Require Import Lib.Lists.
Import ListNotations.

(* A state with a journal of [len s] entries, of which [pop k] undoes the k newest. *)
Section Journal.
Context {T : Type} (len : T -> nat) (pop : nat -> T -> T).
Hypothesis pop_0 : forall s, pop 0 s = s.
Hypothesis pop_S : forall k s, pop (S k) s = pop k (pop 1 s).

Lemma pop_add k1 : forall k2 s, pop (k1 + k2) s = pop k2 (pop k1 s).
Proof.
  induction k1 as [|k1 IH]; intros k2 s; cbn [plus]; [rewrite pop_0; reflexivity|].
  rewrite pop_S, IH, (pop_S k1). reflexivity.
Qed.

Definition ext (a a' : T) : Prop := exists k, len a' = k + len a /\ pop k a' = a.

Lemma ext_refl a : ext a a.
Proof. exists 0. split; [reflexivity|apply pop_0]. Qed.

Lemma ext_trans a b c : ext a b -> ext b c -> ext a c.
Proof.
  intros (k1 & J1 & P1) (k2 & J2 & P2). exists (k2 + k1). split.
  - rewrite J2, J1. apply Nat.add_assoc.
  - rewrite pop_add, P2. exact P1.
Qed.

Lemma ext_rewind a a' : ext a a' -> pop (len a' - len a) a' = a.
Proof. intros (k & J & P). rewrite J, Nat.add_sub. exact P. Qed.
End Journal.

(* [er f]: the frames that stand for [f] once its failed parts are erased.  A transaction is a list of frames
   and a flag for which of the two boundaries ([root], [fin]) follows. *)
Section Erasure.
Context {S F : Type} (I : S -> Prop) (exec : F -> S -> S) (er : F -> list F).
Let frames (fs : list F) (s : S) : S := fold_left (fun x g => exec g x) fs s.
Hypothesis exec_I : forall f s, I s -> I (exec f s).

Lemma erased_body (l : list F) :
  Forall (fun f => forall s, I s -> frames (er f) s = exec f s) l ->
  forall s, I s -> frames (flat_map er l) s = frames l s.
Proof.
  induction 1 as [|g l Hg _ IH]; intros s H; cbn [flat_map]; [reflexivity|].
  unfold frames. rewrite fold_left_app. fold (frames (er g) s). rewrite (Hg s H). apply IH, exec_I, H.
Qed.

Context (fin root : S -> S).
Hypothesis fin_I : forall s, I s -> I (fin s).
Hypothesis root_I : forall s, I s -> I (root s).
Hypothesis er_exec : forall f s, I s -> frames (er f) s = exec f s.
Let tx (s : S) (t : list F * bool) : S := let s1 := frames (fst t) s in if snd t then root s1 else fin s1.

Lemma erased_block b : forall s, I s ->
  fold_left tx (map (fun t => (flat_map er (fst t), snd t)) b) s = fold_left tx b s.
Proof.
  induction b as [|t b IH]; intros s H; [reflexivity|]. cbn [map fold_left]. unfold tx at 2 4. cbn [fst snd].
  rewrite (erased_body (fst t) (Forall_all _ er_exec (fst t)) s H). apply IH.
  assert (I (frames (fst t) s)) by (apply (fold_left_inv I); [intros a f _; apply exec_I|exact H]).
  destruct (snd t); [apply root_I|apply fin_I]; assumption.
Qed.
End Erasure.
