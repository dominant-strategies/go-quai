(* C01 -- an accumulator of the output loop, and a result of the fee part, with another gas pool: the worker and the
   processor run the same checks from different pools (Proofs/C01_Steps.v). *)
From Coq Require Import NArith.
From GQ Require Import Model.C01.

Definition set_gp (a : oacc) (g : N) : oacc :=
  mkOA (oa_idx a) (oa_addrs a) (oa_total a) (oa_conv a) (oa_isconv a) (oa_iswrap a) (oa_caddr a) (oa_dens a)
       (oa_etxs a) (oa_creates a) g (oa_used a) (oa_rgas a) (oa_pgas a).

Lemma set_gp_gp a g : oa_gp (set_gp a g) = g.
Proof. reflexivity. Qed.
Lemma set_gp_set a g g' : set_gp (set_gp a g) g' = set_gp a g'.
Proof. reflexivity. Qed.

Definition set_pgp (p : pres) (g : N) : pres :=
  mkPR (p_fee p) (p_etxs p) (p_creates p) g (p_used p) (p_rgas p) (p_pgas p) (p_outdens p)
       (p_total_out p) (p_conv p) (p_isconv p) (p_iswrap p).
