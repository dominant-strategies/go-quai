(* C06 — what Finalize's commitment (accumulator, set size) is after a block, in terms of the database content
   after the block; chains; order independence of the accumulator. *)
From Coq Require Import List NArith ZArith Lia Permutation.
From GQ Require Import Model.C06 Proofs.C06_Acc Proofs.C06_Db.
Import ListNotations.
Local Open Scope N_scope.

(* the commitment describes the content: accumulator = sum of the live elements, size = their number *)
Definition Inv (s : st) : Prop :=
  db_ok (s_db s) /\ ceq (s_acc s) (of_content (content (s_db s)))
  /\ s_size s = N.of_nat (length (s_db s)).

(* C06_Db and C06_R3 state their lemmas over the projections of [run_ops (s_db s) ops]: those [apply] to these names as
   they are; to [rewrite] with one, unfold the name. *)
Definition ops_db (s : st) (ops : list op) : db := fst (fst (run_ops (s_db s) ops)).
Definition ops_created (s : st) (ops : list op) : list elem := snd (fst (run_ops (s_db s) ops)).
Definition ops_deleted (s : st) (ops : list op) : list elem := snd (run_ops (s_db s) ops).
Definition view_of (tv : trim_view) (s : st) (ops : list op) : db :=
  match tv with ParentDb => s_db s | AfterOps => ops_db s ops end.
Definition trimmed (tv : trim_view) (s : st) (ops : list op) (cands : list (list cand)) : list (key * elem) :=
  flat_map (trim_one (view_of tv s ops)) cands.
(* elements TrimBlock removes although the block's own operations already removed them *)
Definition doubled (tv : trim_view) (s : st) (ops : list op) (cands : list (list cand)) : list elem :=
  map snd (gone (ops_db s ops) (trimmed tv s ops cands)).

Definition fits64 (tv : trim_view) (s : st) (ops : list op) (cands : list (list cand)) : Prop :=
  N.of_nat (length (s_db s)) + N.of_nat (length (ops_created s ops)) < W64
  /\ N.of_nat (length (trimmed tv s ops cands)) < W64.

Definition W64z : Z := 18446744073709551616%Z.

Lemma in_trimmed : forall tv s ops cands kv,
  In kv (trimmed tv s ops cands)
  <-> In (fst kv, true) (concat cands) /\ db_get (view_of tv s ops) (fst kv) = Some (snd kv).
Proof. intros tv s ops cands kv. unfold trimmed. rewrite trim_concat. apply in_trim_one. Qed.

Definition put_keys (ops : list op) : list key :=
  flat_map (fun o => match o with Create k _ => [k] | Update k _ => [k] | Spend _ => [] end) ops.

Lemma ops_db_get : forall s ops k, db_ok (s_db s) -> ~ In k (put_keys ops) ->
  db_get (ops_db s ops) k = db_get (s_db s) k \/ db_get (ops_db s ops) k = None.
Proof.
  intros s ops k. unfold ops_db. rewrite run_ops_db. generalize (s_db s).
  induction ops as [|o t IH]; intros d Hok Hn; cbn [fold_left]; [left; reflexivity|].
  cbn [put_keys flat_map] in Hn. fold (put_keys t) in Hn.
  destruct (IH _ (op_db_ok d o Hok) (fun H => Hn (in_or_app _ _ _ (or_intror H)))) as [IH'|IH']; [|right; exact IH'].
  rewrite IH', get_op_db by exact Hok.
  destruct o as [k0 e|k0 e|k0]; destruct (N.eqb_spec k k0) as [->|]; auto; exfalso; apply Hn; left; reflexivity.
Qed.

(* t decrements of a counter that wraps around at m *)
Lemma size_arith : forall m a t : N, t < m ->
  Z.of_N ((a + (m - t mod m)) mod m) = ((Z.of_N a - Z.of_N t) mod Z.of_N m)%Z.
Proof.
  intros m a t Ht. rewrite (N.mod_small t m Ht), N2Z.inj_mod, N2Z.inj_add, N2Z.inj_sub by lia.
  replace (Z.of_N a + (Z.of_N m - Z.of_N t))%Z with (Z.of_N a - Z.of_N t + 1 * Z.of_N m)%Z by lia.
  apply Z.mod_add. lia.
Qed.

Lemma finalize_eq : forall tv s ops cands,
  finalize tv s ops cands =
  if N.ltb (s_size s + N.of_nat (length (ops_created s ops))) (N.of_nat (length (ops_deleted s ops))) then None
  else Some (mkSt (dels (trimmed tv s ops cands) (ops_db s ops))
                  (acc_removes (acc_adds (s_acc s) (ops_created s ops))
                               (ops_deleted s ops ++ map snd (trimmed tv s ops cands)))
                  ((s_size s + N.of_nat (length (ops_created s ops)) - N.of_nat (length (ops_deleted s ops))
                    + (W64 - N.of_nat (length (trimmed tv s ops cands)) mod W64)) mod W64),
             map fst (trimmed tv s ops cands)).
Proof.
  intros tv s ops cands. unfold finalize, trimmed, view_of, ops_db, ops_created, ops_deleted.
  destruct (run_ops (s_db s) ops) as [[d1 cr] de]. reflexivity.
Qed.

Lemma finalize_db : forall tv s ops cands s' trk,
  finalize tv s ops cands = Some (s', trk) -> s_db s' = dels (trimmed tv s ops cands) (ops_db s ops).
Proof.
  intros tv s ops cands s' trk F. rewrite finalize_eq in F.
  destruct (N.ltb _ _); [discriminate F|]. injection F as <- _. reflexivity.
Qed.

Lemma finalize_db_ok : forall tv s ops cands s' trk,
  db_ok (s_db s) -> finalize tv s ops cands = Some (s', trk) -> db_ok (s_db s').
Proof.
  intros tv s ops cands s' trk Hok F. rewrite (finalize_db _ _ _ _ _ _ F). apply dels_ok, run_ops_ok, Hok.
Qed.

Lemma delta_occ : forall d d' p m e, delta d d' p m ->
  (occ (content d') e + occ m e = occ (content d) e + occ p e)%Z.
Proof. intros d d' p m e E. rewrite <- !occ_app. apply occ_perm, E. Qed.

(* The hypothesis on the trimmed entries leaves out one case: the block has bound the key to another element; the
   database would then lose that element and the accumulator the trimmed one. *)
Lemma finalize_general : forall tv s ops cands,
  Inv s -> creates_fresh (s_db s) ops -> NoDup (map fst (concat cands)) ->
  (forall kv, In kv (trimmed tv s ops cands) ->
     db_get (ops_db s ops) (fst kv) = Some (snd kv) \/ db_get (ops_db s ops) (fst kv) = None) ->
  N.of_nat (length (trimmed tv s ops cands)) < W64 ->
  exists s', finalize tv s ops cands = Some (s', map fst (trimmed tv s ops cands))
    /\ db_ok (s_db s')
    /\ (length (ops_db s ops) + length (ops_deleted s ops) = length (s_db s) + length (ops_created s ops))%nat
    /\ (length (s_db s') + length (trimmed tv s ops cands)
        = length (ops_db s ops) + length (doubled tv s ops cands))%nat
    /\ (forall x, count (s_acc s') x = (occ (content (s_db s')) x - occ (doubled tv s ops cands) x)%Z)
    /\ Z.of_N (s_size s')
       = ((Z.of_nat (length (s_db s')) - Z.of_nat (length (doubled tv s ops cands))) mod W64z)%Z.
Proof.
  intros tv s ops cands [Hok [Hacc Hsz]] Hfresh Hnd Hst Hfit.
  pose proof (run_ops_ok ops (s_db s) Hok) as Hok1.
  (* the block as two multiset deltas: its own operations, then the trimming *)
  assert (D1 : delta (s_db s) (ops_db s ops) (ops_created s ops) (ops_deleted s ops))
    by apply run_ops_delta, Hfresh.
  assert (D2 : delta (ops_db s ops) (dels (trimmed tv s ops cands) (ops_db s ops))
                     (doubled tv s ops cands) (map snd (trimmed tv s ops cands)))
    by (apply dels_delta; [exact Hok1|apply trimmed_nodup, Hnd|exact Hst]).
  pose proof (delta_length _ _ _ _ D1) as L1. pose proof (delta_length _ _ _ _ D2) as L2. rewrite map_length in L2.
  rewrite finalize_eq, (proj2 (N.ltb_ge _ _)) by (rewrite Hsz; lia).
  eexists. split; [reflexivity|]. cbn [s_db s_acc s_size].
  split; [apply dels_ok, Hok1|]. split; [exact L1|]. split; [exact L2|]. split.
  - intros x. rewrite count_block, Hacc, count_of_content.
    pose proof (delta_occ _ _ _ _ x D1). pose proof (delta_occ _ _ _ _ x D2). lia.
  - replace (s_size s + N.of_nat (length (ops_created s ops)) - N.of_nat (length (ops_deleted s ops)))
      with (N.of_nat (length (ops_db s ops))) by lia.
    rewrite size_arith by exact Hfit. change (Z.of_N W64) with W64z. f_equal. lia.
Qed.

(* no element is both trimmed and touched by the block's own operations *)
Definition trim_disjoint (s : st) (ops : list op) (cands : list (list cand)) : Prop :=
  forall kv, In kv (trimmed ParentDb s ops cands) -> db_get (ops_db s ops) (fst kv) = Some (snd kv).

Lemma step_live : forall tv s ops cands,
  Inv s -> creates_fresh (s_db s) ops -> NoDup (map fst (concat cands)) ->
  (forall kv, In kv (trimmed tv s ops cands) -> db_get (ops_db s ops) (fst kv) = Some (snd kv)) ->
  fits64 tv s ops cands ->
  exists s', finalize tv s ops cands = Some (s', map fst (trimmed tv s ops cands)) /\ Inv s'
    /\ (length (ops_db s ops) + length (ops_deleted s ops) = length (s_db s) + length (ops_created s ops))%nat
    /\ (length (s_db s') + length (trimmed tv s ops cands) = length (ops_db s ops))%nat.
Proof.
  intros tv s ops cands HI Hf Hnd Hlive Hfit.
  destruct (finalize_general tv s ops cands HI Hf Hnd (fun kv Hi => or_introl (Hlive kv Hi)) (proj2 Hfit))
    as (s' & E & Hok & L1 & L2 & Hc & Hs).
  unfold doubled in *. rewrite (gone_nil _ _ Hlive) in *. cbn [map occ length] in *.
  exists s'. split; [exact E|]. split; [|split; [exact L1|lia]].
  split; [exact Hok|]. split.
  - intros x. rewrite Hc, count_of_content. lia.
  - destruct Hfit as [Hfit _]. unfold W64, W64z in *. rewrite Z.mod_small in Hs by lia. lia.
Qed.

Definition delta_faithful (tv : trim_view) (s : st) (b : block) : Prop :=
  creates_fresh (s_db s) (fst b) /\ NoDup (map fst (concat (snd b)))
  /\ match tv with ParentDb => trim_disjoint s (fst b) (snd b) | AfterOps => True end
  /\ fits64 tv s (fst b) (snd b).

Fixpoint chain_faithful (tv : trim_view) (s : st) (bs : list block) : Prop :=
  match bs with
  | [] => True
  | b :: t => delta_faithful tv s b
              /\ match finalize tv s (fst b) (snd b) with
                 | Some (s', _) => chain_faithful tv s' t
                 | None => False
                 end
  end.

Lemma chain_faithful_cons : forall tv s b t s' trk,
  delta_faithful tv s b -> finalize tv s (fst b) (snd b) = Some (s', trk) -> chain_faithful tv s' t ->
  chain_faithful tv s (b :: t).
Proof. intros tv s b t s' trk Hd F Hc. cbn [chain_faithful]. rewrite F. auto. Qed.

Lemma delta_faithful_inv : forall tv s b, Inv s -> delta_faithful tv s b ->
  exists s', finalize tv s (fst b) (snd b) = Some (s', map fst (trimmed tv s (fst b) (snd b))) /\ Inv s'.
Proof.
  intros tv s [ops cands] HI (Hf & Hnd & Hd & Hfit); cbn [fst snd] in *.
  destruct (step_live tv s ops cands HI Hf Hnd) as (s' & E & HI' & _); [|exact Hfit|eauto].
  (* the trimmed entries are live: assumed for the parent view; with the repaired view they were looked up after
     the block's own operations *)
  destruct tv; [exact Hd|apply trimmed_in_view].
Qed.

Lemma chain_faithful_inv : forall tv bs s, Inv s -> chain_faithful tv s bs ->
  exists s', run_chain tv s bs = Some s' /\ Inv s'.
Proof.
  induction bs as [|b t IH]; intros s HI Hc; cbn [run_chain chain_faithful] in *.
  - eauto.
  - destruct Hc as [Hd Hc].
    destruct (delta_faithful_inv tv s b HI Hd) as [s' [E HI']].
    rewrite E in *. apply IH; assumption.
Qed.

Lemma inv_of_content : forall d, db_ok d -> Inv (mkSt d (of_content (content d)) (N.of_nat (length d))).
Proof. intros d Hok. split; [exact Hok|]. split; [apply ceq_refl|reflexivity]. Qed.

Lemma genesis_inv : Inv genesis.
Proof. exact (inv_of_content [] I). Qed.

Lemma block_acc_perm : forall a cr cr' de de' tr tr',
  Permutation cr cr' -> Permutation de de' -> Permutation tr tr' ->
  ceq (acc_removes (acc_adds a cr) (de ++ tr)) (acc_removes (acc_adds a cr') (de' ++ tr')).
Proof.
  intros a cr cr' de de' tr tr' P1 P2 P3 e. rewrite !count_block.
  rewrite (occ_perm _ _ P1), (occ_perm _ _ P2), (occ_perm _ _ P3). reflexivity.
Qed.

(* an interleaving of the per-goroutine result lists (each goroutine appends its results in its own
   order; the mutex serialises the appends in an arbitrary global order) *)
Inductive interleave {A : Type} : list (list A) -> list A -> Prop :=
| il_done : forall ls, Forall (fun l => l = []) ls -> interleave ls []
| il_step : forall ls1 x l ls2 r,
    interleave (ls1 ++ l :: ls2) r -> interleave (ls1 ++ (x :: l) :: ls2) (x :: r).

Lemma interleave_perm : forall (A : Type) (ls : list (list A)) r, interleave ls r -> Permutation (concat ls) r.
Proof.
  intros A ls r Hi; induction Hi as [ls Hf|ls1 x l ls2 r Hi IH].
  - rewrite (proj2 (concat_nil_Forall ls) Hf). constructor.
  - rewrite concat_app in *. cbn [concat] in *.
    rewrite <- app_comm_cons. symmetry. apply Permutation_cons_app. symmetry. exact IH.
Qed.
