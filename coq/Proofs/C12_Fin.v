(* C12 — one account over the transactions of a block (Model/C12_Fin.v): every mutator is a sequence of
   journalled writes, each undone exactly by reverting its entry, so a failed frame - whatever its
   sub-frames did, in any transaction, with or without a snapshot layer - is the identity on the object,
   snapDestructs, snapAccounts, the journal, journal.dirties, stateObjectsPending / stateObjectsDirty and
   the account trie; hence a block and the block without its failed frames reach the same state and hand
   the same account entry, destruct mark and snapshot account entry to Commit. *)
From Coq Require Import List NArith ZArith Bool.
From GQ Require Import Lib.Lists Lib.C12_Laws Model.C12_Fin.
Import ListNotations.

(* createObjectChange.revert also deletes the address from stateObjectsDirty: a no-op, because an
   address without object has never been finalised *)
Definition FInv (s : fstate) : Prop := fa_obj s = None -> fa_dirty s = false.

Lemma FInv_fresh base : FInv (fa_fresh base).
Proof. intros _. reflexivity. Qed.

(* journal.dirties[addr] is the number of pending entries whose dirtied() is not nil: no leak, and the [pred]
   of [fa_undo] never meets 0 *)
Definition fdcount (j : list fentry) : nat := length (filter fe_dirtied j).
Definition DInv (s : fstate) : Prop := fa_dirt s = fdcount (fa_jr s).

Lemma DInv_fresh base : DInv (fa_fresh base).
Proof. reflexivity. Qed.

Fixpoint fframe_ind' (P : fframe -> Prop) (HOp : forall o, P (FFOp o))
    (HCall : forall body fails, Forall P body -> P (FFCall body fails)) (f : fframe) : P f :=
  match f with
  | FFOp o => HOp o
  | FFCall body fails =>
      HCall body fails (Forall_all P (fframe_ind' P HOp HCall) body)
  end.

Lemma fa_pop_nil snap k s : fa_jr s = [] -> fa_pop snap k s = s.
Proof. destruct k; cbn; [auto|]. intros ->. reflexivity. Qed.

Lemma fa_pop_S snap k s : fa_pop snap (S k) s = fa_pop snap k (fa_pop snap 1 s).
Proof. cbn [fa_pop]. destruct (fa_jr s) as [|e j] eqn:E; [symmetry; apply fa_pop_nil; exact E|reflexivity]. Qed.

Definition aext (snap : bool) : fstate -> fstate -> Prop := ext (fun s => length (fa_jr s)) (fa_pop snap).

Lemma aext_rewind snap a a' : aext snap a a' -> fa_rewind snap (length (fa_jr a)) a' = a.
Proof. apply ext_rewind. Qed.

Definition keeps (snap : bool) (s s' : fstate) : Prop :=
  FInv s -> aext snap s s' /\ FInv s' /\ (DInv s -> DInv s').

Lemma keeps_refl snap s : keeps snap s s.
Proof. intros I. split; [apply ext_refl; reflexivity|auto]. Qed.

Lemma keeps_trans snap a b c : keeps snap a b -> keeps snap b c -> keeps snap a c.
Proof.
  intros H1 H2 I. destruct (H1 I) as (E1 & I1 & D1). destruct (H2 I1) as (E2 & I2 & D2).
  split; [exact (ext_trans _ _ (fun _ => eq_refl) (fa_pop_S snap) a b c E1 E2)|auto].
Qed.

Lemma keeps_write snap s e s' :
  fa_jr s' = e :: fa_jr s -> fa_dirt s' = (if fe_dirtied e then S (fa_dirt s) else fa_dirt s) ->
  fa_obj s' <> None -> (FInv s -> fa_pop snap 1 s' = s) -> keeps snap s s'.
Proof.
  intros J D O U I. split; [|split].
  - exists 1. split; [rewrite J; reflexivity|exact (U I)].
  - intros H. contradiction.
  - intros Ds. unfold DInv, fdcount. rewrite D, J, Ds. cbn [filter]. destruct (fe_dirtied e); reflexivity.
Qed.

Lemma undo_obj_write g s o o' : fa_obj s = Some o -> o_del o' = false -> g o' = o ->
  fa_undo_obj g (fa_with_obj s (Some o')) = s.
Proof.
  intros E D G. unfold fa_undo_obj, fa_live, fa_with_obj.
  cbn [fa_obj fa_destruct fa_snapacct fa_jr fa_dirt fa_pend fa_dirty fa_trie].
  rewrite D, G, <- E. destruct s; reflexivity.
Qed.

Lemma keeps_field snap s e g o o' :
  fa_obj s = Some o -> o_del o' = false -> g o' = o -> fe_dirtied e = true ->
  (forall s0, fa_pop snap 1 (fa_with_obj (fa_append e s0) (Some o')) = fa_undo_obj g (fa_with_obj s0 (Some o'))) ->
  keeps snap s (fa_with_obj (fa_append e s) (Some o')).
Proof.
  intros E D G F U. apply (keeps_write snap s e); [reflexivity|cbn; rewrite F; reflexivity|discriminate|].
  intros _. rewrite U. exact (undo_obj_write g s o o' E D G).
Qed.

(* createObject over an existing object: the snapDestructs mark it sets is taken off again by
   resetObjectChange.revert exactly when it was not there before (prevdestruct) *)
Lemma keeps_reset snap s p o' : fa_obj s = Some p ->
  keeps snap s (fa_with_obj (fa_append (FEReset p (snap && fa_destruct s))
     (mkFS (fa_obj s) (if snap then true else fa_destruct s) (fa_snapacct s) (fa_jr s) (fa_dirt s)
           (fa_pend s) (fa_dirty s) (fa_trie s))) (Some o')).
Proof.
  intros E. apply (keeps_write snap s (FEReset p (snap && fa_destruct s))); [reflexivity|reflexivity|discriminate|].
  intros _. destruct s as [obj d a jr dirt pe y t]. cbn [fa_obj] in E. subst obj. destruct snap, d; reflexivity.
Qed.

Lemma keeps_create_object snap s : keeps snap s (fst (fa_create_object snap s)).
Proof.
  unfold fa_create_object. destruct (fa_obj s) as [p|] eqn:E; cbn [fst].
  - rewrite <- E. apply keeps_reset. exact E.
  - apply (keeps_write snap s FECreate); [reflexivity|reflexivity|discriminate|].
    intros I. specialize (I E). destruct s as [obj d a jr dirt pe y t]. cbn [fa_obj fa_dirty] in E, I. subst obj y. reflexivity.
Qed.

Lemma get_or_new_spec snap s :
  keeps snap s (fst (fa_get_or_new snap s)) /\
  fa_obj (fst (fa_get_or_new snap s)) = Some (snd (fa_get_or_new snap s)) /\
  o_del (snd (fa_get_or_new snap s)) = false.
Proof.
  assert (C : fa_obj (fst (fa_create_object snap s)) = Some o_new)
    by (unfold fa_create_object; destruct (fa_obj s); reflexivity).
  unfold fa_get_or_new, fa_live. destruct (fa_obj s) as [o|] eqn:E; [destruct (o_del o) eqn:D|]; cbn [fst snd];
    auto using keeps_refl, keeps_create_object.
Qed.

Lemma keeps_gon snap s (F : fstate -> aobj -> fstate) :
  (forall s1 ob, fa_obj s1 = Some ob -> o_del ob = false -> keeps snap s1 (F s1 ob)) ->
  keeps snap s (let '(s1, ob) := fa_get_or_new snap s in F s1 ob).
Proof.
  intros H. destruct (get_or_new_spec snap s) as (W & GL & GD).
  destruct (fa_get_or_new snap s) as [s1 ob]. exact (keeps_trans snap s s1 _ W (H s1 ob GL GD)).
Qed.

Lemma keeps_op snap o s : keeps snap s (fa_op snap o s).
Proof.
  destruct o; unfold fa_op.
  - (* CreateAccount: the balance carried over from a live predecessor is part of the same write *)
    pose proof (keeps_create_object snap s) as W. unfold fa_create_object in *.
    destruct (fa_obj s) as [p|] eqn:E; [|exact W]. destruct (o_del p); [exact W|].
    rewrite <- E. apply keeps_reset. exact E.
  - apply keeps_gon. intros s1 ob GL GD. destruct (Z.eqb v 0).
    + destruct (o_empty ob); [|apply keeps_refl].
      apply (keeps_write snap s1 FETouch); [reflexivity|reflexivity|cbn [fa_append fa_obj]; rewrite GL; discriminate|].
      intros _. destruct s1; reflexivity.
    + apply (keeps_field snap s1 _ (fun o => o_set_bal o (o_bal ob)) ob); auto. destruct ob; reflexivity.
  - apply keeps_gon. intros s1 ob GL GD.
    apply (keeps_field snap s1 _ (fun o => o_set_nonce o (o_nonce ob)) ob); auto. destruct ob; reflexivity.
  - apply keeps_gon. intros s1 ob GL GD.
    apply (keeps_field snap s1 _ (fun o => o_set_code o (o_code ob)) ob); auto. destruct ob; reflexivity.
  - unfold fa_live. destruct (fa_obj s) as [ob|] eqn:E; [|apply keeps_refl]. destruct (o_del ob) eqn:D; [apply keeps_refl|].
    apply (keeps_field snap s _ (fun o => o_set_bal (o_set_suic o (o_suic ob)) (o_bal ob)) ob); auto.
    destruct ob; reflexivity.
Qed.

Lemma keeps_exec snap f : forall s, keeps snap s (fa_exec snap f s).
Proof.
  induction f as [o|body fails IHb] using fframe_ind'; intros s; [apply keeps_op|]. cbn [fa_exec].
  pose proof (fold_left_preorder (keeps snap) _ body (keeps_refl snap) (keeps_trans snap) IHb s) as Hb.
  destruct fails; [|exact Hb].
  intros I. destruct (Hb I) as (E & _). rewrite (aext_rewind _ _ _ E). exact (keeps_refl snap s I).
Qed.

Lemma keeps_frames snap fs s : keeps snap s (fa_frames snap fs s).
Proof. exact (keeps_exec snap (FFCall fs false) s). Qed.

Lemma fa_failed snap body s : FInv s -> fa_exec snap (FFCall body true) s = s.
Proof. intros I. cbn [fa_exec]. apply aext_rewind. apply (keeps_frames snap body s I). Qed.

Lemma fa_frames_app snap l1 l2 s : fa_frames snap (l1 ++ l2) s = fa_frames snap l2 (fa_frames snap l1 s).
Proof. unfold fa_frames. apply fold_left_app. Qed.

Lemma FInv_undo_obj g s : FInv s -> FInv (fa_undo_obj g s).
Proof. intros I. unfold fa_undo_obj. destruct (fa_live s); [intros H; discriminate H|exact I]. Qed.

Lemma FInv_undo snap e s : FInv s -> FInv (fa_undo snap e s).
Proof.
  intros I. destruct e; cbn [fa_undo].
  - intros _. reflexivity.
  - intros H. discriminate H.
  - apply FInv_undo_obj. exact I.
  - apply FInv_undo_obj. exact I.
  - apply FInv_undo_obj. exact I.
  - apply FInv_undo_obj. exact I.
  - exact I.
Qed.

Lemma FInv_pop snap k : forall s, FInv s -> FInv (fa_pop snap k s).
Proof.
  induction k as [|k IH]; intros s I; cbn [fa_pop]; [exact I|].
  destruct (fa_jr s) as [|e j]; [exact I|]. apply IH, FInv_undo. exact I.
Qed.

Lemma FInv_rewind snap n s : FInv s -> FInv (fa_rewind snap n s).
Proof. apply FInv_pop. Qed.

Lemma FInv_exec snap f s : FInv s -> FInv (fa_exec snap f s).
Proof. intros I. apply (keeps_exec snap f s I). Qed.

Lemma FInv_finalize snap s : FInv s -> FInv (fa_finalize snap s).
Proof.
  destruct s as [obj d a jr dirt p y t]. unfold FInv, fa_finalize. cbn.
  destruct obj as [o|].
  - intros _. destruct dirt; [|destruct (o_suic o || o_empty o)]; destruct jr; intros H; discriminate H.
  - intros I. destruct dirt, jr; exact I.
Qed.

Lemma FInv_root snap s : FInv s -> FInv (fa_root snap s).
Proof.
  intros I. pose proof (FInv_finalize snap s I) as I1. unfold fa_root.
  destruct (fa_pend (fa_finalize snap s)); [|exact I1].
  destruct (fa_obj (fa_finalize snap s)) as [o|]; [|exact I1].
  destruct (o_del o); intros H; discriminate H.
Qed.

Lemma DInv_finalize snap s : DInv s -> DInv (fa_finalize snap s).
Proof.
  destruct s as [obj d a jr dirt p y t]. unfold DInv, fa_finalize.
  cbn [fa_obj fa_destruct fa_snapacct fa_jr fa_dirt fa_pend fa_dirty fa_trie]. intros ->.
  destruct jr as [|e l]; [reflexivity|].
  destruct (fdcount (e :: l)); [reflexivity|]. destruct obj as [o|]; [|reflexivity].
  destruct (o_suic o || o_empty o); reflexivity.
Qed.

Lemma DInv_root snap s : DInv s -> DInv (fa_root snap s).
Proof.
  intros I. pose proof (DInv_finalize snap s I) as I1. unfold fa_root.
  destruct (fa_pend (fa_finalize snap s)); [|exact I1].
  destruct (fa_obj (fa_finalize snap s)) as [o|]; [|exact I1].
  destruct (o_del o); exact I1.
Qed.

Lemma Inv_tx snap t s : FInv s -> FInv (fa_tx snap s t) /\ (DInv s -> DInv (fa_tx snap s t)).
Proof.
  intros I. unfold fa_tx. destruct (keeps_frames snap (fst t) s I) as (_ & I1 & D1).
  destruct (snd t).
  - split; [apply FInv_root; exact I1|]. intros D. apply DInv_root. exact (D1 D).
  - split; [apply FInv_finalize; exact I1|]. intros D. apply DInv_finalize. exact (D1 D).
Qed.

Lemma Inv_block snap b s : FInv s -> FInv (fa_block snap b s) /\ (DInv s -> DInv (fa_block snap b s)).
Proof.
  intros I. apply (fold_left_inv (fun a => FInv a /\ (DInv s -> DInv a))); [|auto].
  intros a t _ [Ia Da]. destruct (Inv_tx snap t a Ia) as (I1 & D1). auto.
Qed.

Fixpoint ferase (f : fframe) : list fframe :=
  match f with
  | FFOp o => [FFOp o]
  | FFCall body fails => if fails then [] else [FFCall (flat_map ferase body) false]
  end.
Definition ferase_block (b : fblock) : fblock := map (fun t => (flat_map ferase (fst t), snd t)) b.

Lemma fa_erase snap f : forall s, FInv s -> fa_frames snap (ferase f) s = fa_exec snap f s.
Proof.
  induction f as [o|body fails IHb] using fframe_ind'; intros s I; [reflexivity|].
  destruct fails; [rewrite (fa_failed snap body s I); reflexivity|].
  exact (erased_body FInv (fa_exec snap) ferase (FInv_exec snap) body IHb s I).
Qed.

Lemma fa_erase_block snap b s : FInv s -> fa_block snap (ferase_block b) s = fa_block snap b s.
Proof.
  exact (erased_block FInv (fa_exec snap) ferase (FInv_exec snap) (fa_finalize snap) (fa_root snap)
           (FInv_finalize snap) (FInv_root snap) (fa_erase snap) b s).
Qed.

Fixpoint no_fail (f : fframe) : bool :=
  match f with FFOp _ => true | FFCall body fails => negb fails && forallb no_fail body end.

(* Forgetting snapDestructs, snapAccounts and the saved prevdestruct commutes with every step: in everything
   else the snapshot-backed run is the trie-backed run. *)
Definition nopd (e : fentry) : fentry := match e with FEReset p _ => FEReset p false | _ => e end.
Definition nosnap (s : fstate) : fstate :=
  mkFS (fa_obj s) false false (map nopd (fa_jr s)) (fa_dirt s) (fa_pend s) (fa_dirty s) (fa_trie s).

Lemma nosnap_create_object snap s :
  fa_create_object false (nosnap s) = (nosnap (fst (fa_create_object snap s)), snd (fa_create_object snap s)).
Proof. unfold fa_create_object. cbn [nosnap fa_obj]. destruct (fa_obj s); reflexivity. Qed.

Lemma nosnap_get_or_new snap s :
  fa_get_or_new false (nosnap s) = (nosnap (fst (fa_get_or_new snap s)), snd (fa_get_or_new snap s)).
Proof.
  unfold fa_get_or_new. change (fa_live (nosnap s)) with (fa_live s).
  destruct (fa_live s); [reflexivity|]. rewrite (nosnap_create_object snap). reflexivity.
Qed.

Lemma nosnap_op snap o s : nosnap (fa_op snap o s) = fa_op false o (nosnap s).
Proof.
  destruct o; unfold fa_op; rewrite ?(nosnap_create_object snap), ?(nosnap_get_or_new snap).
  - destruct (fa_create_object snap s) as [s1 [p|]]; reflexivity.
  - destruct (fa_get_or_new snap s) as [s1 ob]. cbn [fst snd].
    destruct (Z.eqb v 0); [destruct (o_empty ob)|]; reflexivity.
  - destruct (fa_get_or_new snap s) as [s1 ob]. reflexivity.
  - destruct (fa_get_or_new snap s) as [s1 ob]. reflexivity.
  - change (fa_live (nosnap s)) with (fa_live s). destruct (fa_live s); reflexivity.
Qed.

Lemma nosnap_undo snap e s : nosnap (fa_undo snap e s) = fa_undo false (nopd e) (nosnap s).
Proof.
  destruct e; try reflexivity; unfold fa_undo, fa_undo_obj, fa_live;
    cbn [nopd nosnap fa_obj fa_destruct fa_snapacct fa_jr fa_dirt fa_pend fa_dirty fa_trie fe_dirtied];
    (destruct (fa_obj s) as [o|]; [destruct (o_del o)|]; reflexivity).
Qed.

Lemma nosnap_pop snap k : forall s, nosnap (fa_pop snap k s) = fa_pop false k (nosnap s).
Proof.
  induction k as [|k IH]; intros s; cbn [fa_pop]; [reflexivity|].
  change (fa_jr (nosnap s)) with (map nopd (fa_jr s)).
  destruct (fa_jr s) as [|e j]; [reflexivity|]. cbn [map]. rewrite IH, nosnap_undo. reflexivity.
Qed.

Lemma nosnap_exec snap f : forall s t, nosnap s = t -> nosnap (fa_exec snap f s) = fa_exec false f t.
Proof.
  induction f as [o|body fails IHb] using fframe_ind'; intros s t <-; cbn [fa_exec]; [apply nosnap_op|].
  rewrite <- (fold_left_sim (fun s t => nosnap s = t) _ _ body IHb s _ eq_refl).
  destruct fails; [|reflexivity]. unfold fa_rewind. rewrite nosnap_pop. cbn [nosnap fa_jr]. rewrite !map_length. reflexivity.
Qed.

Lemma nosnap_frames snap fs s : nosnap (fa_frames snap fs s) = fa_frames false fs (nosnap s).
Proof. exact (nosnap_exec snap (FFCall fs false) s _ eq_refl). Qed.

Lemma nosnap_finalize snap s : nosnap (fa_finalize snap s) = fa_finalize false (nosnap s).
Proof.
  destruct s as [obj d a jr dirt p y t]. unfold fa_finalize, nosnap.
  cbn [fa_obj fa_destruct fa_snapacct fa_jr fa_dirt fa_pend fa_dirty fa_trie].
  destruct dirt as [|dirt]; [destruct jr; reflexivity|].
  destruct obj as [o|]; [|destruct jr; reflexivity].
  destruct (o_suic o || o_empty o);
    cbn [fa_obj fa_destruct fa_snapacct fa_jr fa_dirt fa_pend fa_dirty fa_trie]; destruct jr, snap; reflexivity.
Qed.

Lemma nosnap_root snap s : nosnap (fa_root snap s) = fa_root false (nosnap s).
Proof.
  unfold fa_root. rewrite <- (nosnap_finalize snap s).
  destruct (fa_finalize snap s) as [obj d a jr dirt p y t]. unfold nosnap. cbn.
  destruct p; [|reflexivity]. destruct obj as [o|]; [|reflexivity]. destruct (o_del o), snap; reflexivity.
Qed.

Lemma nosnap_block snap b s : nosnap (fa_block snap b s) = fa_block false b (nosnap s).
Proof.
  apply (fold_left_sim (fun s t => nosnap s = t)); [|reflexivity].
  apply Forall_forall. intros t _ s1 ? <-. unfold fa_tx. rewrite <- (nosnap_frames snap (fst t) s1).
  destruct (snd t); [apply nosnap_root|apply nosnap_finalize].
Qed.
