(* C04 (d): the hand-down of ETXs inside a region (CollectNewlyConfirmedEtxs / CollectSubRollup and
   the glue of Slice.Append): the walk over the block store computes the list-level hand-down on a
   tree-shaped store, and along any chain every ETX owed to a zone of the region is handed to that
   zone exactly once, by the first region-order block of that zone at or after the block that owes it;
   likewise in the prime node, for every destination region. *)
From Coq Require Import List NArith Bool Lia Permutation.
From GQ Require Import Lib.Key Model.C04 Proofs.C04_Route.
Import ListNotations.
Local Open Scope N_scope.

(* anc = the ancestors of cur in the store, nearest first, down to (excluding) a genesis block *)
Fixpoint anc_chain (w : rworld) (cur : rblock) (anc : list rblock) : Prop :=
  match anc with
  | [] => (exists g, lookup_block w (rb_parent cur) = Some g) /\ is_genesis w (rb_parent cur) = true
  | p :: anc' => lookup_block w (rb_parent cur) = Some p /\ is_genesis w (rb_parent cur) = false
                 /\ anc_chain w p anc'
  end.

(* the node holds the pending ETXs of every block the manifests of the chain refer to *)
Definition complete (w : rworld) (c : list rblock) : Prop :=
  Forall (fun p => sub_rollup w (rb_manifest p) <> None) c.

Definition chain_in_store (w : rworld) (c : list rblock) : Prop :=
  match c with [] => True | b :: anc => anc_chain w b anc end.

Lemma complete_roll w p : sub_rollup w (rb_manifest p) <> None ->
  sub_rollup w (rb_manifest p) = Some (roll_of w p).
Proof. unfold roll_of. destruct (sub_rollup w (rb_manifest p)); congruence. Qed.

Lemma sub_rollup_concat w : forall m ls,
  Forall2 (fun h l => lookup_pending w h = Some l) m ls -> sub_rollup w m = Some (concat ls).
Proof.
  induction m as [|h m IH]; intros ls H; inversion H as [|? l ? ls' Hl Hr]; subst; [reflexivity|].
  cbn [sub_rollup concat]. rewrite Hl, (IH _ Hr). reflexivity.
Qed.
Lemma sub_rollup_missing w : forall m h, In h m -> lookup_pending w h = None -> sub_rollup w m = None.
Proof.
  induction m as [|x m IH]; intros h Hm Hn; [destruct Hm|].
  destruct Hm as [->|Hin]; cbn [sub_rollup].
  - rewrite Hn. reflexivity.
  - destruct (lookup_pending w x); [|reflexivity]. rewrite (IH h Hin Hn). reflexivity.
Qed.

Lemma nc_walk_refines w ctx loc border : forall anc cur acc fuel,
  anc_chain w cur anc -> complete w anc -> (length anc < fuel)%nat ->
  nc_walk fuel w ctx loc border cur acc = ROk (acc ++ collect_list w ctx loc border anc).
Proof.
  induction anc as [|p anc IH]; intros cur acc fuel Hc Hcomp Hf; destruct fuel as [|f]; try (simpl in Hf; lia).
  - destruct Hc as [[g Hg] Hgen]. cbn [nc_walk collect_list]. rewrite Hg, Hgen, app_nil_r. reflexivity.
  - destruct Hc as [Hp [Hgen Hrest]]. cbn [nc_walk collect_list]. rewrite Hp, Hgen.
    destruct (walk_stops ctx loc p).
    + rewrite app_nil_r. reflexivity.
    + inversion Hcomp as [|? ? Hr Hcomp']; subst.
      rewrite (complete_roll w p Hr).
      rewrite (IH p _ f Hrest Hcomp') by (simpl in Hf; lia).
      unfold contrib. rewrite <- !app_assoc. reflexivity.
Qed.

Lemma anc_chain_in w : forall anc cur, anc_chain w cur anc -> incl anc (rw_blocks w).
Proof.
  induction anc as [|p anc IH]; intros cur Hc x Hx; [destruct Hx|].
  destruct Hc as [Hp [_ Hrest]]. destruct Hx as [<-|Hx].
  - apply find_some in Hp. apply Hp.
  - apply (IH p Hrest x Hx).
Qed.

Lemma newly_confirmed_refines w ctx b anc border :
  anc_chain w b anc -> complete w (b :: anc) -> NoDup anc ->
  newly_confirmed w ctx b border
  = ROk (sel ctx (rb_loc b) border (roll_of w b) ++ collect_list w ctx (rb_loc b) border anc).
Proof.
  intros Hc Hcomp Hnd. inversion Hcomp as [|? ? Hb Hanc]; subst.
  unfold newly_confirmed. rewrite (complete_roll w b Hb).
  apply nc_walk_refines; auto.
  (* no block occurs twice among the ancestors, so the fuel (number of stored blocks + 1) suffices *)
  pose proof (NoDup_incl_length Hnd (anc_chain_in w anc b Hc)). lia.
Qed.

Lemma handed_down_refines w ctx b anc :
  anc_chain w b anc -> complete w (b :: anc) -> NoDup anc ->
  handed_down w ctx b = ROk (handed_list w ctx b anc).
Proof.
  intros Hc Hcomp Hnd. unfold handed_down, handed_list.
  destruct (rb_order b <? ctx); [reflexivity|].
  apply newly_confirmed_refines; auto.
Qed.

Lemma chain_in_store_tail w x c : chain_in_store w (x :: c) -> chain_in_store w c.
Proof. destruct c as [|y c]; [exact (fun _ => I)|]. intros (_ & _ & H). exact H. Qed.

Lemma chain_handed_down w ctx : forall pre b anc,
  chain_in_store w (pre ++ b :: anc) -> complete w (pre ++ b :: anc) -> NoDup (pre ++ b :: anc) ->
  handed_down w ctx b = ROk (handed_list w ctx b anc).
Proof.
  induction pre as [|x pre IH]; intros b anc Hch Hcomp Hnd.
  - apply handed_down_refines; [exact Hch|exact Hcomp|inversion Hnd; assumption].
  - apply IH; [exact (chain_in_store_tail w x _ Hch)|inversion Hcomp; assumption|inversion Hnd; assumption].
Qed.

Lemma sel_region_dest loc order l e : In e (sel REGION_CTX loc order l) ->
  loc_of_prefix (fst (retx_tx e)) = loc.
Proof. intro H. apply filter_In in H as [_ H]. symmetry. exact (filter_region_sound _ _ _ _ H). Qed.

Lemma loc_of_prefix_region p : nth_error (loc_of_prefix p) 0 = Some (p / 16).
Proof. reflexivity. Qed.

Lemma filter_region_standard loc order tx : filter_to_sub loc REGION_CTX order tx = true ->
  order <> PRIME_CTX -> snd tx <> ETX_COINBASE /\ snd tx <> ETX_CONVERSION.
Proof.
  destruct tx as [p ty]. rewrite filter_region_spec. unfold standard_ty. cbn [snd].
  intros H Ho. apply N.eqb_neq in Ho. rewrite Ho in H.
  apply andb_true_iff in H. destruct H as [_ H]. apply andb_true_iff in H. destruct H as [H1 H2].
  apply negb_true_iff in H1, H2. apply N.eqb_neq in H1, H2. tauto.
Qed.

Lemma collect_list_dest w loc border : forall anc e,
  In e (collect_list w REGION_CTX loc border anc) -> loc_of_prefix (fst (retx_tx e)) = loc.
Proof.
  induction anc as [|p anc IH]; intros e H; [destruct H|].
  cbn [collect_list] in H. destruct (walk_stops REGION_CTX loc p); [destruct H|].
  unfold contrib, rolldown in H. rewrite !in_app_iff in H. destruct H as [[H|H]|H].
  - destruct (_ && _) in H; [|destruct H]. apply (sel_region_dest _ _ _ _ H).
  - apply (sel_region_dest _ _ _ _ H).
  - apply (IH e H).
Qed.

Definition in_region (R : N) (loc : list N) : Prop := exists z, loc = [R; z].
(* a block of a chain of region R in which zone Z is active: no prime-order block predates the
   activation of Z *)
Definition wf_block (R : N) (Z : list N) (b : rblock) : Prop :=
  in_region R (rb_loc b) /\ (rb_order b = PRIME_CTX \/ rb_order b = REGION_CTX)
  /\ (rb_order b = PRIME_CTX -> not_active (rb_exp b) Z = false).

Definition retx_dec : forall a b : retx, {a = b} + {a <> b}.
Proof. repeat decide equality. Defined.
Definition cnt (e : retx) (l : list retx) : nat := count_occ retx_dec l e.
Lemma cnt_app e l1 l2 : cnt e (l1 ++ l2) = (cnt e l1 + cnt e l2)%nat.
Proof. apply count_occ_app. Qed.

(* d delivered, p pending, o owed so far; the new block hands down s, leaves p' pending and owes ob *)
Lemma balance_count e (d s p' o ob p : list retx) :
  (cnt e d + cnt e p = cnt e o)%nat -> s ++ p' = ob ++ p -> (cnt e (d ++ s) + cnt e p' = cnt e (o ++ ob))%nat.
Proof. intros H E. apply (f_equal (cnt e)) in E. rewrite !cnt_app in *. lia. Qed.

Lemma count_conservation (d p o : list retx) :
  (forall e, (cnt e d + cnt e p = cnt e o)%nat) ->
  Permutation (d ++ p) o /\ (NoDup o -> NoDup (d ++ p)).
Proof.
  intro H. assert (P : Permutation (d ++ p) o).
  { apply (Permutation_count_occ retx_dec). intro e. rewrite count_occ_app. apply H. }
  split; [exact P|]. apply Permutation_NoDup, Permutation_sym, P.
Qed.

Lemma same_sub_region R z z0 : same_sub REGION_CTX [R; z] [R; z0] = keqb [R; z] [R; z0].
Proof. rewrite keqb_pair, N.eqb_refl. reflexivity. Qed.

Lemma same_sub_refl ctx a : same_sub ctx a a = true.
Proof.
  unfold same_sub. destruct (ctx =? PRIME_CTX); [|destruct (ctx =? REGION_CTX); [|reflexivity]].
  - destruct (nth_error a 0); [apply N.eqb_refl|reflexivity].
  - destruct (nth_error a 1); [apply N.eqb_refl|reflexivity].
Qed.

(* the delivery point: the second test of walk_stops alone ends the walk, whatever the expansion numbers *)
Lemma delivery_point_clears w ctx Z border b anc :
  same_sub ctx (rb_loc b) Z = true -> rb_order b = ctx -> collect_list w ctx Z border (b :: anc) = [].
Proof.
  intros Hs Ho. cbn [collect_list]. unfold walk_stops. rewrite Hs, Ho, N.eqb_refl, orb_true_r. reflexivity.
Qed.

Lemma collect_list_app w ctx Z border mid rest : Forall (fun p => walk_stops ctx Z p = false) mid ->
  collect_list w ctx Z border (mid ++ rest)
  = flat_map (contrib w ctx Z border) mid ++ collect_list w ctx Z border rest.
Proof.
  induction 1 as [|m mid Hm _ IH]; [reflexivity|].
  cbn [app collect_list flat_map]. rewrite Hm, IH. apply app_assoc.
Qed.

Lemma handed_list_own w ctx b anc : rb_order b = ctx ->
  handed_list w ctx b anc = sel ctx (rb_loc b) ctx (roll_of w b) ++ collect_list w ctx (rb_loc b) ctx anc.
Proof. intros <-. unfold handed_list. rewrite N.ltb_irrefl. reflexivity. Qed.

Lemma walk_stops_wf R Z b : in_region R Z -> wf_block R Z b ->
  walk_stops REGION_CTX Z b = keqb (rb_loc b) Z && (rb_order b =? REGION_CTX).
Proof.
  intros [z0 ->] [[z Hl] [Ho Ha]]. unfold walk_stops. rewrite Hl, same_sub_region.
  destruct Ho as [Ho|Ho]; rewrite Ho in *.
  - rewrite (Ha eq_refl). change (PRIME_CTX =? REGION_CTX) with false. rewrite andb_false_r. reflexivity.
  - reflexivity.
Qed.

Lemma region_block_balance w R Z b anc : in_region R Z -> wf_block R Z b ->
  (if keqb (rb_loc b) Z then handed_list w REGION_CTX b anc else []) ++ pending_for w Z (b :: anc)
  = owed_by w Z b ++ pending_for w Z anc.
Proof.
  intros HZ Hb. unfold pending_for. cbn [collect_list]. rewrite (walk_stops_wf R Z b HZ Hb).
  destruct Hb as [_ [Ho _]]. unfold owed_by, handed_list, contrib, rolldown. rewrite (keqb_sym Z).
  destruct (keqb (rb_loc b) Z) eqn:Ek.
  - apply keqb_eq in Ek. rewrite Ek. destruct Ho as [Ho|Ho]; rewrite Ho.
    + (* a prime-order block of Z hands down what prime sent with it; its sub rollup joins what is pending *)
      apply app_assoc.
    + (* the delivery point: its sub rollup and everything pending, nothing left *)
      apply app_nil_r.
  - (* a block of another zone: what it owes Z is what it adds to the pending *)
    destruct Ho as [Ho|Ho]; rewrite Ho; reflexivity.
Qed.

Lemma region_conservation_count w R Z : in_region R Z -> forall c, Forall (wf_block R Z) c ->
  forall e, (cnt e (delivered w Z c) + cnt e (pending_for w Z c) = cnt e (owed w Z c))%nat.
Proof.
  intros HZ. induction c as [|b anc IH]; intros Hwf e; [reflexivity|].
  inversion Hwf as [|? ? Hb Hanc]; subst. cbn [delivered owed].
  apply (balance_count e _ _ _ _ _ _ (IH Hanc e)), (region_block_balance w R Z b anc HZ Hb).
Qed.

Definition not_region_block_of (Z : list N) (p : rblock) : Prop :=
  keqb (rb_loc p) Z && (rb_order p =? REGION_CTX) = false.

(* a chain of prime blocks in which the region named by Z (and the slice of every block) is active *)
Definition wf_chain_p (Z : list N) (c : list rblock) : Prop :=
  Forall (fun b => rb_order b = PRIME_CTX /\ not_active (rb_exp b) Z = false) c
  /\ (forall b p, In b c -> In p c -> not_active (rb_exp p) (rb_loc b) = false).

Lemma same_sub_prime_eq a b : same_sub PRIME_CTX a b = true -> nth_error a 0 = nth_error b 0.
Proof.
  unfold same_sub. change (PRIME_CTX =? PRIME_CTX) with true. cbn iota.
  destruct (nth_error a 0), (nth_error b 0); cbn; intro H; try discriminate; [|reflexivity].
  apply N.eqb_eq in H. subst. reflexivity.
Qed.

Lemma same_sub_prime_trans x a b : same_sub PRIME_CTX a b = true -> same_sub PRIME_CTX x a = same_sub PRIME_CTX x b.
Proof. intro H. unfold same_sub. rewrite (same_sub_prime_eq a b H). reflexivity. Qed.

Lemma sel_prime_same_sub a b order l : same_sub PRIME_CTX a b = true -> sel PRIME_CTX a order l = sel PRIME_CTX b order l.
Proof.
  intro H. apply filter_ext. intro e. unfold filter_to_sub. destruct (retx_tx e) as [p ty].
  rewrite (same_sub_prime_eq a b H). reflexivity.
Qed.

Lemma rolldown_prime loc p : rolldown PRIME_CTX loc p = [].
Proof. reflexivity. Qed.

Lemma walk_stops_prime loc p : rb_order p = PRIME_CTX -> not_active (rb_exp p) loc = false ->
  walk_stops PRIME_CTX loc p = same_sub PRIME_CTX (rb_loc p) loc.
Proof.
  intros Ho Ha. unfold walk_stops. rewrite Ho, Ha. change (PRIME_CTX =? PRIME_CTX) with true.
  rewrite andb_false_r, andb_true_r. reflexivity.
Qed.

Lemma collect_list_prime_indep w a b border : same_sub PRIME_CTX a b = true -> forall anc,
  Forall (fun p => rb_order p = PRIME_CTX /\ not_active (rb_exp p) b = false) anc ->
  (forall p, In p anc -> not_active (rb_exp p) a = false) ->
  collect_list w PRIME_CTX a border anc = collect_list w PRIME_CTX b border anc.
Proof.
  intros Hab. induction anc as [|p anc IH]; intros H Ha; [reflexivity|].
  inversion H as [|? ? [Ho Hb] Hrest]; subst. cbn [collect_list].
  rewrite (walk_stops_prime a p Ho (Ha p (or_introl eq_refl))), (walk_stops_prime b p Ho Hb),
    (same_sub_prime_trans (rb_loc p) a b Hab).
  destruct (same_sub PRIME_CTX (rb_loc p) b); [reflexivity|].
  unfold contrib. rewrite !rolldown_prime, (sel_prime_same_sub a b border _ Hab), (IH Hrest); [reflexivity|].
  intros q Hq. apply Ha. right; exact Hq.
Qed.

Lemma wf_chain_p_tail Z b anc : wf_chain_p Z (b :: anc) -> wf_chain_p Z anc.
Proof.
  intros [Hwf Hact]. split; [exact (Forall_inv_tail Hwf)|]. intros x y Hx Hy. apply Hact; right; assumption.
Qed.

Lemma prime_block_balance w Z b anc : wf_chain_p Z (b :: anc) ->
  (if same_sub PRIME_CTX (rb_loc b) Z then handed_list w PRIME_CTX b anc else []) ++ pending_for_p w Z (b :: anc)
  = owed_by_p w Z b ++ pending_for_p w Z anc.
Proof.
  intros [Hwf Hact]. inversion Hwf as [|? ? [Ho Ha] Hanc]; subst.
  unfold pending_for_p. cbn [collect_list]. rewrite (walk_stops_prime Z b Ho Ha). unfold owed_by_p.
  destruct (same_sub PRIME_CTX (rb_loc b) Z) eqn:Es; [|reflexivity].
  (* the hand-down is computed for the block's own slice, which lies in the region of Z *)
  rewrite (handed_list_own w _ b anc Ho), (sel_prime_same_sub (rb_loc b) Z PRIME_CTX _ Es),
    (collect_list_prime_indep w (rb_loc b) Z PRIME_CTX Es anc Hanc)
    by (intros p Hp; apply Hact; [left; reflexivity|right; exact Hp]).
  apply app_nil_r.
Qed.

Lemma prime_conservation_count w Z : forall c, wf_chain_p Z c ->
  forall e, (cnt e (delivered_p w Z c) + cnt e (pending_for_p w Z c) = cnt e (owed_p w Z c))%nat.
Proof.
  induction c as [|b anc IH]; intros Hwf e; [reflexivity|]. cbn [delivered_p owed_p].
  apply (balance_count e _ _ _ _ _ _ (IH (wf_chain_p_tail Z b anc Hwf) e)), (prime_block_balance w Z b anc Hwf).
Qed.

(* a concrete chain of the shape of seeded C04_2: region 0, zones 0..2.  r1 (zone 1), r2 (zone 0: its zone
   block 102 emitted a -> zone 1, b -> zone 2, x -> region 1), r3 (zone 1, PRIME order, prime hands down
   p1 -> zone 1 and the conversion p2 -> zone 2), r4 (zone 2), r5 (zone 1) *)
Definition ex_world : rworld :=
  mkRW [1]
    [mkRB 1 0 [] 0 0 [] [];
     mkRB 11 1 [0;1] 1 4 [101] [];
     mkRB 12 11 [0;0] 1 4 [102] [];
     mkRB 13 12 [0;1] 0 4 [103] [(7,1,0); (8,2,2)];
     mkRB 14 13 [0;2] 1 4 [104] [];
     mkRB 15 14 [0;1] 1 4 [105] []]
    [(101, []); (102, [(1,1,0); (2,2,0); (3,17,0)]); (103, [(4,0,0)]); (104, [(5,1,0)]); (105, [(6,2,0)])].
Definition ex_b (h : N) : rblock := match lookup_block ex_world h with Some b => b | None => mkRB 0 0 [] 0 0 [] [] end.
Definition ex_chain : list rblock := map ex_b [15; 14; 13; 12; 11].
