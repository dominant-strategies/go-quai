(* C18 -- trie.go:insert : no panic, canonical form preserved, get-after-put, other keys untouched.
   Preconditions are semantic: the key is prefix-incomparable with every stored key (pf), and stored
   keys use the terminator symbol 16 only as their last symbol (okdom / tk).  Both hold for
   keybytesToHex keys (hex_tk, hex_not_sprefix).  [fits] is what insert, delete and the proof walk
   need alike. *)
From Coq Require Import List NArith Bool Arith Lia.
From GQ Require Import Lib.Key Lib.Lists Model.C18 Proofs.C18_Base.
Import ListNotations.

Definition sprefix (a b : hkey) : Prop := exists c r, b = a ++ c :: r.

Definition pf (t : node) (key : hkey) : Prop :=
  forall q, lookup t q <> None -> ~ sprefix q key /\ ~ sprefix key q.

Fixpoint tk (q : hkey) : Prop :=
  match q with
  | [] => True
  | x :: q' => match q' with [] => (x <= 16)%N | _ => (x < 16)%N /\ tk q' end
  end.

Definition okdom (t : node) : Prop := forall q, lookup t q <> None -> tk q.

Lemma sprefix_nil q : sprefix [] q <-> q <> [].
Proof.
  split.
  - intros (c & r & ->). discriminate.
  - destruct q as [|c r]; [congruence|]. intros _. exists c, r. reflexivity.
Qed.

Lemma sprefix_app p a b : sprefix (p ++ a) (p ++ b) <-> sprefix a b.
Proof.
  split; intros (c & r & He).
  - rewrite <- app_assoc in He. apply app_inv_head in He. exists c, r. exact He.
  - exists c, r. rewrite He, app_assoc. reflexivity.
Qed.

Lemma sprefix_cons c a b : sprefix (c :: a) (c :: b) <-> sprefix a b.
Proof. apply (sprefix_app [c]). Qed.

Lemma tk_suffix p q : tk (p ++ q) -> tk q.
Proof.
  induction p as [|a p IH]; cbn [app]; auto.
  intros Ht. cbn [tk] in Ht. destruct (p ++ q) eqn:E.
  - destruct p; cbn in E; [subst; exact I | discriminate].
  - apply IH. apply Ht.
Qed.

Lemma tk_head c r : tk (c :: r) -> (c <= 16)%N.
Proof. cbn. destruct r; [auto|]. intros [H _]. lia. Qed.

Lemma tk_mid p y r : tk (p ++ y :: r) -> (y <= 16)%N.
Proof. intros Ht. apply tk_suffix in Ht. apply tk_head in Ht. exact Ht. Qed.

Lemma tk_snoc n : Forall (fun x => (x < 16)%N) n -> tk (n ++ [16%N]).
Proof.
  induction 1 as [|x n Hx _ IH]; cbn [app]; [cbn; lia|].
  cbn [tk]. destruct (n ++ [16%N]) eqn:E; [destruct n; discriminate|]. split; assumption.
Qed.

(* why encoding.go appends the terminator *)
Lemma terminated_prefix_free (z : N) a b : ~ In z b -> ~ sprefix (a ++ [z]) (b ++ [z]).
Proof.
  intros Hz (c & r & He). destruct (exists_last (l := c :: r)) as (r' & z' & E); [discriminate|].
  rewrite E, !app_assoc in He. apply app_inj_tail in He as [-> _]. apply Hz. rewrite <- app_assoc. apply in_elt.
Qed.

Lemma hex_nibbles k : hex k = nibbles k ++ [16%N].
Proof. induction k as [|b k IH]; cbn [hex nibbles app]; [reflexivity|]. rewrite IH. reflexivity. Qed.

Lemma nibbles_lt k : wf_bytes k -> Forall (fun x => (x < 16)%N) (nibbles k).
Proof.
  induction 1 as [|b k Hb _ IH]; cbn [nibbles]; [constructor|].
  constructor; [|constructor; [|exact IH]].
  - apply N.div_lt_upper_bound; lia.
  - apply N.mod_lt. lia.
Qed.

Lemma nibbles_inj a : forall b, nibbles a = nibbles b -> a = b.
Proof.
  induction a as [|x a IH]; intros [|y b] He; try discriminate; [reflexivity|].
  injection He as H1 H2 H3. f_equal; auto.
  rewrite (N.div_mod x 16), (N.div_mod y 16) by lia. congruence.
Qed.

Lemma hex_not_nil bs : hex bs <> [].
Proof. destruct bs; discriminate. Qed.

Lemma hex_tk bs : wf_bytes bs -> tk (hex bs).
Proof. intros Hb. rewrite hex_nibbles. apply tk_snoc, nibbles_lt, Hb. Qed.

Lemma hex_inj a b : hex a = hex b -> a = b.
Proof. rewrite !hex_nibbles. intros He%app_inv_tail. apply nibbles_inj, He. Qed.

Lemma keqb_hex a b : keqb (hex a) (hex b) = keqb a b.
Proof.
  destruct (keqb a b) eqn:E.
  - apply keqb_eq in E. subst. apply keqb_refl.
  - apply keqb_neq in E. apply keqb_neq. intros H. apply E. apply hex_inj. exact H.
Qed.

Lemma hex_not_sprefix a b : wf_bytes b -> ~ sprefix (hex a) (hex b).
Proof.
  intros Hb. rewrite !hex_nibbles. apply terminated_prefix_free. intros Hi.
  apply (proj1 (Forall_forall _ _) (nibbles_lt b Hb)) in Hi. lia.
Qed.

Lemma pf_short k c r : pf (Short k c) (k ++ r) -> pf c r.
Proof.
  intros Hp q Hq. specialize (Hp (k ++ q)). rewrite lookup_short_app in Hp.
  specialize (Hp Hq). rewrite !sprefix_app in Hp. exact Hp.
Qed.

Lemma pf_full cs c r x : nth_error cs (N.to_nat c) = Some x -> pf (Full cs) (c :: r) -> pf x r.
Proof.
  intros Hx Hp q Hq. specialize (Hp (c :: q)). rewrite lookup_full, Hx in Hp.
  specialize (Hp Hq). rewrite !sprefix_cons in Hp. exact Hp.
Qed.

Lemma okdom_short k c : okdom (Short k c) -> okdom c.
Proof.
  intros Ho q Hq. apply (tk_suffix k). apply Ho. rewrite lookup_short_app. exact Hq.
Qed.

Lemma okdom_full cs i x : nth_error cs i = Some x -> okdom (Full cs) -> okdom x.
Proof.
  intros Hx Ho q Hq. apply (tk_suffix [N.of_nat i]). apply Ho. cbn [app].
  rewrite lookup_full, Nat2N.id, Hx. exact Hq.
Qed.

Lemma pf_nil_key t q : pf t [] -> q <> [] -> lookup t q = None.
Proof.
  intros Hp Hq. destruct (lookup t q) eqn:E; auto. exfalso.
  destruct (Hp q) as [_ Hn]; [congruence|]. apply Hn. apply sprefix_nil. exact Hq.
Qed.

Lemma pf_val v key : pf (Val v) key -> key = [].
Proof.
  intros Hp. destruct key as [|c r]; [reflexivity|]. exfalso.
  destruct (Hp []) as [Hn _]; [discriminate|]. apply Hn, sprefix_nil. discriminate.
Qed.

Lemma pf_nil_key_val n : wfn n = true -> pf n [] -> exists v, n = Val v.
Proof.
  intros Hw Hp. destruct (wfn_nonempty _ Hw) as (q & v & Hq).
  destruct q as [|a q]; [|rewrite (pf_nil_key n (a :: q) Hp) in Hq; discriminate].
  exists v. exact (wf_nil_key n v (wfn_wf _ Hw) Hq).
Qed.

Definition fits (n : node) (key : hkey) : Prop := wf n = true /\ pf n key /\ tk key.

Lemma fits_val v key : fits (Val v) key -> key = [].
Proof. intros (_ & Hp & _). exact (pf_val v key Hp). Qed.

Lemma fits_short k c r : fits (Short k c) (k ++ r) -> fits c r.
Proof.
  intros (Hw & Hp & Hk). apply wfn_short in Hw as (_ & _ & Hc).
  exact (conj (wfn_wf _ Hc) (conj (pf_short _ _ _ Hp) (tk_suffix _ _ Hk))).
Qed.

Lemma fits_full cs key : fits (Full cs) key ->
  exists c rest x, key = c :: rest /\ nth_error cs (N.to_nat c) = Some x /\ fits x rest.
Proof.
  intros (Hw & Hp & Hk).
  destruct key as [|c rest]; [destruct (pf_nil_key_val _ Hw Hp); discriminate|].
  apply wfn_full in Hw as (Hl & _ & Hf). pose proof (tk_head _ _ Hk) as Hc16.
  destruct (nth_error cs (N.to_nat c)) as [x|] eqn:Hx; [|apply nth_error_None in Hx; lia].
  exists c, rest, x. split; [reflexivity|]. split; [exact Hx|].
  exact (conj (Hf _ _ Hx) (conj (pf_full _ _ _ _ Hx Hp) (tk_suffix [c] _ Hk))).
Qed.

Lemma sets_leaf k v : sets Nil k (Some v) (mk_short k (Val v)).
Proof.
  intros q. rewrite lookup_mk_short. cbn [lookup]. destruct (strip k q) as [r|] eqn:Hs.
  - apply strip_some in Hs. subst q. rewrite <- (app_nil_r k) at 2. rewrite keqb_app.
    destruct r; reflexivity.
  - destruct (keqb q k) eqn:E; auto. apply keqb_eq in E. subst q.
    pose proof (strip_app k []) as Hs'. rewrite app_nil_r in Hs'. congruence.
Qed.

(* the two-way branch built by insert when a short key and the new key diverge *)
Definition branch2 (y x : N) (X Y : node) : node :=
  Full (set_nth (set_nth empty17 (N.to_nat y) X) (N.to_nat x) Y).

Lemma branch2_wfn y x X Y :
  (x <= 16)%N -> (y <= 16)%N -> x <> y -> wfn X = true -> wfn Y = true ->
  wfn (branch2 y x X Y) = true.
Proof.
  intros Hx Hy Hn HX HY. apply wfn_full. repeat split.
  - rewrite !set_nth_length. reflexivity.
  - pose proof (count_set_nth empty17 (N.to_nat y) X Nil (nth_error_empty17 (N.to_nat y) ltac:(lia))) as H1.
    pose proof (count_set_nth (set_nth empty17 (N.to_nat y) X) (N.to_nat x) Y Nil) as H2.
    rewrite nth_error_set_nth_neq, nth_error_empty17 in H2 by lia. specialize (H2 eq_refl).
    apply wfn_not_nil in HX, HY. rewrite HX in H1. rewrite HY in H2.
    change (count_nonnil empty17) with 0 in H1. cbn [is_nil] in H1, H2. lia.
  - apply set_nth_all; [|apply wfn_wf, HY]. apply set_nth_all; [|apply wfn_wf, HX].
    intros j z Hz. rewrite (nth_error_repeat_inv Nil 17 j z Hz). reflexivity.
Qed.

Lemma branch2_lookup y x X Y s q :
  (x <= 16)%N -> (y <= 16)%N ->
  lookup (branch2 y x X Y) (s :: q) =
  if N.eqb s x then lookup Y q else if N.eqb s y then lookup X q else None.
Proof.
  intros Hx Hy. unfold branch2.
  rewrite !lookup_full_set by (rewrite ?set_nth_length; change (length empty17) with 17; lia).
  destruct (N.eqb s x), (N.eqb s y); try reflexivity.
  rewrite lookup_full. destruct (nth_error empty17 (N.to_nat s)) as [z|] eqn:Hz; [|reflexivity].
  rewrite (nth_error_repeat_inv Nil 17 _ z Hz). reflexivity.
Qed.

Lemma split_correct v p x ra y rb child :
  v <> [] -> x <> y -> (x <= 16)%N -> (y <= 16)%N -> wfn (Short (p ++ y :: rb) child) = true ->
  let t' := mk_short p (branch2 y x (mk_short rb child) (mk_short ra (Val v))) in
  wfn t' = true /\ sets (Short (p ++ y :: rb) child) (p ++ x :: ra) (Some v) t'.
Proof.
  intros Hv Hd Hx Hy Hw. apply wfn_short in Hw as (_ & Hs & Hc).
  assert (HwX : wfn (mk_short rb child) = true).
  { destruct rb; cbn [mk_short]; auto. apply wfn_short. repeat split; auto. discriminate. }
  assert (HwY : wfn (mk_short ra (Val v)) = true) by (destruct ra; cbn; destruct v; auto; congruence).
  pose proof (branch2_wfn y x _ _ Hx Hy Hd HwX HwY) as HwB. split.
  - destruct p; cbn [mk_short]; auto.
  - intros q. rewrite lookup_mk_short, lookup_short, strip_app_l.
    destruct (strip p q) as [r|] eqn:Hst.
    + apply strip_some in Hst. subst q. rewrite keqb_app. destruct r as [|s r].
      * rewrite keqb_nil_cons. reflexivity.
      * rewrite branch2_lookup, keqb_cons by auto. cbn [strip].
        destruct (N.eqb_spec s x) as [->|Hsx]; cbn [andb].
        -- rewrite (sets_leaf ra v r). cbn [lookup]. destruct (keqb r ra); auto.
           destruct (N.eqb_spec y x); [congruence|reflexivity].
        -- rewrite N.eqb_sym, lookup_mk_short. destruct (N.eqb y s); reflexivity.
    + destruct (keqb q (p ++ x :: ra)) eqn:E; auto. apply keqb_eq in E. subst q.
      rewrite strip_app in Hst. discriminate.
Qed.

Lemma insert_nil_key t value : insert t [] value = Some value.
Proof. destruct t; reflexivity. Qed.

Lemma insert_Nil key value : insert Nil key value = Some (mk_short key value).
Proof. destruct key; reflexivity. Qed.

Lemma insert_Short_match k child ra value : k ++ ra <> [] ->
  insert (Short k child) (k ++ ra) value =
  match insert child ra value with Some nn => Some (Short k nn) | None => None end.
Proof.
  intros Hne. destruct (k ++ ra) as [|c rest] eqn:E; [congruence|].
  cbn [insert]. rewrite <- E, prefix_len_self_app, Nat.eqb_refl, skipn_app_length. reflexivity.
Qed.

Lemma insert_Short_split p x ra y rb child value :
  x <> y -> (x <= 16)%N -> (y <= 16)%N ->
  insert (Short (p ++ y :: rb) child) (p ++ x :: ra) value =
  Some (mk_short p (branch2 y x (mk_short rb child) (mk_short ra value))).
Proof.
  intros Hn Hx Hy. destruct (p ++ x :: ra) as [|c rest] eqn:E; [destruct p; discriminate|].
  cbn [insert]. rewrite <- E.
  rewrite (prefix_len_app p (x :: ra) (y :: rb) Hn).
  replace (Nat.eqb (length p) (length (p ++ y :: rb))) with false
    by (symmetry; apply Nat.eqb_neq; rewrite app_length; cbn; lia).
  rewrite !nth_error_app_mid, !skipn_S_app_mid, firstn_app_length.
  replace (N.ltb y 17 && N.ltb x 17) with true by (symmetry; apply andb_true_iff; split; apply N.ltb_lt; lia).
  unfold branch2. destruct p; reflexivity.
Qed.

Lemma insert_Full cs c rest value :
  insert (Full cs) (c :: rest) value =
  match nth_error cs (N.to_nat c) with
  | Some x => match insert x rest value with
              | Some nn => Some (Full (set_nth cs (N.to_nat c) nn))
              | None => None
              end
  | None => None
  end.
Proof.
  cbn [insert]. rewrite child_app_spec. destruct (nth_error cs (N.to_nat c)); reflexivity.
Qed.

Lemma insert_not_short t key value t' :
  is_nil t = false -> is_short t = false -> is_short value = false ->
  insert t key value = Some t' -> is_short t' = false.
Proof.
  intros Hn Hs Hv. destruct key as [|c rest]; [rewrite insert_nil_key; intros [= <-]; exact Hv|].
  destruct t as [|w|k ch|cs]; try discriminate.
  rewrite insert_Full. destruct (nth_error cs (N.to_nat c)) as [x|]; [|discriminate].
  destruct (insert x rest value); [intros [= <-]; reflexivity|discriminate].
Qed.

Lemma insert_correct v : v <> [] -> forall t key,
  fits t key -> okdom t ->
  exists t', insert t key (Val v) = Some t' /\ wfn t' = true /\ sets t key (Some v) t'.
Proof.
  intros Hv t. assert (Hwv : wfn (Val v) = true) by (destruct v; [congruence|reflexivity]).
  induction t as [|v0|k child IH|cs IH] using node_ind'; intros key Hf Ho.
  - exists (mk_short key (Val v)). split; [apply insert_Nil|].
    split; [destruct key; cbn; auto|apply sets_leaf].
  - (* only the empty key fits *)
    rewrite (fits_val _ _ Hf). exists (Val v). repeat split; auto.
    intros [|s q]; [reflexivity|]. rewrite keqb_cons_nil. reflexivity.
  - pose proof Hf as (Hw & Hp & Hk). pose proof Hw as (Hkne & Hs & Hc)%wfn_short.
    destruct (common_prefix key k) as (p & ra & rb & -> & -> & Hd).
    destruct rb as [|y rb].
    + rewrite app_nil_r in *.
      destruct (IH ra (fits_short _ _ _ Hf) (okdom_short _ _ Ho)) as (nn & Hi & Hwn & Hl).
      exists (Short p nn). rewrite insert_Short_match, Hi by (destruct p; [congruence|discriminate]).
      split; [reflexivity|]. split; [|apply sets_short, Hl].
      apply wfn_short. repeat split; auto.
      exact (insert_not_short child ra (Val v) nn (wfn_not_nil _ Hc) Hs eq_refl Hi).
    + (* the keys diverge inside the short key: stored keys pass through y, the new key through x *)
      destruct (wfn_nonempty _ Hc) as (q0 & v1 & Hq0).
      assert (Hdom : lookup (Short (p ++ y :: rb) child) ((p ++ y :: rb) ++ q0) <> None)
        by (rewrite lookup_short_app; congruence).
      destruct ra as [|x ra].
      { exfalso. destruct (Hp _ Hdom) as [_ Hn]. apply Hn. rewrite app_nil_r.
        rewrite <- app_assoc. exists y, (rb ++ q0). reflexivity. }
      assert (Hy : (y <= 16)%N).
      { specialize (Ho _ Hdom). rewrite <- app_assoc in Ho. apply tk_mid in Ho. exact Ho. }
      assert (Hx : (x <= 16)%N) by (apply tk_mid in Hk; exact Hk).
      destruct (split_correct v p x ra y rb child Hv Hd Hx Hy Hw) as [Hwt Hst].
      eexists. rewrite insert_Short_split by auto. repeat split; [exact Hwt|exact Hst].
  - destruct (fits_full _ _ Hf) as (c & rest & x & -> & Hx & Hfx).
    destruct (IH _ x Hx rest Hfx (okdom_full _ _ _ Hx Ho)) as (nn & Hi & Hwn & Hlk).
    destruct Hf as (Hw & _).
    exists (Full (set_nth cs (N.to_nat c) nn)). rewrite insert_Full, Hx, Hi.
    repeat split; [exact (wfn_full_set _ _ _ _ Hw Hx Hwn)|exact (sets_full _ _ _ _ _ _ Hx Hlk)].
Qed.
