(* C02 — ExecutionResult.QuaiFees (what the block later pays to the miner): the hypotheses of the block
   theorems about fees (Props/C02.v, 33-35) and their boolean form in the correspondence check. *)
From Coq Require Import ZArith Bool.
From GQ Require Import Model.C02 Proofs.C02_Trans Proofs.C02.

Definition wf_txn_shape (t : txn) : Prop := wf_txn t /\ wf_shape (t_msg t).

Lemma shape_ok_sound m : shape_ok m = true -> wf_shape m.
Proof. unfold shape_ok, wf_shape. rewrite !andb_true_iff, !Z.leb_le. tauto. Qed.
