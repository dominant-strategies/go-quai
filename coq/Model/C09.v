(* C09 — executable model of the header-extension rules of go-quai:
   common/big.go (LogBig, IntrinsicLogEntropy, BitsToBigBits, ...) over modernc.org/mathutil.BinaryLog,
   core/headerchain_validation.go (CalcDifficulty, verifyHeader: zone-context rules),
   core/block_validator.go CalcGasLimit, consensus/misc/statefee.go CalcStateLimit,
   core/headerchain.go CalcBaseFee (before the KawPow fork), ComputeExpansionNumber, calcOrderCache,
   core/poem.go CalcOrder / TotalLogEntropy / DeltaLogEntropy / UncledDeltaLogEntropy.
   Definitions only; proofs are in Proofs/C09*.v.  Exact Z arithmetic; Go's big.Int.Div is Euclidean
   division, which for the positive divisors used here is Coq's floor division [/]. *)
From Coq Require Import List ZArith Bool NArith.
From Coq Require String.
Import String.StringSyntax.
From GQ Require Import Lib.Key Lib.SMap Generated.C09Params.
Import ListNotations.
Local Open Scope Z_scope.

(* ------------------------------------------------------------------------------------------ *)
(** * 1. mathutil.BinaryLog                                                                    *)

(** ** 1a. value semantics: the float (n, fracBits) of binarylog.go is the number n / 2^fracBits;
    it is represented here by x = value * 2^mb (mb = mantissaBits = maxFracBits).  Divisions by powers of
    two are written as shifts ([Z.shiftr a k = a / 2^k], [Z.shiftl 1 k = 2^k]) because the model is evaluated by vm_compute. *)

(* newFloat(n, c, mb) + normalize: value n / 2^c, rounded half-up to mb fractional bits when c > mb *)
Definition blog_init (mb n : Z) : Z :=
  let c := Z.log2 n in
  if c <=? mb then Z.shiftl n (mb - c) else Z.shiftr (n + Z.shiftl 1 (c - mb - 1)) (c - mb).

(* one iteration of the loop: sqr (round half-up to mb bits), ge2?, div2 (round half-up) *)
Definition blog_step (mb x : Z) : bool * Z :=
  let y := Z.shiftr (x * x + Z.shiftl 1 (mb - 1)) mb in
  if Z.shiftl 1 (mb + 1) <=? y then (true, Z.shiftr (y + 1) 1) else (false, y).

Fixpoint blog_mant (mb : Z) (k : nat) (x m : Z) : Z :=
  match k with
  | O => m
  | S k' => let '(b, x') := blog_step mb x in blog_mant mb k' x' (2 * m + Z.b2z b)
  end.

(* BinaryLog(n, mb) = (characteristic, mantissa); defined for n > 0 (Go panics otherwise) *)
Definition binary_log (n mb : Z) : Z * Z :=
  (Z.log2 n, blog_mant mb (Z.to_nat mb) (blog_init mb n) 0).

(** ** 1b. representation semantics: binarylog.go line by line, including the partial
    trailing-zero stripping of normalize() and the early exit on eq1().  Used by the correspondence
    check beside 1a (both must equal the observed result). *)
Record bfloat := mkF { f_n : Z; f_fb : Z }.

(* for ; f.fracBits > 0 && i <= f.fracBits && f.n.Bit(i) == 0; i++ { f.fracBits-- } *)
Fixpoint strip_loop (fuel : nat) (n fb i : Z) : Z * Z :=
  match fuel with
  | O => (fb, i)
  | S f => if (0 <? fb) && (i <=? fb) && negb (Z.testbit n i)
           then strip_loop f n (fb - 1) (i + 1) else (fb, i)
  end.

Definition normalize (mb : Z) (x : bfloat) : bfloat :=
  let n := f_n x in
  let fb := f_fb x in
  if n =? 0 then x else
  let '(n1, fb1) :=
    if 0 <? fb - mb
    then let d := fb - mb in (Z.shiftr n d + Z.b2z (Z.testbit n (d - 1)), fb - d)
    else (n, fb) in
  let '(fb2, i) := strip_loop (Z.to_nat fb1 + 1) n1 fb1 0 in
  mkF (if i =? 0 then n1 else Z.shiftr n1 i) fb2.

Definition bitlen (n : Z) : Z := if n <=? 0 then 0 else Z.log2 n + 1.
Definition f_eq1 (x : bfloat) : bool := (f_fb x =? 0) && (bitlen (f_n x) =? 1).
Definition f_ge2 (x : bfloat) : bool := f_fb x + 1 <? bitlen (f_n x).
Definition f_sqr (mb : Z) (x : bfloat) : bfloat := normalize mb (mkF (f_n x * f_n x) (2 * f_fb x)).
Definition f_div2 (mb : Z) (x : bfloat) : bfloat := normalize mb (mkF (f_n x) (f_fb x + 1)).

(* for ; mantissaBits != 0 && !x.eq1(); mantissaBits-- { x.sqr(); mantissa <<= 1; if x.ge2() { mantissa |= 1; x.div2() } } *)
Fixpoint blog_loop_f (mb : Z) (k : nat) (x : bfloat) (m : Z) : Z :=
  match k with
  | O => m
  | S k' =>
      if f_eq1 x then m else
      let x1 := f_sqr mb x in
      if f_ge2 x1 then blog_loop_f mb k' (f_div2 mb x1) (2 * m + 1)
      else blog_loop_f mb k' x1 (2 * m)
  end.

Definition binary_log_f (n mb : Z) : Z * Z :=
  let c := Z.log2 n in (c, blog_loop_f mb (Z.to_nat mb) (normalize mb (mkF n c)) 0).

(* ------------------------------------------------------------------------------------------ *)
(** * 2. common/big.go                                                                         *)

(* LogBig(diff) = c * 2^MantBits + m ; panics for diff <= 0 *)
Definition log_big (n : Z) : Z :=
  let '(c, m) := binary_log n mant_bits in c * 2 ^ mant_bits + m.
Definition log_big_f (n : Z) : Z :=
  let '(c, m) := binary_log_f n mant_bits in c * 2 ^ mant_bits + m.
Definition log_big_opt (n : Z) : option Z := if n <=? 0 then None else Some (log_big n).

(* IntrinsicLogEntropy(powHash) = LogBig(2^256 / powHash); panics for the zero hash *)
Definition intrinsic_entropy (powhash : Z) : Z := log_big (big2e256 / powhash).
Definition intrinsic_entropy_opt (powhash : Z) : option Z :=
  if powhash <=? 0 then None else log_big_opt (big2e256 / powhash).

(* BitsToBigBits: BinaryLog(original, 64), c * 2^64 + m *)
Definition bits_to_bigbits (n : Z) : Z := let '(c, m) := binary_log n 64 in c * 2 ^ 64 + m.
Definition bits_to_bigbits_opt (n : Z) : option Z := if n <=? 0 then None else Some (bits_to_bigbits n).
(* BigBitsToBits *)
Definition bigbits_to_bits (x : Z) : Z := x / big2e64.
(* EntropyBigBitsToDifficultyBits *)
Definition entropy_bigbits_to_difficulty_bits (b : Z) : Z := big2e256 / 2 ^ (b / big2e64).

(* common.BytesToHash(x.Bytes()): a big-endian byte string longer than 32 bytes keeps its LAST 32 bytes *)
Definition crop_hash (x : Z) : Z := x mod big2e256.

(* ------------------------------------------------------------------------------------------ *)
(** * 3. CalcDifficulty (core/headerchain_validation.go)                                       *)

Inductive gp_info :=
| GpNone                 (* GetHeaderByHash(parent.ParentHash()) == nil *)
| GpGenesis              (* the parent of the parent is a genesis block *)
| GpTime (t : Z).        (* otherwise: its timestamp *)

(* the retarget formula (last part of CalcDifficulty) *)
Definition retarget (dl mind pd pt gpt : Z) : Z :=
  let td0 := pt - gpt in
  let td := if max_time_diff_between_blocks <? td0 then max_time_diff_between_blocks else td0 in
  let x := (dl - td) * pd in
  let k := Z.log2 pd in                       (* characteristic of BinaryLog(parent.Difficulty(), 64) *)
  let x := x * k in
  let x := x / dl in
  let x := x / difficulty_adjustment_factor in
  let x := x / difficulty_adjustment_period in
  let x := x + pd in
  if x <? mind then mind else x.

(* genesis-parent branch: (expansionNum == 0 && parent.Location() == {}) | (genesis.ExpansionNumber() > 0 &&
   parent.Hash() == DefaultGenesisHash) | entropy-derived; None = the Go code returns nil *)
Record genesis_case := mkG {
  g_first : bool;          (* expansionNum == 0 && parent.Location().Equal(Location{}) *)
  g_second : bool;         (* genesisBlock.ExpansionNumber() > 0 && parent.Hash() == DefaultGenesisHash *)
  g_pe_prime : Z;          (* genesis.ParentEntropy(PRIME_CTX) *)
  g_expansion : Z          (* expansionNum *)
}.

Definition nthZ (l : list Z) (i : Z) : Z := nth (Z.to_nat i) l 0.
Definition prime_entropy_target (e : Z) : Z := nthZ prime_entropy_targets e.
Definition region_entropy_target (e : Z) : Z := nthZ region_entropy_targets e.

Definition calc_difficulty_genesis (pd : Z) (g : genesis_case) : option Z :=
  if g_first g then Some pd else
  if g_second g then Some pd else
  (* TotalLogEntropy(genesis) = 0 because IsGenesisHash *)
  if 0 <? g_pe_prime g then None else
  Some (entropy_bigbits_to_difficulty_bits ((0 - g_pe_prime g) / prime_entropy_target (g_expansion g))).

(* CalcDifficulty for a non-genesis parent; None = BinaryLog panics (difficulty <= 0) *)
Definition calc_difficulty (dl mind pd pt : Z) (gp : gp_info) : option Z :=
  match gp with
  | GpNone => Some pd
  | GpGenesis => Some pd
  | GpTime gpt => if pd <=? 0 then None else Some (retarget dl mind pd pt gpt)
  end.

(* ------------------------------------------------------------------------------------------ *)
(** * 4. CalcGasLimit / CalcStateLimit (uint64 arithmetic)                                     *)

Definition u64 (x : Z) : Z := x mod 2 ^ 64.
Definition min_gas_limit (number : Z) : Z := min_gas_limit_const.  (* params.MinGasLimit: constant function *)

Definition calc_limit (pnum plimit ceil : Z) : Z :=
  if pnum <? time_to_start_tx then 0 else
  let mgl := min_gas_limit pnum in
  if plimit =? 0 then mgl else
  if pnum <? u64 (2 * blocks_per_month) then
    let gl := u64 (pnum * ceil) / u64 (2 * blocks_per_month) in
    if gl <? mgl then mgl else gl
  else ceil.
Definition calc_gas_limit := calc_limit.     (* (parent.NumberU64(ZONE), parent.GasLimit(), gasCeil) *)
Definition calc_state_limit := calc_limit.   (* (parent.NumberU64(ZONE), parent.StateLimit(), stateCeil) *)

(* ------------------------------------------------------------------------------------------ *)
(** * 5. CalcBaseFee before the KawPow fork (PrimeTerminusNumber < KawPowForkBlock)            *)

(* params.OneOverKqi *)
Definition one_over_kqi (number : Z) : Z :=
  let base := if qi_activation_block <? number then 8000000000 else 26000000 in
  let dp := (365 * blocks_per_day * 269) / 100 in
  if 2 * dp <? number then base * 4 else
  let dc := number / dp in
  let rem := number mod dp in
  (dp + rem) * base * 2 ^ dc / dp.

(* misc.CalculateQuaiReward / CalculateQiReward / QiToQuai, pre-fork branch *)
Definition quai_reward (diff er : Z) : Z :=
  let r := er * log_big diff / big2e64 in if r =? 0 then 1 else r.
Definition qi_reward (diff number : Z) : Z :=
  let r := diff / one_over_kqi number in if r =? 0 then 1 else r.
Definition qi_to_quai (diff er number amt : Z) : Z := quai_reward diff er * amt / qi_reward diff number.

(* hc.CalcBaseFee(block): block genesis -> 0; exchange rate = params.ExchangeRate when the block's parent is genesis,
   else the prime terminus' rate (er_pt) *)
Definition calc_base_fee (is_genesis parent_is_genesis : bool) (er_pt diff number : Z) : Z :=
  if is_genesis then 0 else
  let er := if parent_is_genesis then initial_exchange_rate else er_pt in
  qi_to_quai diff er number min_base_fee_in_qits / tx_gas.

(* ------------------------------------------------------------------------------------------ *)
(** * 6. headers, CalcOrder, entropy sums (core/poem.go)                                       *)

Record header := mkH {
  h_hash : Z;               (* header.Hash() as an integer: identity of the block *)
  h_genesis : bool;         (* hc.IsGenesisHash(header.Hash()) *)
  h_num : Z;                (* Number(nodeCtx) *)
  h_num_prime : Z;          (* Number(PRIME_CTX) *)
  h_time : Z;
  h_diff : Z;
  h_pow : Z;                (* engine.ComputePowHash(header) as an integer (input: PoW functions are not modelled) *)
  h_ws : Z;                 (* WorkShareLogEntropy(header) (observed input before the fork; see ws_entropy_postfork) *)
  h_pe_p : Z; h_pe_r : Z; h_pe_z : Z;       (* ParentEntropy(PRIME/REGION/ZONE) *)
  h_pd_r : Z; h_pd_z : Z;                   (* ParentDeltaEntropy(REGION/ZONE) *)
  h_pud_r : Z; h_pud_z : Z;                 (* ParentUncledDeltaEntropy(REGION/ZONE) *)
  h_uncled : Z;             (* UncledEntropy *)
  h_expansion : Z;
  h_gas_limit : Z; h_gas_used : Z; h_state_limit : Z; h_state_used : Z;
  h_base_fee : Z;
  h_pt_hash : Z; h_pt_num : Z               (* PrimeTerminusHash / PrimeTerminusNumber *)
}.

Inductive co_result :=
| CoOk (entropy order : Z)
| CoErr                    (* verifySeal error: difficulty <= 0 or powHash > 2^256 / difficulty *)
| CoPanic.                 (* division by zero / BinaryLog of 0 *)

(* WorkShareLogEntropy after the fork: LogBig(len(uncles)) / AlphaInverse (0 without uncles) *)
Definition ws_entropy_postfork (n_uncles : Z) : Z :=
  (if 0 <? n_uncles then log_big n_uncles else 0) / alpha_inverse.

(* Width of the integer header fields.  Number(ctx), PrimeTerminusNumber, Difficulty, ParentEntropy, ParentDeltaEntropy,
   ParentUncledDeltaEntropy, UncledEntropy and BaseFee are *big.Int decoded from the wire with SetBytes WITHOUT a width
   limit (core/types/block.go ProtoDecode, wo.go ProtoDecode): every one of them is an unbounded Z here and every rule
   of [valid_child] compares them as unbounded integers (big.Int.Cmp / Sub in the Go code).
   The Go accessors that TRUNCATE are written explicitly:
     header.NumberU64(ctx) = Number(ctx).Uint64() = the low 64 bits          -> [num64]
       used by CalcOrder (the "number == 0" genesis shortcut), CalcGasLimit, CalcStateLimit,
       CalculateQiReward/OneOverKqi (base fee), the lock-byte rule (not modelled), WorkShareDistance;
     PrimeTerminusNumber().Uint64() (fork-height switches; not modelled: the harness stays below the forks);
     common.BytesToHash(x.Bytes()) keeps the last 32 bytes                   -> [crop_hash].
   The number rule itself ("number is parent+1", [rule_number]) is NOT truncated: verifyHeader subtracts big.Ints. *)
Definition num64 (h : header) : Z := u64 (h_num h).

(* CalcOrder without the memo *)
Definition calc_order (h : header) : co_result :=
  if num64 h =? 0 then CoOk 0 ctx_prime else
  (* hc.verifySeal (PowMode normal): difficulty sign, then powHash <= target *)
  if h_diff h <=? 0 then CoErr else
  let target := big2e256 / h_diff h in
  if target <? h_pow h then CoErr else
  if h_pow h <=? 0 then CoPanic else
  let ie := intrinsic_entropy (h_pow h) in
  if crop_hash target <=? 0 then CoPanic else
  let zt := intrinsic_entropy (crop_hash target) in
  let e := h_expansion h in
  let pet := prime_entropy_target e in
  let tot_p := h_pd_r h + h_pd_z h + ie in
  let tgt_p := pet * zt / big2 in
  let thr_p := zt + bits_to_bigbits pet in
  if (thr_p <? ie) && (tgt_p <? tot_p) then CoOk ie ctx_prime else
  let tot_r := h_pd_z h + ie in
  let ret := region_entropy_target e in
  let tgt_r := zt * ret / big2 in
  let thr_r := zt + bits_to_bigbits ret in
  if (thr_r <? ie) && (tgt_r <? tot_r) then CoOk ie ctx_region else
  CoOk ie ctx_zone.

(* TotalLogEntropy in a node of context [ctx]; errors are logged and 0 is returned, as in the code.
   The [_of] variants take the result [co] of CalcOrder(h) as an argument so that an evaluation of
   several of them on the same header computes the order once (vm_compute is call-by-value). *)
Definition total_entropy_of (co : co_result) (ctx : Z) (h : header) : Z :=
  if h_genesis h then 0 else
  match co with
  | CoOk ie o =>
      let ie := if ctx =? ctx_zone then ie + h_ws h else ie in
      if o =? ctx_prime then h_pe_p h + h_pd_r h + h_pd_z h + ie
      else if o =? ctx_region then h_pe_r h + h_pd_z h + ie
      else if o =? ctx_zone then h_pe_z h + ie
      else 0
  | _ => 0
  end.
Definition total_entropy (ctx : Z) (h : header) : Z := total_entropy_of (calc_order h) ctx h.

Definition delta_entropy_of (co : co_result) (ctx : Z) (h : header) : Z :=
  if h_genesis h then 0 else
  match co with
  | CoOk ie o =>
      let ie := if ctx =? ctx_zone then ie + h_ws h else ie in
      if o =? ctx_prime then 0
      else if o =? ctx_region then h_pd_r h + h_pd_z h + ie
      else if o =? ctx_zone then h_pd_z h + ie
      else 0
  | _ => 0
  end.
Definition delta_entropy (ctx : Z) (h : header) : Z := delta_entropy_of (calc_order h) ctx h.

Definition uncled_delta_entropy_of (co : co_result) (h : header) : Z :=
  if h_genesis h then 0 else
  match co with
  | CoOk _ o =>
      if o =? ctx_prime then 0
      else if o =? ctx_region then h_pud_r h + h_pud_z h + h_uncled h
      else if o =? ctx_zone then h_pud_z h + h_uncled h
      else 0
  | _ => 0
  end.
Definition uncled_delta_entropy (h : header) : Z := uncled_delta_entropy_of (calc_order h) h.

(* ------------------------------------------------------------------------------------------ *)
(** * 7. verifyHeader, zone context: the modelled subset of rules                              *)

Record pt_info := mkPT {
  pt_found : bool;           (* GetBlockByHash(primeTerminusHash) != nil *)
  pt_genesis : bool;         (* IsGenesisHash(primeTerminusHash): a genesis block of THIS slice (the node's database) *)
  pt_expansion : Z; pt_threshold : Z;      (* primeTerminus.ExpansionNumber() / ThresholdCount() *)
  ppt_found : bool; ppt_expansion : Z      (* fetchPrimeBlock(primeTerminus.ParentHash(PRIME)) *)
}.

Record env := mkEnv {
  e_now : Z;                 (* unixNow *)
  e_dl : Z; e_mind : Z; e_gas_ceil : Z;    (* powConfig.DurationLimit / MinDifficulty / GasCeil *)
  e_gp : gp_info;            (* the parent's parent as CalcDifficulty sees it *)
  e_gcase : genesis_case;    (* only used when the parent is a genesis block *)
  e_pt_self : pt_info;       (* database view when the prime terminus is the parent itself (prime-order parent) *)
  e_pt_ref : pt_info;        (* database view of parent.PrimeTerminusHash() *)
  e_er_pt : Z;               (* ExchangeRate of GetBlockByHash(parent.PrimeTerminusHash()) *)
  e_loc : Z * Z              (* hc.NodeLocation() of the zone node: (region, zone) *)
}.

(* hc.NodeLocation().Equal(common.Location{0, 0}): the original slice.  Every other slice starts from an expansion
   genesis: a prime block of the old tree whose threshold count matured. *)
Definition loc00 (e : env) : bool := (fst (e_loc e) =? 0) && (snd (e_loc e) =? 0).

Definition u8 (x : Z) : Z := x mod 256.

Definition order_of (co : co_result) : option Z := match co with CoOk _ o => Some o | _ => None end.
Definition parent_order (p : header) : option Z := order_of (calc_order p).
Definition is_prime_of (co : co_result) : bool :=
  match order_of co with Some o => o =? ctx_prime | None => false end.
Definition parent_is_prime (p : header) : bool := is_prime_of (calc_order p).

(* ComputeExpansionNumber(parent): [i] = the database view of the prime terminus of the child, [l00] = the node sits in
   the original slice [0,0].  The "terminus is genesis" shortcut hands the expansion number down unchanged ONLY in
   slice [0,0] (IsGenesisHash(primeTerminusHash) && NodeLocation().Equal(Location{0, 0})); in every other slice a
   genesis terminus goes through the same two branches as an ordinary one. *)
Definition expansion_of (l00 : bool) (i : pt_info) : option Z :=
  if negb (pt_found i) then None else
  if pt_genesis i && l00 then Some (pt_expansion i) else
  if pt_threshold i =? tree_expansion_trigger_window + tree_expansion_wait_count
  then Some (u8 (pt_expansion i + 1)) else
  if negb (ppt_found i) then None else Some (ppt_expansion i).
Definition expected_expansion_of (co : co_result) (e : env) : option Z :=
  match order_of co with
  | None => None
  | Some o => expansion_of (loc00 e) (if o =? ctx_prime then e_pt_self e else e_pt_ref e)
  end.
Definition expected_expansion (e : env) (p : header) : option Z := expected_expansion_of (calc_order p) e.

Definition expected_difficulty (e : env) (p : header) : option Z :=
  if h_genesis p then calc_difficulty_genesis (h_diff p) (e_gcase e)
  else calc_difficulty (e_dl e) (e_mind e) (h_diff p) (h_time p) (e_gp e).

Definition expected_parent_entropy_of (co : co_result) (p : header) : Z := total_entropy_of co ctx_zone p.
Definition expected_parent_entropy (p : header) : Z := expected_parent_entropy_of (calc_order p) p.
Definition expected_parent_delta_of (co : co_result) (p : header) : Z :=
  match order_of co with
  | Some o => if o <? ctx_zone then 0 else delta_entropy_of co ctx_zone p
  | None => 0
  end.
Definition expected_parent_delta (p : header) : Z := expected_parent_delta_of (calc_order p) p.
Definition expected_parent_uncled_delta_of (co : co_result) (p : header) : Z :=
  match order_of co with
  | Some o => if o <? ctx_zone then 0 else uncled_delta_entropy_of co p
  | None => 0
  end.
Definition expected_parent_uncled_delta (p : header) : Z := expected_parent_uncled_delta_of (calc_order p) p.
Definition expected_gas_limit (e : env) (p : header) : Z := calc_gas_limit (num64 p) (h_gas_limit p) (e_gas_ceil e).
Definition expected_state_limit (p : header) : Z := calc_state_limit (num64 p) (h_state_limit p) state_ceil.
Definition expected_base_fee (e : env) (p : header) : Z :=
  calc_base_fee (h_genesis p) (match e_gp e with GpGenesis => true | _ => false end) (e_er_pt e) (h_diff p) (num64 p).
Definition expected_pt_hash_of (co : co_result) (p : header) : Z :=
  if is_prime_of co then h_hash p else if h_genesis p then h_hash p else h_pt_hash p.
Definition expected_pt_hash (p : header) : Z := expected_pt_hash_of (calc_order p) p.
Definition expected_pt_num_of (co : co_result) (p : header) : Z :=
  if is_prime_of co then h_num_prime p else if h_genesis p then h_num_prime p else h_pt_num p.
Definition expected_pt_num (p : header) : Z := expected_pt_num_of (calc_order p) p.
Definition expected_number (p : header) : Z := (if h_genesis p then 0 else h_num p) + 1.

Definition opt_eqb (a : option Z) (b : Z) : bool := match a with Some x => x =? b | None => false end.

Definition rule_time_future (e : env) (c : header) : bool := h_time c <=? e_now e + allowed_future_block_time.
Definition rule_time_parent (p c : header) : bool := h_time p <=? h_time c.
Definition rule_difficulty (e : env) (p c : header) : bool := opt_eqb (expected_difficulty e p) (h_diff c).
Definition rule_parent_order_of (co : co_result) : bool :=
  match order_of co with Some o => o <=? ctx_zone | None => false end.
Definition rule_parent_order (p : header) : bool := rule_parent_order_of (calc_order p).
Definition rule_parent_entropy (p c : header) : bool := expected_parent_entropy p =? h_pe_z c.
Definition rule_parent_delta (p c : header) : bool := expected_parent_delta p =? h_pd_z c.
Definition rule_parent_uncled_delta (p c : header) : bool := expected_parent_uncled_delta p =? h_pud_z c.
Definition rule_expansion (e : env) (p c : header) : bool := opt_eqb (expected_expansion e p) (h_expansion c).
Definition rule_gas (e : env) (p c : header) : bool :=
  (h_gas_limit c <=? 2 ^ 63 - 1) && (h_gas_used c <=? h_gas_limit c) && (expected_gas_limit e p =? h_gas_limit c).
Definition rule_state (p c : header) : bool :=
  (h_state_used c <=? h_state_limit c) && (expected_state_limit p =? h_state_limit c).
Definition rule_base_fee (e : env) (p c : header) : bool := expected_base_fee e p =? h_base_fee c.
Definition rule_pt (p c : header) : bool :=
  (expected_pt_hash p =? h_pt_hash c) && (expected_pt_num p =? h_pt_num c).
(* the number rule on unbounded integers: header.Number(ctx) - parentNumber == 1 with big.Int arithmetic; a number
   congruent to parent+1 modulo 2^64 (or any other width) is NOT parent+1 *)
Definition rule_number (p c : header) : bool := h_num c =? expected_number p.

(* verifyHeader(header = c, parent = p, uncle = false, unixNow) in a zone node, restricted to the rules above
   (the remaining checks — extra size, body/header hash binding, location, coinbase scope, pow id, lock byte, data,
   share fields — are not modelled; the harness keeps them satisfied) *)
Definition valid_child (e : env) (p c : header) : bool :=
  rule_time_future e c && rule_time_parent p c && rule_difficulty e p c && rule_parent_order p &&
  rule_parent_entropy p c && rule_parent_delta p c && rule_parent_uncled_delta p c &&
  rule_expansion e p c && rule_gas e p c && rule_state p c && rule_base_fee e p c && rule_pt p c &&
  rule_number p c.

(* the same predicate with CalcOrder(parent) evaluated once (Proofs: valid_child_fast_eq) *)
Definition valid_child_fast (e : env) (p c : header) : bool :=
  let co := calc_order p in
  rule_time_future e c && rule_time_parent p c && rule_difficulty e p c && rule_parent_order_of co &&
  (expected_parent_entropy_of co p =? h_pe_z c) && (expected_parent_delta_of co p =? h_pd_z c) &&
  (expected_parent_uncled_delta_of co p =? h_pud_z c) &&
  opt_eqb (expected_expansion_of co e) (h_expansion c) && rule_gas e p c && rule_state p c && rule_base_fee e p c &&
  ((expected_pt_hash_of co p =? h_pt_hash c) && (expected_pt_num_of co p =? h_pt_num c)) &&
  rule_number p c.

(* ------------------------------------------------------------------------------------------ *)
(** * 7b. after the KawPow fork: share-difficulty fields, fork-aware base fee                  *)

(* every fork switch reads PrimeTerminusNumber().Uint64(): the low 64 bits *)
Definition ptn64 (ptn : Z) : Z := u64 ptn.
Definition post_fork (ptn : Z) : bool := kawpow_fork_block <=? ptn64 ptn.

(* the share data of a header that carries them (after the fork ProtoDecode insists on all nine) and what
   hc.CountWorkSharesByAlgo finds in its body (sha / scrypt shares, and those of them with an out-of-scope coinbase) *)
Record pshares := mkPS {
  ps_sha_diff : Z; ps_sha_count : Z; ps_sha_uncled : Z;
  ps_scr_diff : Z; ps_scr_count : Z; ps_scr_uncled : Z;
  ps_sha_target : Z; ps_scr_target : Z; ps_kawpow : Z;
  ps_n_sha : Z; ps_n_sha_uncled : Z; ps_n_scr : Z; ps_n_scr_uncled : Z
}.

(* the share fields of a child as verifyHeader reads them: None = nil *)
Record shares := mkSh {
  sh_sha_diff : option Z; sh_sha_count : option Z; sh_sha_uncled : option Z;
  sh_scr_diff : option Z; sh_scr_count : option Z; sh_scr_uncled : option Z;
  sh_sha_target : option Z; sh_scr_target : option Z; sh_kawpow : option Z
}.

(* the exponential moving average used for the share counts: (old * (n-1) + new) / n *)
Definition ema (n old new : Z) : Z := (old * (n - 1) + new) / n.

(* hc.CalculatePowDiffAndCount(parent, header, powId) for powId = SHA_BTC/SHA_BCH ([sha] = true) or Scrypt; [ptn] =
   header.PrimeTerminusNumber(), [pdiff] = parent.Difficulty(); None = BinaryLog panics (share difficulty <= 0) *)
Definition pow_diff_and_count (sha : bool) (ptn pdiff : Z) (ps : pshares) : option (Z * Z * Z) :=
  if ptn64 ptn =? kawpow_fork_block then
    let rate := pdiff / duration_limit_default in         (* params.DurationLimit, not the node's powConfig *)
    if sha then Some (rate * initial_sha_diff_multiple * sha_block_time / big3, target_sha_shares, 0)
    else Some (rate * initial_scrypt_diff_multiple * scrypt_block_time / big3, target_sha_shares, 0)
  else
    let late := conversion_stability_fork_block <=? ptn64 ptn in
    let n := if late then new_work_share_ema_blocks else work_share_ema_blocks in
    let d := if sha then ps_sha_diff ps else ps_scr_diff ps in
    let cnt := if sha then ps_sha_count ps else ps_scr_count ps in
    let unc := if sha then ps_sha_uncled ps else ps_scr_uncled ps in
    let num := (if sha then ps_n_sha ps else ps_n_scr ps) * big2e32 in
    let uncs := (if sha then ps_n_sha_uncled ps else ps_n_scr_uncled ps) * big2e32 in
    let err := num - (if sha then ps_sha_target ps else ps_scr_target ps) in
    let adj := if late then new_pow_diff_adjustment_factor else pow_diff_adjustment_factor in
    if d <=? 0 then None else
    let nd := err * d * Z.log2 d / adj / big2e32 + d in
    let lb := if sha then sha_diff_lower_bound else scrypt_diff_lower_bound in
    let nd := if kquai_reset_after_kawpow_fork_block <=? ptn64 ptn then (if nd <? lb then lb else nd) else nd in
    Some (nd, ema n cnt num, ema n unc uncs).

(* hc.CalculateShareTarget(parent, header); None = division by a zero parent difficulty *)
Definition share_target (ptn pdiff : Z) (ps : pshares) : option Z :=
  if ptn64 ptn =? kawpow_fork_block then Some target_sha_shares else
  if ptn64 ptn <? inclusion_depth_change_block then
    if pdiff <=? 0 then None else
    let maxs := ps_kawpow ps * max_subsidy_numerator / max_subsidy_denominator in
    let t := (pdiff - maxs) * ps_sha_target ps / pdiff / blocks_per_day + ps_sha_target ps in
    Some (Z.min (Z.max t target_sha_shares) max_sha_shares)
  else if ptn64 ptn <? inclusion_depth_change_block + inclusion_depth_update_period then
    Some (target_sha_shares + (max_sha_shares - target_sha_shares) * (ptn64 ptn - inclusion_depth_change_block)
                              / inclusion_depth_update_period)
  else Some max_sha_shares.

(* hc.CalculateKawpowDifficulty(parent, header) for a parent without AuxPow (a ProgPoW block of the transition period; the
   AuxPow branch - liveness of the template, the donor header's bits - is not modelled) *)
Definition kawpow_difficulty (ptn : Z) (ps : pshares) : Z :=
  if ptn64 ptn =? kawpow_fork_block then initial_kawpow_diff else ps_kawpow ps.

(* the nine values in the order verifyHeader compares them *)
Definition expected_shares (ptn pdiff : Z) (ps : pshares) : option (list Z) :=
  match pow_diff_and_count true ptn pdiff ps, pow_diff_and_count false ptn pdiff ps, share_target ptn pdiff ps with
  | Some (d1, c1, u1), Some (d2, c2, u2), Some t => Some [d1; c1; u1; d2; c2; u2; t; t; kawpow_difficulty ptn ps]
  | _, _, _ => None
  end.

Definition shares_list (cs : shares) : list (option Z) :=
  [sh_sha_diff cs; sh_sha_count cs; sh_sha_uncled cs; sh_scr_diff cs; sh_scr_count cs; sh_scr_uncled cs;
   sh_sha_target cs; sh_scr_target cs; sh_kawpow cs].
Definition is_none (a : option Z) : bool := match a with None => true | Some _ => false end.
Fixpoint opts_eqb (a : list (option Z)) (b : list Z) : bool :=
  match a, b with
  | [], [] => true
  | x :: a', y :: b' => opt_eqb x y && opts_eqb a' b'
  | _, _ => false
  end.

(* the share rules of verifyHeader: after the fork each of the nine fields equals the value derived from the parent, before
   the fork each of them is nil ([ptn] is the CHILD's prime terminus number; a panic of a helper counts as a rejection) *)
Definition rule_shares (ptn pdiff : Z) (ps : pshares) (cs : shares) : bool :=
  if post_fork ptn then
    match expected_shares ptn pdiff ps with
    | Some want => opts_eqb (shares_list cs) want
    | None => false
    end
  else forallb is_none (shares_list cs).

(* misc.KawPowEquivalentDifficulty / ShaAnchoredEquivalentDifficulty / ForkAwareKawPowEquivalentDifficulty *)
Definition kawpow_equivalent_difficulty (diff sha_count scr_count : Z) : Z :=
  let expected := (expected_workshares_per_block + 1) * big2e32 in
  let total := Z.min (scr_count + sha_count) (expected - big2e32) in
  diff * expected / (expected - total).
Definition fork_aware_difficulty (ptn diff : Z) (ps : pshares) : Z :=
  if ptn64 ptn <? sha_equivalent_difficulty_fork_block
  then kawpow_equivalent_difficulty diff (ps_sha_count ps) (ps_scr_count ps)
  else let n := ps_sha_diff ps / initial_sha_diff_multiple in
       kawpow_equivalent_difficulty
         (if n <? min_difficulty_for_sha_equivalent_difficulty then min_difficulty_for_sha_equivalent_difficulty else n)
         (ps_sha_count ps) (ps_scr_count ps).

(* misc.CalculateQuaiReward / CalculateQiReward / QiToQuai in both regimes ([ptn] = the block's own prime terminus number;
   big.Int.Quo truncates: [Z.quot]); None = LogBig panics *)
Definition reward_difficulty (ptn diff : Z) (ps : pshares) : Z :=
  if post_fork ptn then fork_aware_difficulty ptn diff ps else diff.
Definition quai_reward_x (ptn diff er : Z) (ps : pshares) : option Z :=
  let d := reward_difficulty ptn diff ps in
  if d <=? 0 then None else
  let ld := log_big d in
  let ld := if kquai_reset_after_kawpow_fork_block <=? ptn64 ptn then ld - log_big kquai_difficulty_divisor else ld in
  let r := Z.quot (er * ld) big2e64 in
  Some (if r =? 0 then 1 else r).
Definition qi_reward_x (ptn diff number : Z) (ps : pshares) : Z :=
  let r := Z.quot (reward_difficulty ptn diff ps) (one_over_kqi number) in if r =? 0 then 1 else r.

(* hc.CalcBaseFee(block) in both regimes *)
Definition calc_base_fee_x (is_genesis parent_is_genesis : bool) (er_pt diff number ptn : Z) (ps : pshares) : option Z :=
  if is_genesis then Some 0 else
  let er := if parent_is_genesis then initial_exchange_rate else er_pt in
  match quai_reward_x ptn diff er ps with
  | None => None
  | Some q => Some (Z.quot (q * min_base_fee_in_qits) (qi_reward_x ptn diff number ps) / tx_gas)
  end.

Definition expected_base_fee_x (e : env) (p : header) (ps : pshares) : option Z :=
  calc_base_fee_x (h_genesis p) (match e_gp e with GpGenesis => true | _ => false end) (e_er_pt e) (h_diff p) (num64 p)
                  (h_pt_num p) ps.
Definition rule_base_fee_x (e : env) (p c : header) (ps : pshares) : bool :=
  opt_eqb (expected_base_fee_x e p ps) (h_base_fee c).

(* CheckPowIdValidity for a header WITHOUT AuxPow (the only kind the harness fabricates): allowed before the fork and in
   the transition period after it *)
Definition rule_pow_id_no_auxpow (ptn : Z) : bool := ptn64 ptn <=? kawpow_fork_block + kawpow_transition_period.

(* every modelled rule except the base fee (the order of CalcOrder(parent) evaluated once) *)
Definition valid_child_core (e : env) (p c : header) : bool :=
  let co := calc_order p in
  rule_time_future e c && rule_time_parent p c && rule_difficulty e p c && rule_parent_order_of co &&
  (expected_parent_entropy_of co p =? h_pe_z c) && (expected_parent_delta_of co p =? h_pd_z c) &&
  (expected_parent_uncled_delta_of co p =? h_pud_z c) &&
  opt_eqb (expected_expansion_of co e) (h_expansion c) && rule_gas e p c && rule_state p c &&
  ((expected_pt_hash_of co p =? h_pt_hash c) && (expected_pt_num_of co p =? h_pt_num c)) &&
  rule_number p c.

(* verifyHeader in a zone node in BOTH fork regimes, for headers without AuxPow: [ps] = the parent's share data (unused
   when the child sits on the fork block itself or before it), [cs] = the child's share fields *)
Definition valid_child_x (e : env) (p c : header) (ps : pshares) (cs : shares) : bool :=
  valid_child_core e p c && rule_pow_id_no_auxpow (h_pt_num c) && rule_base_fee_x e p c ps &&
  rule_shares (h_pt_num c) (h_diff p) ps cs.

(* the rejection sites of verifyHeader in source order and what the model does with each: the first components must equal
   the inventory generated from the source text (Generated/C09Params.v verify_header_sites_src) *)
Inductive site_class :=
| SModel        (* a rule of valid_child_x *)
| SZoneOther    (* zone-context rule outside the model: kept satisfied, one monitor-only deviation each *)
| SDomOnly      (* prime / region context only *)
| SAuxPow.      (* only for headers with AuxPow *)
Local Open Scope string_scope.
Definition verify_header_sites : list (String.string * site_class) := [
  ("extra-data too long", SZoneOther);
  ("invalid header hash", SZoneOther);
  ("ErrFutureBlock", SModel);
  ("ErrOlderBlockTime", SModel);
  ("invalid difficulty", SModel);
  ("err<-CalcOrder", SModel);
  ("order of the block is greater than the context", SModel);
  ("block location is not in the same slice as the node location", SZoneOther);
  ("invalid parent entropy", SModel);
  ("invalid parent delta entropy", SModel);
  ("invalid parent delta entropy", SModel);
  ("invalid parent uncled sub delta entropy", SModel);
  ("invalid parent uncled sub delta entropy", SModel);
  ("invalid efficiency score", SDomOnly);
  ("invalid threshold count", SDomOnly);
  ("err<-ComputeEfficiencyScore", SDomOnly);
  ("invalid efficiency score", SDomOnly);
  ("invalid threshold count", SDomOnly);
  ("invalid etx eligible slices", SDomOnly);
  ("invalid prime state root", SDomOnly);
  ("invalid region state root", SDomOnly);
  ("invalid miner difficulty", SDomOnly);
  ("err<-ComputeExpansionNumber", SModel);
  ("invalid expansion number", SModel);
  ("Qi coinbase is not allowed before block", SZoneOther);
  ("err<-CheckPowIdValidity", SModel);
  ("err<-ExtractSignatureTimeFromCoinbase", SAuxPow);
  ("auxpow header time", SAuxPow);
  ("quai block time", SAuxPow);
  ("coinbase seal hash not found in the auxpow", SAuxPow);
  ("coinbase seal hash does not match uncle seal hash, expected", SAuxPow);
  ("auxpow2 is shorter than a hash for scrypt powid", SAuxPow);
  ("auxpow2 is empty for scrypt powid", SAuxPow);
  ("coinbase seal hash does not match uncle aux merkle root, expected", SAuxPow);
  ("err<-ExtractMerkleSizeAndNonceFromCoinbase", SAuxPow);
  ("invalid merkle size", SAuxPow);
  ("invalid merkle nonce", SAuxPow);
  ("invalid merkle root in auxpow", SAuxPow);
  ("invalid prev out point index and sequence in coinbase transaction", SAuxPow);
  ("invalid auxpow signature", SAuxPow);
  ("out-of-scope primary coinbase in the header", SZoneOther);
  ("header lock byte", SZoneOther);
  ("header data field is empty", SZoneOther);
  ("lock byte header data", SZoneOther);
  ("out-of-scope lockup contract in the header", SZoneOther);
  ("out-of-scope beneficiary in the header", SZoneOther);
  ("invalid gasLimit", SModel);
  ("invalid gasUsed", SModel);
  ("invalid gasLimit", SModel);
  ("invalid stateUsed", SModel);
  ("invalid StateLimit", SModel);
  ("invalid baseFee", SModel);
  ("invalid primeTerminusHash", SModel);
  ("invalid primeTerminusNumber", SModel);
  ("invalid sha difficulty", SModel);
  ("invalid sha count", SModel);
  ("invalid sha uncled", SModel);
  ("invalid scrypt difficulty", SModel);
  ("invalid scrypt count", SModel);
  ("invalid scrypt uncled", SModel);
  ("sha diff and count must be nil before kawpow fork block", SModel);
  ("scrypt diff and count must be nil before kawpow fork block", SModel);
  ("invalid sha share target", SModel);
  ("invalid scrypt share target", SModel);
  ("invalid kawpow difficulty", SModel);
  ("sha share target must be nil before kawpow fork block", SModel);
  ("scrypt share target must be nil before kawpow fork block", SModel);
  ("kawpow difficulty must be nil before kawpow fork block", SModel);
  ("ErrInvalidNumber", SModel)
].
Local Close Scope string_scope.
Fixpoint strings_eqb (a b : list String.string) : bool :=
  match a, b with
  | [], [] => true
  | x :: a', y :: b' => String.eqb x y && strings_eqb a' b'
  | _, _ => false
  end.
Definition is_model_site (c : site_class) : bool := match c with SModel => true | _ => false end.
Definition is_zone_other_site (c : site_class) : bool := match c with SZoneOther => true | _ => false end.
Definition sites_match_source : bool := strings_eqb (map fst verify_header_sites) verify_header_sites_src.
Definition modelled_sites : Z := Z.of_nat (length (filter (fun s => is_model_site (snd s)) verify_header_sites)).
Definition zone_other_sites : Z := Z.of_nat (length (filter (fun s => is_zone_other_site (snd s)) verify_header_sites)).

(* ------------------------------------------------------------------------------------------ *)
(** * 8. the CalcOrder memo (hc.calcOrderCache)                                                *)

Definition hkey (h : header) : key := [Z.to_N (h_hash h)].
Definition cache := smap (Z * Z).

(* CheckInCalcOrderCache: an entry with zero entropy is ignored *)
Definition cache_lookup (c : cache) (k : key) : option (Z * Z) :=
  match get k c with
  | Some (e, o) => if e =? 0 then None else Some (e, o)
  | None => None
  end.
(* AddToCalcOrderCache: refuses zero entropy *)
Definition cache_add (c : cache) (k : key) (e o : Z) : cache :=
  if e =? 0 then c else put k (e, o) c.

(* CalcOrder with the memo: returns the new cache and the result *)
Definition calc_order_cached (c : cache) (h : header) : cache * co_result :=
  match cache_lookup c (hkey h) with
  | Some (e, o) => (c, CoOk e o)
  | None =>
      match calc_order h with
      | CoOk e o => if num64 h =? 0 then (c, CoOk e o) else (cache_add c (hkey h) e o, CoOk e o)
      | r => (c, r)
      end
  end.

Inductive cache_op :=
| OpCall (h : header)        (* hc.CalcOrder(h) *)
| OpEvict (k : Z)            (* LRU eviction of one entry / Remove *)
| OpPurge.                   (* restart: empty memo *)

Definition cache_step (c : cache) (o : cache_op) : cache * option co_result :=
  match o with
  | OpCall h => let '(c', r) := calc_order_cached c h in (c', Some r)
  | OpEvict k => (del [Z.to_N k] c, None)
  | OpPurge => ([], None)
  end.

Fixpoint cache_run (c : cache) (ops : list cache_op) : list (option co_result) :=
  match ops with
  | [] => []
  | o :: ops' => let '(c', r) := cache_step c o in r :: cache_run c' ops'
  end.

Definition cache_state (c : cache) (ops : list cache_op) : cache :=
  fold_left (fun st o => fst (cache_step st o)) ops c.

(* ------------------------------------------------------------------------------------------ *)
(** * 8b. histories of CalcOrder / TotalLogEntropy / DeltaLogEntropy / UncledDeltaLogEntropy calls

   The only state these functions share is the CalcOrder memo: TotalLogEntropy, DeltaLogEntropy and
   UncledDeltaLogEntropy call hc.CalcOrder(header) (through the memo) and then ADD to the returned entropy.  In the Go
   code the returned *big.Int IS the memoised object, so the sums must be formed in fresh integers
   (new(big.Int).Add(...)); the model expresses that by value semantics: a call never changes a stored entry.  The
   harness checks this on the real code (monitors hist:.. and alias:..), the correspondence check compares every
   result of a history with [hist_run]. *)
Inductive hist_fn := FOrder | FTotal | FDelta | FUDelta.
Inductive hist_res :=
| ROrder (r : co_result)
| RZ (z : Z)
| RPanic.                   (* CalcOrder panicked inside Total/Delta/UncledDelta *)

Definition hist_fn_sum (f : hist_fn) : bool := match f with FOrder => false | _ => true end.

Definition hist_project (ctx : Z) (f : hist_fn) (h : header) (co : co_result) : hist_res :=
  match f with
  | FOrder => ROrder co
  | _ =>
    match co with
    | CoPanic => RPanic
    | _ => RZ (match f with
               | FTotal => total_entropy_of co ctx h
               | FDelta => delta_entropy_of co ctx h
               | _ => uncled_delta_entropy_of co h
               end)
    end
  end.

(* the function of the header alone (no memo) *)
Definition hist_pure (ctx : Z) (f : hist_fn) (h : header) : hist_res :=
  if hist_fn_sum f && h_genesis h then RZ 0 else hist_project ctx f h (calc_order h).

Inductive hist_op :=
| HCall (f : hist_fn) (h : header)
| HEvict (k : Z)
| HPurge.

Definition hist_step (ctx : Z) (c : cache) (o : hist_op) : cache * option hist_res :=
  match o with
  | HCall f h =>
      (* IsGenesisHash(header.Hash()) is tested BEFORE CalcOrder in the three sums: memo untouched *)
      if hist_fn_sum f && h_genesis h then (c, Some (RZ 0)) else
      let '(c', r) := calc_order_cached c h in (c', Some (hist_project ctx f h r))
  | HEvict k => (del [Z.to_N k] c, None)
  | HPurge => ([], None)
  end.

Fixpoint hist_run (ctx : Z) (c : cache) (ops : list hist_op) : list (option hist_res) :=
  match ops with
  | [] => []
  | o :: ops' => let '(c', r) := hist_step ctx c o in r :: hist_run ctx c' ops'
  end.

Definition hist_uncached (ctx : Z) (o : hist_op) : option hist_res :=
  match o with HCall f h => Some (hist_pure ctx f h) | _ => None end.

(* compact encoding used by the correspondence cases: (code, index into the pool); codes 0..3 = the four functions,
   4 = eviction of pool[index], 5 = purge *)
Definition zero_header : header := mkH 0 false 0 0 0 0 0 0 0 0 0 0 0 0 0 0 0 0 0 0 0 0 0 0.
Definition hist_decode (pool : list header) (p : Z * Z) : hist_op :=
  let h := nth (Z.to_nat (snd p)) pool zero_header in
  if fst p =? 0 then HCall FOrder h else
  if fst p =? 1 then HCall FTotal h else
  if fst p =? 2 then HCall FDelta h else
  if fst p =? 3 then HCall FUDelta h else
  if fst p =? 4 then HEvict (h_hash h) else HPurge.

(* ------------------------------------------------------------------------------------------ *)
(** * 8c. HeaderChain.VerifyHeader / AppendHeader and the block store                           *)

(* What the node's database knows about a header hash.
     StCandidate: the work object was stored by HeaderChain.WriteBlock (Core.WriteBlock does that for every block
                  received from a peer BEFORE it is appended; a failed append leaves the same state behind):
                  GetHeaderOrCandidateByHash answers, GetHeaderByHash does not (no termini);
     StAppended : Slice.Append went through and wrote the termini: GetHeaderByHash answers. *)
Inductive store_status := StUnknown | StCandidate | StAppended.

(* HeaderChain.VerifyHeader(c) (PowMode normal):
     if hc.GetHeaderByHash(c.Hash()) != nil { return nil }           -- only a header that IS part of the chain
     parent := hc.GetBlockByHash(c.ParentHash()); nil -> ErrUnknownAncestor
     return hc.verifyHeader(c, parent, false, time.Now().Unix())
   [par] = the stored parent together with the database view around it (None: unknown ancestor). *)
Definition verify_header_top (st : store_status) (par : option (env * header)) (c : header) : bool :=
  match st with
  | StAppended => true
  | _ => match par with
         | None => false
         | Some (e, p) => valid_child_fast e p c
         end
  end.

Inductive store_op :=
| SoVerify          (* hc.VerifyHeader(c) *)
| SoAppendHeader    (* hc.AppendHeader(c): VerifyHeader, then the manifest commitment (kept satisfied by the harness) *)
| SoWrite           (* hc.WriteBlock(c): stored as a candidate *)
| SoPurge           (* every memo purged *)
| SoRestart         (* a new HeaderChain over the same database *)
| SoCommit.         (* Slice.Append finished: termini written, the header is part of the chain *)

Definition store_step (par : option (env * header)) (c : header) (st : store_status) (op : store_op)
  : store_status * option bool :=
  match op with
  | SoVerify | SoAppendHeader => (st, Some (verify_header_top st par c))
  | SoWrite => (match st with StAppended => StAppended | _ => StCandidate end, None)
  | SoPurge | SoRestart => (st, None)
  | SoCommit => (StAppended, None)
  end.

Fixpoint store_run (par : option (env * header)) (c : header) (st : store_status) (ops : list store_op)
  : list (option bool) :=
  match ops with
  | [] => []
  | op :: rest => let r := store_step par c st op in snd r :: store_run par c (fst r) rest
  end.

(* the same run with the verdict of verifyHeader computed once (vm_compute is call-by-value): used by the
   correspondence check; equal to [store_run] (Proofs: store_run_fast_eq) *)
Definition verdict_top (v : bool) (st : store_status) : bool := match st with StAppended => true | _ => v end.
Fixpoint store_run_v (v : bool) (st : store_status) (ops : list store_op) : list (option bool) :=
  match ops with
  | [] => []
  | op :: rest =>
      match op with
      | SoVerify | SoAppendHeader => Some (verdict_top v st) :: store_run_v v st rest
      | SoWrite => None :: store_run_v v (match st with StAppended => StAppended | _ => StCandidate end) rest
      | SoPurge | SoRestart => None :: store_run_v v st rest
      | SoCommit => None :: store_run_v v StAppended rest
      end
  end.
Definition store_run_fast (e : env) (p c : header) (ops : list store_op) : list (option bool) :=
  let v := valid_child_fast e p c in store_run_v v StUnknown ops.

Definition store_decode (k : Z) : store_op :=
  if k =? 0 then SoVerify else if k =? 1 then SoAppendHeader else if k =? 2 then SoWrite else
  if k =? 3 then SoPurge else if k =? 4 then SoRestart else SoCommit.

(* the node: blocks arrive from peers in any order; each is stored as a candidate and/or appended.  [NAppend c]
   = AppendHeader(c) and, when it returns nil, the commit of Slice.Append. *)
Inductive node_op := NWrite (c : header) | NAppend (c : header) | NPurge.
Record node_store := mkNS { ns_candidates : list Z; ns_appended : list Z }.
Definition status_of (s : node_store) (c : header) : store_status :=
  if existsb (Z.eqb (h_hash c)) (ns_appended s) then StAppended
  else if existsb (Z.eqb (h_hash c)) (ns_candidates s) then StCandidate else StUnknown.
Definition node_step (look : header -> option (env * header)) (s : node_store) (op : node_op) : node_store :=
  match op with
  | NWrite c => mkNS (h_hash c :: ns_candidates s) (ns_appended s)
  | NAppend c =>
      if verify_header_top (status_of s c) (look c) c
      then mkNS (ns_candidates s) (h_hash c :: ns_appended s) else s
  | NPurge => s
  end.
Definition node_run (look : header -> option (env * header)) (s : node_store) (ops : list node_op) : node_store :=
  fold_left (node_step look) ops s.

(* ------------------------------------------------------------------------------------------ *)
(** * 9. correspondence cases                                                                  *)

Definition co_eqb (a b : co_result) : bool :=
  match a, b with
  | CoOk e o, CoOk e' o' => (e =? e') && (o =? o')
  | CoErr, CoErr => true
  | CoPanic, CoPanic => true
  | _, _ => false
  end.
Definition oz_eqb (a b : option Z) : bool :=
  match a, b with
  | Some x, Some y => x =? y
  | None, None => true
  | _, _ => false
  end.
Definition oco_eqb (a b : option co_result) : bool :=
  match a, b with
  | Some x, Some y => co_eqb x y
  | None, None => true
  | _, _ => false
  end.
Definition hres_eqb (a b : hist_res) : bool :=
  match a, b with
  | ROrder x, ROrder y => co_eqb x y
  | RZ x, RZ y => x =? y
  | RPanic, RPanic => true
  | _, _ => false
  end.
Fixpoint ohres_eqb (a b : list (option hist_res)) : bool :=
  match a, b with
  | [], [] => true
  | Some x :: a', Some y :: b' => hres_eqb x y && ohres_eqb a' b'
  | None :: a', None :: b' => ohres_eqb a' b'
  | _, _ => false
  end.
Fixpoint obools_eqb (a b : list (option bool)) : bool :=
  match a, b with
  | [], [] => true
  | Some x :: a', Some y :: b' => Bool.eqb x y && obools_eqb a' b'
  | None :: a', None :: b' => obools_eqb a' b'
  | _, _ => false
  end.
Fixpoint ocos_eqb (a b : list (option co_result)) : bool :=
  match a, b with
  | [], [] => true
  | x :: a', y :: b' => oco_eqb x y && ocos_eqb a' b'
  | _, _ => false
  end.

Fixpoint lz_eqb (a b : list Z) : bool :=
  match a, b with
  | [], [] => true
  | x :: a', y :: b' => (x =? y) && lz_eqb a' b'
  | _, _ => false
  end.
Definition olz_eqb (a b : option (list Z)) : bool :=
  match a, b with
  | Some x, Some y => lz_eqb x y
  | None, None => true
  | _, _ => false
  end.

Inductive case_body :=
| CLog (n : Z) (obs : option Z)                       (* common.LogBig; None = panic *)
| CIntr (powhash : Z) (obs : option Z)                (* common.IntrinsicLogEntropy *)
| CBits (n : Z) (obs : option Z)                      (* common.BitsToBigBits *)
| CToBits (x obs : Z)                                 (* common.BigBitsToBits *)
| CEntToDiff (x obs : Z)                              (* common.EntropyBigBitsToDifficultyBits *)
| CDiff (dl mind pd pt : Z) (gp : gp_info) (obs : option Z)        (* hc.CalcDifficulty, non-genesis parent *)
| CDiffGen (pd : Z) (g : genesis_case) (obs : option Z)            (* hc.CalcDifficulty, genesis parent *)
| CGas (pnum plimit ceil obs : Z)                     (* core.CalcGasLimit *)
| CState (pnum plimit ceil obs : Z)                   (* misc.CalcStateLimit *)
| CBaseFee (is_gen parent_gen : bool) (er diff number obs : Z)      (* hc.CalcBaseFee (pre-fork) *)
| CKqi (number obs : Z)                               (* params.OneOverKqi *)
| COrder (h : header) (obs : co_result)               (* hc.CalcOrder, cold memo *)
| CTotals (ctx : Z) (h : header) (obs_total obs_delta obs_udelta : Z)   (* Total/Delta/UncledDelta LogEntropy *)
| CWsPost (n_uncles obs : Z)                          (* hc.WorkShareLogEntropy after the fork *)
| CExpansion (e : env) (p : header) (obs : option Z)  (* hc.ComputeExpansionNumber *)
| CVerify (e : env) (p c : header) (obs : bool)       (* hc.verifyHeader verdict (true = accepted) *)
| CCache (ops : list cache_op) (obs : list (option co_result))    (* history of CalcOrder calls / evictions *)
| CHist (ctx : Z) (pool : list header) (ops : list (Z * Z)) (obs : list (option hist_res))
                                                      (* history of CalcOrder / Total / Delta / UncledDelta calls *)
| CStore (e : env) (p c : header) (ops : list Z) (obs : list (option bool))
                                                      (* VerifyHeader / AppendHeader verdicts on c (stored parent p) in a
                                                         history of WriteBlock / purge / restart / commit *)
| CShare (ptn pdiff : Z) (ps : pshares) (obs : option (list Z))
                                                      (* CalculatePowDiffAndCount (sha, scrypt), CalculateShareTarget (twice),
                                                         CalculateKawpowDifficulty on a parent without AuxPow; None = panic *)
| CBaseFeeX (is_gen parent_gen : bool) (er diff number ptn : Z) (ps : pshares) (obs : option Z)
                                                      (* hc.CalcBaseFee in both fork regimes *)
| CVerifyX (e : env) (p c : header) (ps : pshares) (cs : shares) (obs : bool).
                                                      (* hc.verifyHeader verdict, both fork regimes (headers without AuxPow) *)

Definition case := (N * case_body)%type.

Definition body_ok (b : case_body) : bool :=
  match b with
  | CLog n obs => oz_eqb (log_big_opt n) obs && (if n <=? 0 then true else oz_eqb (Some (log_big_f n)) obs)
  | CIntr h obs => oz_eqb (intrinsic_entropy_opt h) obs
  | CBits n obs => oz_eqb (bits_to_bigbits_opt n) obs
  | CToBits x obs => bigbits_to_bits x =? obs
  | CEntToDiff x obs => entropy_bigbits_to_difficulty_bits x =? obs
  | CDiff dl mind pd pt gp obs => oz_eqb (calc_difficulty dl mind pd pt gp) obs
  | CDiffGen pd g obs => oz_eqb (calc_difficulty_genesis pd g) obs
  | CGas pn pl ceil obs => calc_gas_limit pn pl ceil =? obs
  | CState pn pl ceil obs => calc_state_limit pn pl ceil =? obs
  | CBaseFee g pg er d n obs => calc_base_fee g pg er d n =? obs
  | CKqi n obs => one_over_kqi n =? obs
  | COrder h obs => co_eqb (calc_order h) obs
  | CTotals ctx h t d u =>
      let co := calc_order h in
      (total_entropy_of co ctx h =? t) && (delta_entropy_of co ctx h =? d) && (uncled_delta_entropy_of co h =? u)
  | CWsPost n obs => ws_entropy_postfork n =? obs
  | CExpansion e p obs => oz_eqb (expected_expansion e p) obs
  | CVerify e p c obs => Bool.eqb (valid_child_fast e p c) obs
  | CCache ops obs => ocos_eqb (cache_run [] ops) obs
  | CHist ctx pool ops obs => ohres_eqb (hist_run ctx [] (map (hist_decode pool) ops)) obs
  | CStore e p c ops obs => obools_eqb (store_run_fast e p c (map store_decode ops)) obs
  | CShare ptn pdiff ps obs => olz_eqb (expected_shares ptn pdiff ps) obs
  | CBaseFeeX g pg er d n ptn ps obs => oz_eqb (calc_base_fee_x g pg er d n ptn ps) obs
  | CVerifyX e p c ps cs obs => Bool.eqb (valid_child_x e p c ps cs) obs
  end.

Definition case_ok (c : case) : bool := body_ok (snd c).
Definition mismatches (cs : list case) : list N := map fst (filter (fun c => negb (case_ok c)) cs).

(* ------------------------------------------------------------------------------------------ *)
(** * 10. side conditions on the generated data (proved by vm_compute in Props/C09.v)         *)

Definition min_difficulties : list Z := map (fun r => snd r) networks.
Definition duration_limits : list Z := map (fun r => fst (fst (fst r))) networks.
Definition min_difficulty_ge_2 : bool := forallb (fun d => 2 <=? d) min_difficulties.
Definition duration_limits_pos : bool := forallb (fun d => 0 <? d) duration_limits.
Definition min_is_half_genesis : bool :=
  forallb (fun r => snd r =? snd (fst r) / 2) networks.
Definition log_consts_ok : bool :=
  (mant_bits =? 64) && (big2e64 =? 2 ^ 64) && (big2e256 =? 2 ^ 256) && (big2 =? 2) &&
  (ctx_prime =? 0) && (ctx_region =? 1) && (ctx_zone =? 2).
Definition retarget_consts_pos : bool :=
  (0 <? difficulty_adjustment_factor) && (0 <? difficulty_adjustment_period) && (0 <=? max_time_diff_between_blocks).
Definition min_gas_limit_is_const : bool :=
  forallb (fun s => snd s =? min_gas_limit_const) min_gas_limit_samples.
Definition one_over_kqi_samples_ok : bool :=
  forallb (fun s => one_over_kqi (fst s) =? snd s) one_over_kqi_samples.
Definition limit_consts_ok : bool :=
  (2 * blocks_per_month <? 2 ^ 64) && (0 <? blocks_per_month) && (0 <=? time_to_start_tx) && (0 <? tx_gas).
Definition entropy_targets_ok : bool :=
  (Z.of_nat (length prime_entropy_targets) =? 256) && (Z.of_nat (length region_entropy_targets) =? 256) &&
  forallb (fun t => 1 <=? t) prime_entropy_targets && forallb (fun t => 1 <=? t) region_entropy_targets &&
  (0 <? alpha_inverse).

(* after the fork *)
Definition fork_consts_ok : bool :=
  (kquai_reset_after_kawpow_fork_block =? kawpow_fork_block) && (big2e32 =? 2 ^ 32) && (big3 =? 3) &&
  (0 <? target_sha_shares) && (target_sha_shares <=? max_sha_shares) &&
  (1 <? work_share_ema_blocks) && (1 <? new_work_share_ema_blocks) &&
  (0 <? pow_diff_adjustment_factor) && (0 <? new_pow_diff_adjustment_factor) &&
  (0 <? max_subsidy_denominator) && (0 <=? max_subsidy_numerator) && (0 <? duration_limit_default) &&
  (0 <? inclusion_depth_update_period) && (0 <? initial_sha_diff_multiple) && (0 <? expected_workshares_per_block) &&
  (kawpow_fork_block + kawpow_transition_period <? inclusion_depth_change_block) &&
  (inclusion_depth_change_block + inclusion_depth_update_period <? 2 ^ 64) &&
  (kawpow_fork_block <? sha_equivalent_difficulty_fork_block) &&
  (sha_equivalent_difficulty_fork_block <=? conversion_stability_fork_block) &&
  (0 <? sha_diff_lower_bound) && (0 <? scrypt_diff_lower_bound) && (0 <? kquai_difficulty_divisor) &&
  (0 <? initial_kawpow_diff) && (0 <? blocks_per_day).
