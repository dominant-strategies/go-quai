(* C18 -- F-C18-1 in the model: on the empty trie Prove emits nothing and VerifyProof rejects. *)
From Coq Require Import List NArith.
From GQ Require Import Model.C18.
Import ListNotations.

Lemma proof_empty_trie_refuted (H : pnode -> N) (small : pnode -> bool) k fuel :
  prove H small Nil (hex k) true = [] /\
  verify H fuel (root_hash H small Nil) (hex k) (prove H small Nil (hex k) true) = None.
Proof.
  assert (E : prove H small Nil (hex k) true = []) by (destruct (hex k); reflexivity).
  split; [exact E|]. rewrite E. destruct fuel; reflexivity.
Qed.
