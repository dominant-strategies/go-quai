(* C14_Varint — base-128 little-endian varints (protobuf wire format, Go
   google.golang.org/protobuf/encoding/protowire AppendVarint / ConsumeVarint).

   INTERFACE
   bytes                 := list N            (a byte string; well formed = every element < 256)
   len b                 : N                  length as N
   encode n              : bytes              minimal (canonical) encoding, any n : N
   decode b              : option (N * bytes) Go's ConsumeVarint: at most 10 bytes, 10th byte < 2,
                                              NON-minimal encodings are accepted (0x80 0x00 = 0)
   u64, u32              := 2^64, 2^32

   encode_eq             : encode n = if n <? 128 then [n] else (n mod 128 + 128) :: encode (n / 128)
   encode_wf             : wf_bytes (encode n)
   encode_nonempty       : encode n <> []
   encode_length_u64     : n < u64 -> length (encode n) <= 10
   decode_encode         : n < u64 -> decode (encode n ++ r) = Some (n, r)        (round trip)
   encode_prefix_inj     : n,n' < u64 -> encode n ++ r = encode n' ++ r' -> n = n' /\ r = r'
   encode_inj            : n,n' < u64 -> encode n = encode n' -> n = n'
   decode_consumes       : decode b = Some (n, r) -> exists c, b = c ++ r /\ c <> [] /\ length c <= 10
   decode_shorter        : decode b = Some (n, r) -> length r < length b
   decode_bound          : wf_bytes b -> decode b = Some (n, r) -> n < u64
   decode_minimal        : wf_bytes b -> decode b = Some (n, r) -> b = c ++ r ->
                           (c = encode n  \/  length (encode n) < length c)       (canonical form)
   decode_canonical_iff  : ... -> (c = encode n <-> length c = length (encode n))
   reads k b n r         : dec_fuel (S k) b = Some (n, r) as a relation (dec_fuel_reads)
   fuel_enough, size_enough, fuel_eq
                         : (Section Fuel) a loop dividing by B: any two fuels f with n < B^f agree, N.size n is such
                           a fuel (be_fuel_enc); the recursion equation with fuel N.size n (encode, be_enc)
   len_app, len_lt, len_app_ltb, firstn_len_app, skipn_len_app, firstn_exact, skipn_exact
                         : len against length; a ++ b cut at the length of a
   No axioms. *)
From Coq Require Import List NArith Lia.
From GQ Require Import Lib.Key Lib.Lists.
Import ListNotations.
Local Open Scope N_scope.

Definition bytes := list N.
Definition len (b : bytes) : N := N.of_nat (length b).
Definition u64 : N := 18446744073709551616.
Definition u32 : N := 4294967296.

(* protowire.AppendVarint.  Fuel = number of bits of n is always enough. *)
Fixpoint enc_fuel (fuel : nat) (n : N) : bytes :=
  match fuel with
  | O => [n mod 128]
  | S f => if n <? 128 then [n] else (n mod 128 + 128) :: enc_fuel f (n / 128)
  end.

Definition encode (n : N) : bytes := enc_fuel (N.to_nat (N.size n)) n.

(* protowire.ConsumeVarint: bytes 1..9 may continue, the 10th must be 0 or 1. *)
Fixpoint dec_fuel (fuel : nat) (b : bytes) : option (N * bytes) :=
  match fuel with
  | O => None
  | S f =>
      match b with
      | [] => None
      | x :: r =>
          if x <? 128 then
            match f with
            | O => if x <? 2 then Some (x, r) else None
            | S _ => Some (x, r)
            end
          else
            match dec_fuel f r with
            | Some (v, r') => Some (x - 128 + 128 * v, r')
            | None => None
            end
      end
  end.

Definition decode (b : bytes) : option (N * bytes) := dec_fuel 10 b.

(* A loop with fuel that divides its argument by B >= 2 at every step: any fuel f with n < B^f is enough, the number
   of bits of n in particular, so with that fuel the loop satisfies its recursion equation. *)
Section Fuel.
  Context {T : Type} (B : N) (G : N -> T -> T) (F : nat -> N -> T).
  Hypothesis HB : 2 <= B.
  Hypothesis F0 : forall f, F f 0 = F O 0.
  Hypothesis FS : forall f n, F (S f) n = G n (F f (n / B)).

  Lemma fuel_enough f1 : forall f2 n, n < B ^ N.of_nat f1 -> n < B ^ N.of_nat f2 -> F f1 n = F f2 n.
  Proof.
    induction f1 as [|f1 IH]; intros f2 n H1 H2.
    - assert (n = 0) by (change (n < 1) in H1; lia). subst n. symmetry. apply F0.
    - destruct f2 as [|f2].
      + assert (n = 0) by (change (n < 1) in H2; lia). subst n. apply F0.
      + rewrite !FS. f_equal. rewrite Nat2N.inj_succ, N.pow_succ_r' in H1, H2.
        apply IH; apply N.div_lt_upper_bound; lia.
  Qed.

  Lemma size_enough n : n < B ^ N.of_nat (N.to_nat (N.size n)).
  Proof. rewrite N2Nat.id. eapply N.lt_le_trans; [apply N.size_gt|]. apply N.pow_le_mono_l. exact HB. Qed.

  Lemma fuel_eq n : F (N.to_nat (N.size n)) n = G n (F (N.to_nat (N.size (n / B))) (n / B)).
  Proof.
    set (f := N.to_nat (N.size n)). pose proof (size_enough n) as Hf. fold f in Hf.
    rewrite (fuel_enough f (S f) n Hf), FS by (rewrite Nat2N.inj_succ, N.pow_succ_r'; nia).
    f_equal. apply fuel_enough; [|apply size_enough].
    eapply N.le_lt_trans; [|exact Hf]. apply N.div_le_upper_bound; nia.
  Qed.
End Fuel.

Lemma encode_eq n : encode n = if n <? 128 then [n] else (n mod 128 + 128) :: encode (n / 128).
Proof.
  apply (fuel_eq 128 (fun n rest => if n <? 128 then [n] else (n mod 128 + 128) :: rest) enc_fuel);
    [discriminate|intros []; reflexivity|reflexivity].
Qed.

Lemma encode_small n : n < 128 -> encode n = [n].
Proof. intros H. rewrite encode_eq. apply N.ltb_lt in H. rewrite H. reflexivity. Qed.

Lemma encode_big n : 128 <= n -> encode n = (n mod 128 + 128) :: encode (n / 128).
Proof. intros H. rewrite encode_eq. apply N.ltb_ge in H. rewrite H. reflexivity. Qed.

Lemma N_ind128 (P : N -> Prop) :
  (forall n, n < 128 -> P n) -> (forall n, 128 <= n -> P (n / 128) -> P n) -> forall n, P n.
Proof.
  intros Hs Hb n. induction n as [n IH] using (well_founded_induction N.lt_wf_0).
  destruct (N.ltb_spec n 128) as [H|H]; [apply Hs; assumption|].
  apply Hb; [assumption|]. apply IH. apply N.div_lt; lia.
Qed.

Lemma encode_wf n : wf_bytes (encode n).
Proof.
  unfold wf_bytes. induction n as [n H|n H IH] using N_ind128.
  - rewrite encode_small by assumption. constructor; [lia|constructor].
  - rewrite encode_big by assumption. constructor; [|exact IH].
    pose proof (N.mod_upper_bound n 128). lia.
Qed.

Lemma encode_nonempty n : encode n <> [].
Proof.
  destruct (N.ltb_spec n 128).
  - rewrite encode_small by assumption. discriminate.
  - rewrite encode_big by assumption. discriminate.
Qed.

(* With fuel S f the cap "last byte < 2" sits on byte f+1, so exactly the values below
   2 * 128^f are read back; f = 9 is ConsumeVarint and 2 * 128^9 = 2^64. *)
Lemma dec_fuel_encode n : forall f r,
  n < 2 * 128 ^ N.of_nat f -> dec_fuel (S f) (encode n ++ r) = Some (n, r).
Proof.
  induction n as [n H|n H IH] using N_ind128; intros f r Hf.
  - rewrite encode_small by assumption. cbn [app dec_fuel].
    apply N.ltb_lt in H. rewrite H.
    destruct f as [|f]; [|reflexivity].
    change (n < 2) in Hf. apply N.ltb_lt in Hf. rewrite Hf. reflexivity.
  - rewrite encode_big by assumption. cbn [app dec_fuel].
    rewrite (proj2 (N.ltb_ge _ _) (N.le_add_l 128 (n mod 128))).
    destruct f as [|f]; [change (n < 2) in Hf; lia|].
    rewrite IH.
    + rewrite N.add_sub, N.add_comm, <- N.div_mod by discriminate. reflexivity.
    + rewrite Nat2N.inj_succ, N.pow_succ_r' in Hf. apply N.div_lt_upper_bound; lia.
Qed.

Theorem decode_encode n r : n < u64 -> decode (encode n ++ r) = Some (n, r).
Proof. intros H. apply (dec_fuel_encode n 9). exact H. Qed.

Theorem encode_prefix_inj n n' r r' :
  n < u64 -> n' < u64 -> encode n ++ r = encode n' ++ r' -> n = n' /\ r = r'.
Proof.
  intros H H' E. pose proof (decode_encode n r H) as D. rewrite E in D.
  rewrite (decode_encode n' r' H') in D. inversion D. split; reflexivity.
Qed.

Theorem encode_inj n n' : n < u64 -> n' < u64 -> encode n = encode n' -> n = n'.
Proof.
  intros H H' E. apply (encode_prefix_inj n n' [] [] H H'). rewrite E. reflexivity.
Qed.

(* [dec_fuel (S k) b = Some (n, r)] as a relation; k continuation bytes are still allowed. *)
Inductive reads : nat -> bytes -> N -> bytes -> Prop :=
| reads_last k x r : x < 128 -> (k = O -> x < 2) -> reads k (x :: r) x r
| reads_more k x b v r : 128 <= x -> reads k b v r -> reads (S k) (x :: b) (x - 128 + 128 * v) r.

Lemma dec_fuel_reads k : forall b n r, dec_fuel (S k) b = Some (n, r) -> reads k b n r.
Proof.
  induction k as [|k IH]; intros [|x b'] n r; try discriminate.
  - cbn [dec_fuel]. destruct (N.ltb_spec x 128) as [Hx|_]; [|discriminate].
    destruct (N.ltb_spec x 2) as [Hc|_]; [|discriminate]. intros H. injection H as <- <-. constructor; auto.
  - set (f := S k). cbn [dec_fuel]. destruct (N.ltb_spec x 128) as [Hx|Hx].
    + intros H. injection H as <- <-. constructor; [exact Hx|discriminate].
    + destruct (dec_fuel f b') as [[v r']|] eqn:D; [|discriminate]. intros H. injection H as <- <-.
      constructor; [exact Hx|]. apply IH. exact D.
Qed.

Lemma reads_consumes k b n r : reads k b n r -> exists c, b = c ++ r /\ c <> [] /\ (length c <= S k)%nat.
Proof.
  induction 1 as [k x r _ _|k x b v r _ _ (c & -> & _ & L)].
  - exists [x]. split; [reflexivity|]. split; [discriminate|cbn; lia].
  - exists (x :: c). split; [reflexivity|]. split; [discriminate|cbn; lia].
Qed.

Lemma reads_bound k b n r : reads k b n r -> wf_bytes b -> n < 2 * 128 ^ N.of_nat k.
Proof.
  induction 1 as [k x r Hx Hc|k x b v r Hx _ IH]; intros W.
  - destruct k as [|k]; [exact (Hc eq_refl)|]. rewrite Nat2N.inj_succ, N.pow_succ_r'.
    pose proof (N.pow_nonzero 128 (N.of_nat k)). lia.
  - inversion W as [|? ? Wx Wb]; subst. specialize (IH Wb). rewrite Nat2N.inj_succ, N.pow_succ_r'. lia.
Qed.

Lemma reads_minimal k b n r : reads k b n r -> wf_bytes b ->
  forall c, b = c ++ r -> c = encode n \/ (length (encode n) < length c)%nat.
Proof.
  induction 1 as [k x r Hx _|k x b v r Hx R IH]; intros W c Hc.
  - change ([x] ++ r = c ++ r) in Hc. apply app_inv_tail in Hc. subst c.
    left. rewrite encode_small by exact Hx. reflexivity.
  - inversion W as [|? ? Wx Wb]; subst.
    destruct (reads_consumes _ _ _ _ R) as (c' & -> & Hc' & _).
    change ((x :: c') ++ r = c ++ r) in Hc. apply app_inv_tail in Hc. subst c.
    (* v = 0: the rest is padding (0x80 … 0x00) and c is strictly longer *)
    destruct (N.eq_dec v 0) as [->|Nv].
    + right. rewrite N.mul_0_r, N.add_0_r, encode_small by lia.
      destruct c'; [congruence|cbn; lia].
    + rewrite encode_big by lia.
      replace ((x - 128 + 128 * v) mod 128) with (x - 128) by (apply N.mod_unique with v; lia).
      replace ((x - 128 + 128 * v) / 128) with v by (apply N.div_unique with (x - 128); lia).
      destruct (IH Wb c' eq_refl) as [->|L].
      * left. f_equal. lia.
      * right. cbn [length]. lia.
Qed.

Theorem decode_consumes b n r : decode b = Some (n, r) ->
  exists c, b = c ++ r /\ c <> [] /\ (length c <= 10)%nat.
Proof. intros H. exact (reads_consumes 9 b n r (dec_fuel_reads 9 b n r H)). Qed.

Theorem decode_shorter b n r : decode b = Some (n, r) -> (length r < length b)%nat.
Proof.
  intros H. destruct (decode_consumes _ _ _ H) as (c & -> & Hc & _).
  rewrite app_length. destruct c; [congruence|cbn; lia].
Qed.

Lemma encode_length_u64 n : n < u64 -> (length (encode n) <= 10)%nat.
Proof.
  intros H. destruct (decode_consumes _ _ _ (decode_encode n [] H)) as (c & E & _ & L).
  apply app_inv_tail in E. rewrite E. exact L.
Qed.

Theorem decode_bound b n r : wf_bytes b -> decode b = Some (n, r) -> n < u64.
Proof. intros W H. exact (reads_bound 9 b n r (dec_fuel_reads 9 b n r H) W). Qed.

Theorem decode_minimal b n r c : wf_bytes b -> decode b = Some (n, r) -> b = c ++ r ->
  c = encode n \/ (length (encode n) < length c)%nat.
Proof. intros W H. exact (reads_minimal 9 b n r (dec_fuel_reads 9 b n r H) W c). Qed.

Theorem decode_canonical_iff b n r c : wf_bytes b -> decode b = Some (n, r) -> b = c ++ r ->
  (c = encode n <-> length c = length (encode n)).
Proof.
  intros W H Hc. split; [intros ->; reflexivity|]. intros L.
  destruct (decode_minimal b n r c W H Hc) as [E|Lt]; [exact E|lia].
Qed.

Lemma len_app (a b : bytes) : len (a ++ b) = len a + len b.
Proof. unfold len. rewrite app_length. lia. Qed.
Lemma len_nil : len [] = 0. Proof. reflexivity. Qed.
Lemma len_lt (a b : bytes) : (length a < length b)%nat -> len a < len b.
Proof. unfold len. lia. Qed.
Lemma len_app_ltb (a b : bytes) : (len (a ++ b) <? len a) = false.
Proof. apply N.ltb_ge. rewrite len_app. apply N.le_add_r. Qed.

Lemma firstn_exact {A} n (a b : list A) : length a = n -> firstn n (a ++ b) = a.
Proof. intros <-. apply firstn_app_length. Qed.
Lemma skipn_exact {A} n (a b : list A) : length a = n -> skipn n (a ++ b) = b.
Proof. intros <-. apply skipn_app_length. Qed.

Lemma firstn_len_app (a b : bytes) : firstn (N.to_nat (len a)) (a ++ b) = a.
Proof. apply firstn_exact. unfold len. rewrite Nnat.Nat2N.id. reflexivity. Qed.
Lemma skipn_len_app (a b : bytes) : skipn (N.to_nat (len a)) (a ++ b) = b.
Proof. apply skipn_exact. unfold len. rewrite Nnat.Nat2N.id. reflexivity. Qed.
