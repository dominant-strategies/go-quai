(* C19 -- lemmas about the nonce-sorted per-account lists (txSortedMap/txList model) and
   the per-account maps of Model/C19.v. *)
(* ZifyBool: lia reads [(a =? b) = true]; the instances come with Require, so every file that requires this one has them *)
From Coq Require Import List NArith PeanoNat Bool Lia ZifyBool.
From GQ Require Import Lib.Lists Model.C19.
Import ListNotations.
Local Open Scope N_scope.

Lemma tx_eqb_eq a b : tx_eqb a b = true <-> a = b.
Proof.
  unfold tx_eqb. destruct a, b; cbn. rewrite !andb_true_iff, !N.eqb_eq. split.
  - intros [[[[-> ->] ->] ->] ->]. reflexivity.
  - intros E; inversion E; subst. repeat split.
Qed.
Lemma tx_eqb_refl a : tx_eqb a a = true.
Proof. apply tx_eqb_eq; reflexivity. Qed.
Lemma tx_eqb_neq a b : tx_eqb a b = false <-> a <> b.
Proof. rewrite <- tx_eqb_eq. destruct (tx_eqb a b); split; congruence. Qed.
Lemma tx_eq_dec (a b : tx) : {a = b} + {a <> b}.
Proof. destruct (tx_eqb a b) eqn:E; [left; apply tx_eqb_eq; exact E | right; apply tx_eqb_neq; exact E]. Qed.

Lemma mem_tx_in t l : mem_tx t l = true <-> In t l.
Proof. exact (existsb_eqb_In tx_eqb tx_eqb_eq t l). Qed.
Lemma mem_n_in a l : mem_n a l = true <-> In a l.
Proof. exact (existsb_eqb_In N.eqb N.eqb_eq a l). Qed.

Lemma len_app (l1 l2 : txl) : len (l1 ++ l2) = len l1 + len l2.
Proof. unfold len. rewrite app_length. lia. Qed.

Fixpoint sorted (l : txl) : Prop :=
  match l with
  | [] => True
  | x :: r => (forall y, In y r -> t_nonce x < t_nonce y) /\ sorted r
  end.

Definition owned (a : N) (l : txl) : Prop := forall t, In t l -> t_from t = a.
Definition hasn (l : txl) (n : N) : Prop := exists t, In t l /\ t_nonce t = n.

Lemma sorted_tail x r : sorted (x :: r) -> sorted r.
Proof. cbn; tauto. Qed.

Lemma sorted_nonce_inj l x y : sorted l -> In x l -> In y l -> t_nonce x = t_nonce y -> x = y.
Proof.
  induction l as [|z r IH]; cbn; [tauto|]. intros [Hlt Hs] [->|Hx] [->|Hy] E; auto.
  - specialize (Hlt _ Hy). lia.
  - specialize (Hlt _ Hx). lia.
Qed.

Lemma filter_sorted f l : sorted l -> sorted (filter f l).
Proof.
  induction l as [|x r IH]; cbn; [auto|]. intros [Hlt Hs]. destruct (f x); cbn; auto.
  split; auto. intros y Hy. apply filter_In in Hy. apply Hlt. tauto.
Qed.

Lemma sorted_app l1 l2 : sorted (l1 ++ l2) <-> sorted l1 /\ sorted l2 /\ (forall x y, In x l1 -> In y l2 -> t_nonce x < t_nonce y).
Proof.
  induction l1 as [|z r IH]; cbn.
  - split; [intros H; repeat split; auto; intros ? ? [] | tauto].
  - rewrite IH. split.
    + intros [Hlt [H1 [H2 H3]]]. repeat split; auto.
      * intros y Hy. apply Hlt. apply in_or_app; auto.
      * intros x y [->|Hx] Hy; auto. apply Hlt. apply in_or_app; auto.
    + intros [[Hlt H1] [H2 H3]]. repeat split; auto.
      intros y Hy. apply in_app_or in Hy as [Hy|Hy]; auto.
Qed.

Lemma sorted_ext (l1 l2 : txl) : sorted l1 -> sorted l2 -> (forall x, In x l1 <-> In x l2) -> l1 = l2.
Proof.
  revert l2. induction l1 as [|x r IH]; intros l2 S1 S2 E.
  - destruct l2 as [|y r2]; [reflexivity|]. exfalso. apply (proj2 (E y)). left; reflexivity.
  - destruct l2 as [|y r2]; [exfalso; apply (proj1 (E x)); left; reflexivity|].
    destruct S1 as [A1 S1]. destruct S2 as [A2 S2].
    assert (Exy : x = y).
    { assert (Hx : In x (y :: r2)) by (apply E; left; reflexivity).
      assert (Hy : In y (x :: r)) by (apply E; left; reflexivity).
      destruct Hx as [Hx|Hx]; [auto|]. destruct Hy as [Hy|Hy]; [auto|].
      specialize (A1 _ Hy). specialize (A2 _ Hx). lia. }
    subst y. f_equal. apply IH; auto. intros z. split; intros Hz.
    + assert (Hz' : In z (x :: r2)) by (apply E; right; exact Hz).
      destruct Hz' as [<-|Hz']; [|exact Hz']. specialize (A1 _ Hz). lia.
    + assert (Hz' : In z (x :: r)) by (apply E; right; exact Hz).
      destruct Hz' as [<-|Hz']; [|exact Hz']. specialize (A2 _ Hz). lia.
Qed.

Lemma sorted_nodup_nonce l : sorted l -> NoDup (map t_nonce l).
Proof.
  induction l as [|x r IH]; cbn; [constructor|]. intros [Hlt Hs]. constructor; auto.
  intros Hin. apply in_map_iff in Hin as [y [E Hy]]. specialize (Hlt _ Hy). lia.
Qed.
Lemma sorted_nodup l : sorted l -> NoDup l.
Proof. intros H. apply (NoDup_map_inv t_nonce), sorted_nodup_nonce, H. Qed.

Lemma nodup_nonce_app (D R : txl) :
  NoDup (map t_nonce D) -> NoDup (map t_nonce R) -> (forall x y, In x D -> In y R -> t_nonce x <> t_nonce y) ->
  NoDup (map t_nonce (D ++ R)).
Proof.
  intros H1 H2 H3. rewrite map_app. apply NoDup_app_iff. split; [exact H1|]. split; [exact H2|].
  intros n Hd Hr. apply in_map_iff in Hd as [x [Ex Hx]]. apply in_map_iff in Hr as [y [Ey Hy]].
  apply (H3 x y Hx Hy). congruence.
Qed.

Lemma firstn_skipn_sorted k l : sorted l -> sorted (firstn k l) /\ sorted (skipn k l).
Proof.
  intros H. rewrite <- (firstn_skipn k l) in H. apply sorted_app in H. tauto.
Qed.

Lemma removelast_firstn (l : txl) : removelast l = firstn (length l - 1) l.
Proof. rewrite Nat.sub_1_r. apply removelast_firstn_len. Qed.

Lemma removelast_below l x r : sorted l -> rev l = x :: r -> removelast l = filter (fun y => t_nonce y <? t_nonce x) l.
Proof.
  intros Hs Er. rewrite (rev_cons_inv _ _ _ Er) in Hs |- *. rewrite removelast_last, filter_app. cbn.
  rewrite N.ltb_irrefl, app_nil_r. symmetry. apply filter_all.
  apply sorted_app in Hs as [_ [_ S3]]. intros y Hy. specialize (S3 y x Hy (or_introl eq_refl)). lia.
Qed.

Lemma l_get_find n l : l_get n l = find (fun x => t_nonce x =? n) l.
Proof. induction l as [|y r IH]; cbn; [reflexivity|]. rewrite IH. reflexivity. Qed.
Lemma l_get_in n l x : l_get n l = Some x -> In x l /\ t_nonce x = n.
Proof. rewrite l_get_find. intros H. apply find_some in H. split; [apply H|lia]. Qed.
Lemma l_get_none n l : l_get n l = None <-> forall x, In x l -> t_nonce x <> n.
Proof.
  rewrite l_get_find. split.
  - intros H x Hx. apply (find_none _ _ H) in Hx. lia.
  - intros H. destruct (find _ l) as [x|] eqn:E; [|reflexivity]. apply find_some in E. exfalso. apply (H x); [apply E|lia].
Qed.
Lemma l_get_some n l x : sorted l -> In x l -> t_nonce x = n -> l_get n l = Some x.
Proof.
  intros Hs Hx En. destruct (l_get n l) as [y|] eqn:E.
  - apply l_get_in in E as [Hy Ey]. f_equal. eapply sorted_nonce_inj; eauto. lia.
  - rewrite l_get_none in E. exfalso. eapply E; eauto.
Qed.
Lemma l_get_hasn n l : (exists x, l_get n l = Some x) <-> hasn l n.
Proof.
  split.
  - intros [x H]. apply l_get_in in H. exists x; exact H.
  - intros [x [Hx En]]. destruct (l_get n l) eqn:E; [eauto|]. rewrite l_get_none in E. exfalso; eapply E; eauto.
Qed.

Lemma l_put_split t l : sorted l ->
  l_put t l = filter (fun x => t_nonce x <? t_nonce t) l ++ t :: filter (fun x => t_nonce t <? t_nonce x) l.
Proof.
  induction l as [|y r IH]; cbn; [reflexivity|]. intros [Hlt Hs]. destruct (t_nonce y <? t_nonce t) eqn:E.
  - assert (E1 : t_nonce t <? t_nonce y = false) by lia. assert (E2 : t_nonce t =? t_nonce y = false) by lia.
    rewrite E1, E2, (IH Hs). reflexivity.
  - (* y and the rest lie at or above t *)
    rewrite filter_none, filter_all by (intros z Hz; specialize (Hlt z Hz); lia).
    destruct (t_nonce t <? t_nonce y) eqn:E1; [reflexivity|]. assert (E2 : t_nonce t =? t_nonce y = true) by lia.
    rewrite E2. reflexivity.
Qed.
Lemma l_put_end l t : sorted l -> (forall y, In y l -> t_nonce y < t_nonce t) -> l_put t l = l ++ [t].
Proof.
  intros Hs G. rewrite (l_put_split t l Hs), filter_all, filter_none; [reflexivity| |]; intros y Hy; specialize (G y Hy); lia.
Qed.

Lemma l_put_in t l x : sorted l -> (In x (l_put t l) <-> x = t \/ (In x l /\ t_nonce x <> t_nonce t)).
Proof.
  intros Hs. rewrite (l_put_split t l Hs), in_app_iff. cbn [In]. rewrite !filter_In. split.
  - intros [[H E]|[<-|[H E]]]; [right|left|right]; auto; split; auto; lia.
  - intros [->|[H E]]; [auto|]. destruct (t_nonce x <? t_nonce t) eqn:E1; [left; auto|right; right; split; auto; lia].
Qed.

Lemma l_put_sorted t l : sorted l -> sorted (l_put t l).
Proof.
  intros Hs. rewrite (l_put_split t l Hs). apply sorted_app. split; [apply filter_sorted, Hs|]. split.
  - split; [|apply filter_sorted, Hs]. intros y Hy. apply filter_In in Hy. lia.
  - intros x y Hx [<-|Hy]; apply filter_In in Hx; [lia|]. apply filter_In in Hy. lia.
Qed.

Lemma l_put_nonempty t l : l_put t l <> [].
Proof. destruct l as [|y r]; cbn; [discriminate|]. destruct (_ <? _); [discriminate|]. destruct (_ =? _); discriminate. Qed.

Lemma l_put_hasn t l n : sorted l -> hasn l n -> hasn (l_put t l) n.
Proof.
  intros Hs [x [Hx En]]. destruct (N.eq_dec (t_nonce x) (t_nonce t)) as [E|E].
  - exists t. split; [apply l_put_in; auto|congruence].
  - exists x. split; [apply l_put_in; auto|exact En].
Qed.
Lemma map_nonce_put_same t l : sorted l -> hasn l (t_nonce t) -> map t_nonce (l_put t l) = map t_nonce l.
Proof.
  induction l as [|y r IH]; cbn; [intros _ [x [[] _]]|]. intros [Hlt Hs] Hh.
  destruct (t_nonce t <? t_nonce y) eqn:E1.
  - exfalso. destruct Hh as [x [[<-|Hx] En]]; [lia|]. specialize (Hlt _ Hx). lia.
  - destruct (t_nonce t =? t_nonce y) eqn:E2; cbn; [f_equal; lia|]. f_equal. apply IH; auto.
    destruct Hh as [x [[<-|Hx] En]]; [lia|exists x; auto].
Qed.

Lemma l_put_in_weak t l x : In x (l_put t l) -> x = t \/ In x l.
Proof.
  induction l as [|y r IH]; cbn.
  - intros [<-|[]]. left; reflexivity.
  - destruct (t_nonce t <? t_nonce y).
    + intros [<-|H]; [left; reflexivity | right; exact H].
    + destruct (t_nonce t =? t_nonce y).
      * intros [<-|H]; [left; reflexivity | right; right; exact H].
      * intros [<-|H]; [right; left; reflexivity|]. destruct (IH H) as [E|E]; [left; exact E | right; right; exact E].
Qed.
Lemma l_put_owned a t l : owned a l -> t_from t = a -> owned a (l_put t l).
Proof. intros Ho Ht x Hx. apply l_put_in_weak in Hx as [->|Hx]; auto. Qed.

Lemma l_add_some t b l l' old :
  l_add t b l = Some (l', old) ->
  l' = l_put t l /\ old = l_get (t_nonce t) l /\
  (forall o, old = Some o -> t_price o < t_price t /\ bump_threshold b (t_price o) <= t_price t).
Proof.
  unfold l_add. destruct (l_get (t_nonce t) l) as [o|] eqn:E.
  - destruct (t_price t <=? t_price o) eqn:E1; [discriminate|].
    destruct (t_price t <? bump_threshold b (t_price o)) eqn:E2; [discriminate|].
    intros [= <- <-]. split; [reflexivity|]. split; [reflexivity|]. intros o' [= <-]. lia.
  - intros [= <- <-]. split; [reflexivity|]. split; [reflexivity|]. discriminate.
Qed.
Lemma l_add_fresh t b l : l_get (t_nonce t) l = None -> l_add t b l = Some (l_put t l, None).
Proof. unfold l_add. intros ->. reflexivity. Qed.
Lemma l_add_none t b l : l_add t b l = None ->
  exists o, l_get (t_nonce t) l = Some o /\ (t_price t <= t_price o \/ t_price t < bump_threshold b (t_price o)).
Proof.
  unfold l_add. destruct (l_get (t_nonce t) l) as [o|]; [|discriminate].
  destruct (t_price t <=? t_price o) eqn:E1; [intros _; exists o; split; auto; left; lia|].
  destruct (t_price t <? bump_threshold b (t_price o)) eqn:E2; [|discriminate].
  intros _. exists o. split; auto. right; lia.
Qed.
Lemma l_add_refused t b l o : sorted l -> In o l -> t_nonce o = t_nonce t ->
  t_price t <= t_price o \/ t_price t < bump_threshold b (t_price o) -> l_add t b l = None.
Proof.
  intros Hs Ho En Hp. unfold l_add. rewrite (l_get_some _ _ o Hs Ho En).
  destruct (t_price t <=? t_price o) eqn:E1; [reflexivity|]. destruct (t_price t <? _) eqn:E2; [reflexivity|]. lia.
Qed.
Lemma l_add_in t b l l' old x : l_add t b l = Some (l', old) -> In x l' -> x = t \/ In x l.
Proof. intros E. destruct (l_add_some _ _ _ _ _ E) as [-> _]. apply l_put_in_weak. Qed.

Lemma l_remove_in n l x : In x (l_remove n l) <-> In x l /\ t_nonce x <> n.
Proof. unfold l_remove. rewrite filter_In. split; intros [H1 H2]; split; auto; lia. Qed.
Lemma l_remove_sorted n l : sorted l -> sorted (l_remove n l).
Proof. apply filter_sorted. Qed.

Lemma l_put_remove t l : sorted l -> l_put t (l_remove (t_nonce t) l) = l_put t l.
Proof.
  intros Hs. apply sorted_ext; [apply l_put_sorted, l_remove_sorted, Hs|apply l_put_sorted, Hs|].
  intros x. rewrite !l_put_in, l_remove_in by auto using l_remove_sorted. tauto.
Qed.

Lemma l_remove_strict_below n l : snd (l_remove_strict n l) = filter (fun x => t_nonce x <? n) l.
Proof.
  unfold l_remove_strict, l_remove. cbn [snd]. rewrite filter_filter. apply filter_ext. intros x.
  destruct (t_nonce x =? n) eqn:E1; destruct (n <? t_nonce x) eqn:E2; destruct (t_nonce x <? n) eqn:E3; cbn; try reflexivity; lia.
Qed.
Lemma len_l_remove n l t : sorted l -> In t l -> t_nonce t = n -> len (l_remove n l) + 1 = len l.
Proof.
  intros Hs Ht En. induction l as [|y r IH]; [destruct Ht|]. cbn in Hs. destruct Hs as [Hlt Hs]. unfold l_remove. cbn [filter].
  destruct Ht as [->|Ht].
  - assert (E : t_nonce t =? n = true) by lia. rewrite E. cbn [negb].
    rewrite filter_all; [unfold len; cbn [length]; lia|]. intros x Hx. specialize (Hlt _ Hx). lia.
  - assert (E : t_nonce y =? n = false) by (specialize (Hlt _ Ht); lia). rewrite E. cbn [negb].
    fold (l_remove n r). specialize (IH Hs Ht). unfold len in *. cbn [length]. lia.
Qed.

Lemma l_forward_fst thr l x : In x (fst (l_forward thr l)) <-> In x l /\ t_nonce x < thr.
Proof. cbn. rewrite filter_In. split; intros [H1 H2]; split; auto; lia. Qed.
Lemma l_forward_snd thr l x : In x (snd (l_forward thr l)) <-> In x l /\ thr <= t_nonce x.
Proof. cbn. rewrite filter_In. split; intros [H1 H2]; split; auto; lia. Qed.
Lemma l_forward_all thr l : (forall x, In x l -> thr <= t_nonce x) -> snd (l_forward thr l) = l.
Proof. intros H. apply filter_all. intros x Hx. specialize (H x Hx). lia. Qed.

Lemma min_nonce_le_iff x r n : min_nonce x r <= n <-> exists y, In y (x :: r) /\ t_nonce y <= n.
Proof.
  enough (G : forall l m, fold_left (fun m t => N.min m (t_nonce t)) l m <= n <-> m <= n \/ exists y, In y l /\ t_nonce y <= n).
  { unfold min_nonce. rewrite G. cbn [In]. split; [intros [H|[y [Hy H]]]|intros [y [[<-|Hy] H]]]; eauto. }
  induction l as [|z l IH]; intros m; cbn [fold_left In]; [split; [auto|intros [H|[y [[] _]]]; exact H]|].
  rewrite IH, N.min_le_iff. split; [intros [[H|H]|[y [Hy H]]]|intros [H|[y [[<-|Hy] H]]]]; eauto.
Qed.
Lemma min_nonce_le x r y : In y (x :: r) -> min_nonce x r <= t_nonce y.
Proof. intros Hy. apply min_nonce_le_iff. exists y. split; [exact Hy|lia]. Qed.
Lemma min_nonce_in x r : exists y, In y (x :: r) /\ min_nonce x r = t_nonce y.
Proof.
  destruct (proj1 (min_nonce_le_iff x r _) (N.le_refl _)) as [y [Hy H]]. exists y. split; [exact Hy|].
  pose proof (min_nonce_le x r y Hy). lia.
Qed.

Lemma unpayable_false bal mg t : unpayable bal mg t = false <-> cost t <= bal /\ t_gas t <= mg.
Proof. unfold unpayable. rewrite orb_false_iff, !N.ltb_ge. tauto. Qed.

(* the strict-mode cut of txList.Filter as a predicate: its three results are then filters of the list *)
Definition cut_above (strict : bool) (rem : txl) (y : tx) : bool :=
  match rem with [] => false | x :: r => strict && (min_nonce x r <? t_nonce y) end.

Lemma l_filter_parts_of strict bal mg l rem inv kept : l_filter strict bal mg l = (rem, inv, kept) ->
  rem = filter (unpayable bal mg) l /\
  inv = filter (cut_above strict rem) (filter (fun x => negb (unpayable bal mg x)) l) /\
  kept = filter (fun y => negb (cut_above strict rem y)) (filter (fun x => negb (unpayable bal mg x)) l).
Proof.
  unfold l_filter. destruct (filter (unpayable bal mg) l) as [|x0 r0] eqn:Er.
  - intros [= <- <- <-]. cbn [cut_above]. rewrite (filter_none (fun _ => false)), (filter_all (fun _ => negb false)), (filter_nil_all _ _ Er); auto.
  - destruct strict; intros [= <- <- <-]; cbn [cut_above andb]; [auto|].
    rewrite (filter_none (fun _ => false)), (filter_all (fun _ => negb false)); auto.
Qed.

Lemma l_filter_none strict bal mg l : (forall x, In x l -> unpayable bal mg x = false) -> l_filter strict bal mg l = ([], [], l).
Proof. intros H. unfold l_filter. rewrite (filter_none _ _ H). reflexivity. Qed.

Section Filter.
Variables (strict : bool) (bal mg : N) (l rem inv kept : txl).
Hypothesis HF : l_filter strict bal mg l = (rem, inv, kept).
Let U := unpayable bal mg.

Lemma l_filter_rem x : In x rem <-> In x l /\ U x = true.
Proof. destruct (l_filter_parts_of _ _ _ _ _ _ _ HF) as [-> _]. apply filter_In. Qed.

Lemma l_filter_keep x : In x inv \/ In x kept <-> In x l /\ U x = false.
Proof.
  destruct (l_filter_parts_of _ _ _ _ _ _ _ HF) as [_ [-> ->]]. rewrite !filter_In. unfold U.
  destruct (cut_above strict rem x), (unpayable bal mg x); cbn; intuition congruence.
Qed.

Lemma l_filter_disj x : In x inv -> In x kept -> False.
Proof.
  destruct (l_filter_parts_of _ _ _ _ _ _ _ HF) as [_ [-> ->]]. rewrite !filter_In. intros [_ H1] [_ H2].
  rewrite H1 in H2. discriminate.
Qed.

Lemma l_filter_nonstrict : strict = false -> inv = [].
Proof using HF.
  intros E. destruct (l_filter_parts_of _ _ _ _ _ _ _ HF) as [_ [-> _]]. apply filter_none. intros x _. rewrite E.
  destruct rem; reflexivity.
Qed.

Lemma l_filter_strict_kept x y : strict = true -> In x kept -> In y rem -> t_nonce x <= t_nonce y.
Proof using HF.
  intros E. destruct (l_filter_parts_of _ _ _ _ _ _ _ HF) as [_ [_ ->]]. rewrite filter_In, E. intros [_ Hx] Hy.
  destruct rem as [|x0 r0]; [destruct Hy|]. pose proof (min_nonce_le x0 r0 y Hy). cbn in Hx. lia.
Qed.

Lemma l_filter_strict_inv x : strict = true -> In x inv -> exists y, In y rem /\ t_nonce y < t_nonce x.
Proof.
  intros E. destruct (l_filter_parts_of _ _ _ _ _ _ _ HF) as [_ [-> _]]. rewrite filter_In, E. intros [_ Hx].
  destruct rem as [|x0 r0]; [discriminate|]. destruct (min_nonce_in x0 r0) as [y [Hy M]]. exists y. split; [exact Hy|].
  cbn in Hx. lia.
Qed.

Lemma l_filter_sorted : sorted l -> sorted rem /\ sorted inv /\ sorted kept.
Proof.
  intros Hs. destruct (l_filter_parts_of _ _ _ _ _ _ _ HF) as [E [-> ->]]. rewrite E at 1.
  repeat split; repeat apply filter_sorted; exact Hs.
Qed.
End Filter.

Lemma strict_kept_prefix bal mg l rem inv kept :
  sorted l -> l_filter true bal mg l = (rem, inv, kept) ->
  kept = l \/ exists n, kept = filter (fun x => t_nonce x <? n) l.
Proof.
  intros Hs HF. destruct (l_filter_parts_of _ _ _ _ _ _ _ HF) as [Er [_ ->]].
  destruct rem as [|x0 r0]; [left; cbn [cut_above]; rewrite (filter_all (fun _ => negb false)); [apply filter_nil_all|]; auto|].
  right. exists (min_nonce x0 r0). rewrite filter_filter. apply filter_ext_in. intros x Hx. cbn.
  assert (Hrem : forall y, In y (x0 :: r0) <-> In y l /\ unpayable bal mg y = true) by (intros y; rewrite Er; apply filter_In).
  (* the lowest removed nonce is that of an unpayable y of l; a payable x of l has another nonce *)
  destruct (min_nonce_in x0 r0) as [y [Hy M]]. apply Hrem in Hy as [Hy Uy].
  destruct (unpayable bal mg x) eqn:Eu; cbn.
  - pose proof (min_nonce_le x0 r0 x (proj2 (Hrem x) (conj Hx Eu))). lia.
  - assert (t_nonce x <> t_nonce y) by (intros E; rewrite (sorted_nonce_inj l x y Hs Hx Hy E) in Eu; congruence). lia.
Qed.

(* the pending list demoteUnexecutables leaves (s the state nonce) *)
Definition demote_keep (s bal mg : N) (pl : txl) : txl :=
  let l2 := snd (l_filter true bal mg (snd (l_forward s pl))) in
  match l_get s l2 with Some _ => l2 | None => [] end.

Lemma demote_keep_spec s bal mg pl : sorted pl ->
  let L := demote_keep s bal mg pl in
  (forall x, In x L -> In x pl /\ s <= t_nonce x /\ unpayable bal mg x = false) /\
  (L <> [] -> hasn L s) /\
  (forall w, In w pl -> t_nonce w = s -> unpayable bal mg w = false -> L <> []).
Proof.
  intros Hs. unfold demote_keep. pose proof (l_forward_snd s pl) as Ffw. set (l1 := snd (l_forward s pl)) in *.
  destruct (l_filter true bal mg l1) as [[drops inv] l2] eqn:EF. cbn [snd].
  pose proof (l_filter_keep _ _ _ _ _ _ _ EF) as Fkeep. split; [|split].
  - intros x Hx. destruct (l_get s l2); [|destruct Hx].
    destruct (proj1 (Fkeep x) (or_intror Hx)) as [Hl1 Hp]. apply Ffw in Hl1. tauto.
  - destruct (l_get s l2) eqn:Eg; [intros _; apply l_get_hasn; eauto|congruence].
  - intros w Hw En Hp. assert (Hl1 : In w l1) by (apply Ffw; split; [exact Hw|lia]).
    assert (Hl2 : In w l2).
    { destruct (proj2 (Fkeep w) (conj Hl1 Hp)) as [Hi|Hk]; [exfalso|exact Hk].
      (* an invalid lies above an unpayable transaction, which lies at or above s *)
      destruct (l_filter_strict_inv _ _ _ _ _ _ _ EF w eq_refl Hi) as [y [Hy Hlt]].
      apply (l_filter_rem _ _ _ _ _ _ _ EF) in Hy as [Hy _]. apply Ffw in Hy as [_ Hy]. lia. }
    assert (Hh : hasn l2 s) by (exists w; auto). apply l_get_hasn in Hh as [z ->]. intros E. rewrite E in Hl2. destruct Hl2.
Qed.

Lemma demote_keep_prefix s bal mg pl : sorted pl ->
  let L := demote_keep s bal mg pl in
  L = [] \/ L = snd (l_forward s pl) \/ exists n, L = filter (fun x => t_nonce x <? n) (snd (l_forward s pl)).
Proof.
  intros Hs. unfold demote_keep. destruct (l_filter true bal mg (snd (l_forward s pl))) as [[drops inv] l2] eqn:EF. cbn [snd].
  destruct (l_get s l2); [right; apply (strict_kept_prefix _ _ _ _ _ _ (filter_sorted _ _ Hs) EF)|left; reflexivity].
Qed.

Lemma l_cap_app k l : l = snd (l_cap k l) ++ fst (l_cap k l).
Proof. cbn. symmetry. apply firstn_skipn. Qed.
Lemma l_cap_len k l : len (snd (l_cap k l)) <= k.
Proof. cbn. unfold len. pose proof (firstn_le_length (N.to_nat k) l). lia. Qed.

Fixpoint contig (s : N) (l : txl) : Prop :=
  match l with
  | [] => True
  | x :: r => t_nonce x = s /\ contig (s + 1) r
  end.

Lemma l_run_split next l a b : l_run next l = (a, b) -> l = a ++ b /\ contig next a.
Proof.
  revert next a b. induction l as [|x r IH]; intros next a b; cbn.
  - intros [= <- <-]. cbn. auto.
  - destruct (t_nonce x =? next) eqn:E.
    + destruct (l_run (next + 1) r) as [a' b'] eqn:E'. intros [= <- <-].
      destruct (IH _ _ _ E') as [H1 H2]. subst r. cbn. repeat split; auto. lia.
    + intros [= <- <-]. cbn. auto.
Qed.

(* all that is used of Ready; that the run is maximal is not needed *)
Lemma l_ready_split start l a b : l_ready start l = (a, b) ->
  l = a ++ b /\ match a with [] => True | x :: _ => t_nonce x <= start /\ contig (t_nonce x) a end.
Proof.
  unfold l_ready. destruct l as [|x r]; [intros [= <- <-]; auto|].
  destruct (start <? t_nonce x) eqn:E; [intros [= <- <-]; auto|].
  intros H. destruct (l_run_split _ _ _ _ H) as [H1 H2]. split; [exact H1|].
  destruct a as [|y a']; [exact I|]. injection H1 as <- _. split; [lia|exact H2].
Qed.

Lemma contig_hasn s l n : contig s l -> (hasn l n <-> s <= n < s + len l).
Proof.
  revert s. induction l as [|y r IH]; intros s; cbn.
  - intros _. unfold hasn, len; cbn. split; [intros [? [[] _]]|lia].
  - intros [E H]. specialize (IH _ H). unfold hasn in *. unfold len in *; cbn [length]. split.
    + intros [t [[<-|Ht] En]]; [lia|]. assert (Hh : exists t, In t r /\ t_nonce t = n) by eauto. apply IH in Hh. lia.
    + intros Hn. destruct (N.eq_dec n s) as [->|Hne]; [exists y; cbn; auto|].
      assert (Hr : s + 1 <= n < s + 1 + N.of_nat (length r)) by lia. apply IH in Hr as [t [Ht En]]. exists t; cbn; auto.
Qed.
Lemma contig_nonces s l x : contig s l -> In x l -> s <= t_nonce x < s + len l.
Proof. intros H Hx. apply (contig_hasn s l _ H). exists x. auto. Qed.
Lemma contig_sorted s l : contig s l -> sorted l.
Proof.
  revert s. induction l as [|y r IH]; intros s; cbn; [auto|]. intros [E H]. split; [|eauto].
  intros z Hz. pose proof (contig_nonces _ _ _ H Hz). lia.
Qed.
Lemma contig_app s l1 l2 : contig s (l1 ++ l2) <-> contig s l1 /\ contig (s + len l1) l2.
Proof.
  revert s. induction l1 as [|y r IH]; intros s; cbn.
  - unfold len; cbn. rewrite N.add_0_r. tauto.
  - rewrite IH. unfold len; cbn [length]. replace (s + 1 + N.of_nat (length r)) with (s + N.of_nat (S (length r))) by lia. tauto.
Qed.

Lemma aget_adel a b m : aget a (adel b m) = if b =? a then [] else aget a m.
Proof.
  induction m as [|[k l] r IH]; cbn; [destruct (b =? a); reflexivity|].
  destruct (k =? b) eqn:E1.
  - rewrite IH. destruct (b =? a) eqn:E2; [reflexivity|]. destruct (k =? a) eqn:E3; [lia|reflexivity].
  - cbn. rewrite IH. destruct (k =? a) eqn:E3; [|reflexivity]. destruct (b =? a) eqn:E2; [lia|reflexivity].
Qed.
Lemma aget_aset a b l m : aget a (aset b l m) = if b =? a then l else aget a m.
Proof.
  unfold aset. destruct l as [|x r].
  - rewrite aget_adel. destruct (b =? a); reflexivity.
  - cbn [aget]. rewrite aget_adel. destruct (b =? a); reflexivity.
Qed.
Lemma adel_adel a m : adel a (adel a m) = adel a m.
Proof.
  induction m as [|[k l] r IH]; cbn; [reflexivity|]. destruct (k =? a) eqn:E; [exact IH|]. cbn. rewrite E, IH. reflexivity.
Qed.
Lemma aset_aset a l l' m : aset a l (aset a l' m) = aset a l m.
Proof.
  assert (E : adel a (aset a l' m) = adel a m).
  { unfold aset. destruct l'; [apply adel_adel|]. cbn. rewrite N.eqb_refl. apply adel_adel. }
  change (aset a l (aset a l' m)) with (match l with [] => adel a (aset a l' m) | _ => (a, l) :: adel a (aset a l' m) end).
  rewrite E. reflexivity.
Qed.
Lemma aget_aset_same a l m : aget a (aset a l m) = l.
Proof. rewrite aget_aset, N.eqb_refl. reflexivity. Qed.
Lemma aget_aset_other a b l m : b <> a -> aget a (aset b l m) = aget a m.
Proof. intros H. rewrite aget_aset. destruct (b =? a) eqn:E; [lia|reflexivity]. Qed.
Lemma aget_notin a m : ~ In a (akeys m) -> aget a m = [].
Proof.
  induction m as [|[k l] r IH]; cbn; [reflexivity|]. intros H. destruct (k =? a) eqn:E; [exfalso; apply H; left; lia|].
  apply IH. tauto.
Qed.
