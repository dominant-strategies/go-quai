(* C16 — lemmas about the address model (Model/C16.v); at the end the side conditions on the generated data
   (Generated/C16Sites.v) with the reviewed inventory of BytesToAddress call sites.
   Property theorems: Props/C16.v *)
From Coq Require Import List NArith PeanoNat Bool Lia String.
From GQ Require Import Lib.Key Model.C16 Generated.C16Sites.
Import ListNotations.
Local Open Scope N_scope.
Local Notation length := List.length (only parsing).

Lemma byte_nibbles b : b < 256 -> b / 16 < 16 /\ b mod 16 < 16.
Proof. intros H. split; [apply N.div_lt_upper_bound|apply N.mod_lt]; lia. Qed.

Lemma wf_nth a i : wf_bytes a -> nth i a 0 < 256.
Proof.
  intros H. unfold wf_bytes in H. rewrite Forall_forall in H.
  destruct (Nat.lt_ge_cases i (length a)) as [Hi|Hi].
  - apply H, nth_In, Hi.
  - rewrite nth_overflow by exact Hi. lia.
Qed.

Lemma set_bytes_length n b : length (set_bytes n b) = n.
Proof.
  unfold set_bytes. destruct (Nat.ltb n (length b)) eqn:E.
  - apply Nat.ltb_lt in E. rewrite skipn_length. lia.
  - apply Nat.ltb_ge in E. rewrite app_length, repeat_length. lia.
Qed.

Lemma set_bytes_id n b : length b = n -> set_bytes n b = b.
Proof.
  intros H. unfold set_bytes. rewrite H, Nat.ltb_irrefl, Nat.sub_diag. reflexivity.
Qed.

Lemma to20_length b : length (to20 b) = 20%nat.
Proof. apply set_bytes_length. Qed.

Lemma to20_id b : length b = 20%nat -> to20 b = b.
Proof. apply set_bytes_id. Qed.

Lemma set_bytes_wf n b : wf_bytes b -> wf_bytes (set_bytes n b).
Proof.
  intros H. unfold set_bytes, wf_bytes in *. destruct (Nat.ltb n (length b)).
  - rewrite <- (firstn_skipn (length b - n) b) in H. apply Forall_app in H. apply H.
  - apply Forall_app. split; [|exact H]. apply Forall_forall. intros x Hx.
    apply repeat_spec in Hx. subst. lia.
Qed.

Lemma hash_of_20 b : length b = 20%nat -> bytes_to_hash b = repeat 0 12 ++ b.
Proof.
  intros H. unfold bytes_to_hash, set_bytes, HASH_LENGTH. rewrite H. reflexivity.
Qed.

Lemma context_zone_inv l : (context l =? ZONE_CTX) = true -> exists r z t, l = r :: z :: t.
Proof. destruct l as [|r [|z t]]; cbn; try discriminate. eauto. Qed.

(* on 20 bytes the zero-address clause of IsInChainScope adds nothing: ZeroAddress(l) itself starts with BytePrefix(l) *)
Lemma in_scope_20 b l : length b = 20%nat -> in_chain_scope b l = in_zone b l.
Proof.
  intros Hb. unfold in_chain_scope, in_zone.
  destruct (context l =? ZONE_CTX) eqn:Ec; cbn [negb andb]; [|reflexivity].
  destruct (keqb (bytes_to_hash b) (bytes_to_hash (zero_address l))) eqn:Eh.
  - apply keqb_eq in Eh. rewrite (hash_of_20 b Hb), (hash_of_20 (zero_address l) eq_refl) in Eh.
    apply app_inv_head in Eh. subst b. cbn. symmetry. apply N.eqb_refl.
  - destruct b as [|b0 b']; [discriminate|]. reflexivity.
Qed.

Lemma in_zone_ctx a l : in_zone a l = true -> (context l =? ZONE_CTX) = true.
Proof. unfold in_zone. intros H. apply andb_true_iff in H. tauto. Qed.

Lemma contains_address_in_zone l a : contains_address l a = in_zone a l.
Proof.
  unfold contains_address, in_zone. destruct (context l =? ZONE_CTX); cbn; [|reflexivity].
  apply N.eqb_sym.
Qed.

(* specification, not a Go function: what every constructor and decoder is compared with *)
Definition classify (a : bytes) (l : location) : res :=
  if in_zone a l then Internal a else External a.

Lemma classify_internal a l x : classify a l = Internal x -> x = a /\ in_zone x l = true.
Proof. unfold classify. destruct (in_zone a l) eqn:E; intros H; inversion H; subst; auto. Qed.

Lemma classify_external a l x : classify a l = External x -> x = a /\ in_zone x l = false.
Proof. unfold classify. destruct (in_zone a l) eqn:E; intros H; inversion H; subst; auto. Qed.

Lemma classify_is_internal a l : (exists x, classify a l = Internal x) <-> in_zone a l = true.
Proof.
  unfold classify. destruct (in_zone a l); split.
  - reflexivity.
  - eauto.
  - intros [x H]. discriminate.
  - discriminate.
Qed.

Lemma classify_bytes a l : res_bytes (classify a l) = a.
Proof. unfold classify. destruct (in_zone a l); reflexivity. Qed.

Lemma bta_fixed_spec b l : bytes_to_address_gen true b l = classify (to20 b) l.
Proof.
  unfold bytes_to_address_gen, classify. rewrite (in_scope_20 _ l (to20_length b)). reflexivity.
Qed.

(* holds because fix_applied = true; on 20-byte inputs use [bta_cur_20], which holds for either value of the switch *)
Lemma bta_spec b l : bytes_to_address b l = classify (to20 b) l.
Proof. apply bta_fixed_spec. Qed.

Lemma bta_20_spec fx b l : length b = 20%nat -> bytes_to_address_gen fx b l = classify b l.
Proof.
  intros Hb. unfold bytes_to_address_gen, classify. rewrite (to20_id b Hb).
  destruct fx; rewrite (in_scope_20 b l Hb); reflexivity.
Qed.

Lemma bta_cur_20 a l : length a = 20%nat -> bytes_to_address a l = classify a l.
Proof. apply bta_20_spec. Qed.

Lemma bytes20_spec b l : length b = 20%nat -> bytes20_to_address b l = classify b l.
Proof. apply bta_cur_20. Qed.

Lemma bta_bytes fx b l : res_bytes (bytes_to_address_gen fx b l) = to20 b.
Proof. unfold bytes_to_address_gen. destruct (in_chain_scope _ l); reflexivity. Qed.

Lemma bta_not_err fx b l : bytes_to_address_gen fx b l <> Err.
Proof. unfold bytes_to_address_gen. destruct (in_chain_scope _ l); discriminate. Qed.

Lemma bta_cases b l : bytes_to_address b l = Internal (to20 b) \/ bytes_to_address b l = External (to20 b).
Proof. unfold bytes_to_address, bytes_to_address_gen. destruct (in_chain_scope _ l); auto. Qed.

Lemma digest_to_address_spec (d : bytes) l : length d = 32%nat ->
  digest_to_address d l = classify (skipn 12 d) l.
Proof. intros H. apply bta_cur_20. rewrite skipn_length, H. reflexivity. Qed.

(* F10 witnesses, for BytesToAddress before its repair ([bytes_to_address_gen false]); the harness corpus
   (harness/cmd/c16/main.go) replays the same inputs on the Go code *)
Definition f10_crop_input : bytes := 0 :: 16 :: repeat 7 19.          (* 21 bytes 00 10 07.. *)
Definition f10_pad_input : bytes := 16 :: repeat 7 18.                (* 19 bytes 10 07..    *)
Definition f10_ext_input : bytes := 85 :: 0 :: repeat 7 19.           (* 21 bytes 55 00 07.. *)

Lemma f10_crop : bytes_to_address_gen false f10_crop_input [0; 0] = Internal (16 :: repeat 7 19)
                 /\ in_zone (16 :: repeat 7 19) [0; 0] = false /\ in_zone (16 :: repeat 7 19) [1; 0] = true.
Proof. vm_compute. auto. Qed.

Lemma f10_pad : bytes_to_address_gen false f10_pad_input [1; 0] = Internal (0 :: 16 :: repeat 7 18)
                /\ in_zone (0 :: 16 :: repeat 7 18) [1; 0] = false /\ in_zone (0 :: 16 :: repeat 7 18) [0; 0] = true.
Proof. vm_compute. auto. Qed.

Lemma f10_ext : bytes_to_address_gen false f10_ext_input [0; 0] = External (0 :: repeat 7 19)
                /\ in_zone (0 :: repeat 7 19) [0; 0] = true.
Proof. vm_compute. auto. Qed.

Definition valid_zone (l : location) : Prop := exists r z, l = [r; z] /\ r < 16 /\ z < 16.

Definition wf20 (a : bytes) : Prop := wf_bytes a /\ length a = 20%nat.

Lemma location_of_nibbles a : location_of a = [nth 0 a 0 / 16 mod 16; nth 0 a 0 mod 16].
Proof.
  unfold location_of. cbv zeta. rewrite N.shiftr_land.
  change (N.shiftr 240 4) with (N.ones 4). change 15 with (N.ones 4).
  rewrite !N.land_ones, N.shiftr_div_pow2. reflexivity.
Qed.

Lemma nibbles_of_prefix r z : z < 16 -> (r * 16 + z) / 16 = r /\ (r * 16 + z) mod 16 = z.
Proof. intros Hz. split; symmetry; [apply N.div_unique with z|apply N.mod_unique with r]; lia. Qed.

Lemma byte_prefix_zone r z : r < 16 -> z < 16 -> byte_prefix [r; z] = r * 16 + z.
Proof. intros. cbn. apply N.mod_small. lia. Qed.

Lemma in_zone_prefix a r z : r < 16 -> z < 16 -> in_zone a [r; z] = (nth 0 a 0 =? r * 16 + z).
Proof. intros Hr Hz. unfold in_zone. rewrite (byte_prefix_zone r z Hr Hz). reflexivity. Qed.

Lemma location_of_prefix a r z : r < 16 -> z < 16 -> nth 0 a 0 = r * 16 + z -> location_of a = [r; z].
Proof.
  intros Hr Hz Hb. destruct (nibbles_of_prefix r z Hz) as [Hd Hm].
  rewrite location_of_nibbles, Hb, Hd, Hm, (N.mod_small r 16 Hr). reflexivity.
Qed.

Lemma zone_of_address a : nth 0 a 0 < 256 ->
  valid_zone (location_of a) /\ in_zone a (location_of a) = true.
Proof.
  intros Hb. rewrite location_of_nibbles. set (b := nth 0 a 0) in *.
  destruct (byte_nibbles b Hb) as [Hr Hz]. rewrite (N.mod_small (b / 16) 16 Hr).
  split.
  - exists (b / 16), (b mod 16). auto.
  - rewrite (in_zone_prefix a _ _ Hr Hz). fold b. apply N.eqb_eq.
    rewrite N.mul_comm. apply N.div_mod. lia.
Qed.

Lemma zone_unique a l : valid_zone l -> in_zone a l = true -> l = location_of a.
Proof.
  intros (r & z & -> & Hr & Hz) H. rewrite (in_zone_prefix a r z Hr Hz) in H. apply N.eqb_eq in H.
  symmetry. apply location_of_prefix; assumption.
Qed.

Lemma loc_eqb_in_zone a l : nth 0 a 0 < 256 -> valid_zone l -> loc_eqb (location_of a) l = in_zone a l.
Proof.
  intros Hb Hv. destruct (in_zone a l) eqn:E.
  - apply zone_unique in E; [|exact Hv]. subst l. apply keqb_refl.
  - apply keqb_neq. intros Heq. subst l. destruct (zone_of_address a Hb) as [_ H]. congruence.
Qed.

Lemma high_bit b : b < 256 -> (127 <? b) = N.testbit b 7.
Proof.
  intros Hb. rewrite N.testbit_odd, N.shiftr_div_pow2. change (2 ^ 7) with 128.
  destruct (N.ltb_spec 127 b) as [H|H].
  - rewrite <- (N.div_unique b 128 1 (b - 128)) by lia. reflexivity.
  - rewrite N.div_small by lia. reflexivity.
Qed.

Lemma ledger_negb a : is_qi a = negb (is_quai a).
Proof. apply N.ltb_antisym. Qed.

Lemma ledger_partition a : (is_qi a = true /\ is_quai a = false) \/ (is_qi a = false /\ is_quai a = true).
Proof. rewrite ledger_negb. destruct (is_quai a); auto. Qed.

Lemma internal_and_quai_spec r a : internal_and_quai r = Some a <-> (r = Internal a /\ is_quai a = true).
Proof.
  destruct r as [x|x|]; cbn; [|intuition congruence..].
  pose proof (ledger_negb x) as Hn.
  destruct (is_qi x) eqn:Q, (is_quai x) eqn:U; try discriminate Hn; intuition congruence.
Qed.

Lemma internal_and_qi_spec r a : internal_and_qi r = Some a <-> (r = Internal a /\ is_qi a = true).
Proof.
  destruct r as [x|x|]; cbn; [|intuition congruence..].
  pose proof (ledger_negb x) as Hn.
  destruct (is_qi x) eqn:Q, (is_quai x) eqn:U; try discriminate Hn; intuition congruence.
Qed.

Lemma digest_internal_quai d l a : length d = 32%nat ->
  internal_and_quai (digest_to_address d l) = Some a ->
  length a = 20%nat /\ in_zone a l = true /\ is_quai a = true /\ a = skipn 12 d.
Proof.
  intros Hd H. apply internal_and_quai_spec in H. destruct H as [E Hq].
  rewrite (digest_to_address_spec d l Hd) in E. apply classify_internal in E. destruct E as [-> Hz].
  rewrite skipn_length, Hd. auto.
Qed.

(* 48 + n is '0' + n; 87 + n is 'a' + (n - 10) *)
Lemma hex_val_digit n : n < 10 -> hex_val (48 + n) = Some n.
Proof.
  intros H. unfold hex_val.
  rewrite (proj2 (N.leb_le 48 (48 + n))), (proj2 (N.leb_le (48 + n) 57)) by lia.
  cbn [andb]. f_equal. lia.
Qed.

Lemma hex_val_letter n : 10 <= n -> n < 16 -> hex_val (87 + n) = Some n.
Proof.
  intros H1 H2. unfold hex_val.
  rewrite (proj2 (N.leb_gt (87 + n) 57)), andb_false_r by lia.
  rewrite (proj2 (N.leb_le 97 (87 + n))), (proj2 (N.leb_le (87 + n) 102)) by lia.
  cbn [andb]. f_equal. lia.
Qed.

(* 120 = 'x', 88 = 'X' *)
Lemma nibble_spec n : n < 16 ->
  hex_val (hex_digit n) = Some n /\ hex_digit n <> 120 /\ hex_digit n <> 88.
Proof.
  intros Hn. unfold hex_digit. destruct (N.ltb_spec n 10) as [H|H].
  - rewrite (hex_val_digit n H). repeat split; lia.
  - rewrite (hex_val_letter n H Hn). repeat split; lia.
Qed.

Lemma hex_encode_cons b a :
  hex_encode (b :: a) = hex_digit (b / 16) :: hex_digit (b mod 16) :: hex_encode a.
Proof. reflexivity. Qed.

Lemma hex_encode_length a : length (hex_encode a) = (2 * length a)%nat.
Proof.
  induction a as [|b a IH]; [reflexivity|].
  rewrite hex_encode_cons. cbn [List.length]. rewrite IH. lia.
Qed.

Lemma hex_encode_sound a : wf_bytes a ->
  hex_decode (hex_encode a) = a /\ forallb is_hex_char (hex_encode a) = true.
Proof.
  intros H. induction H as [|b a Hb Ha [IHd IHc]]; [split; reflexivity|].
  destruct (byte_nibbles b Hb) as [H1 H2].
  rewrite hex_encode_cons. cbn [hex_decode forallb]. unfold is_hex_char at 1 2.
  rewrite (proj1 (nibble_spec _ H1)), (proj1 (nibble_spec _ H2)), IHd, IHc.
  split; [|reflexivity]. f_equal. rewrite N.mul_comm. symmetry. apply N.div_mod. lia.
Qed.

Lemma hex_encode_no_0x a : has_0x (hex_encode a) = false.
Proof.
  destruct a as [|b a]; [reflexivity|].
  destruct (nibble_spec (b mod 16)) as (_ & Hx & HX); [apply N.mod_lt; discriminate|].
  rewrite hex_encode_cons. unfold has_0x. destruct (hex_digit (b / 16)) as [|p]; [reflexivity|].
  apply N.eqb_neq in Hx, HX. rewrite Hx, HX.
  (* every branch is false now; the pattern 48 is a match on the bits of the first character *)
  repeat (destruct p as [p|p|]; try reflexivity).
Qed.

Lemma len_even_not_odd (s : list N) n : length s = (2 * n)%nat -> N.odd (len s) = false.
Proof.
  intros H. unfold len. rewrite H. rewrite Nat2N.inj_mul. change (N.of_nat 2) with 2.
  rewrite N.odd_mul. reflexivity.
Qed.

Lemma from_hex_encode a : wf_bytes a -> from_hex (hex_encode a) = a.
Proof.
  intros H. unfold from_hex. rewrite (hex_encode_no_0x a).
  rewrite (len_even_not_odd _ _ (hex_encode_length a)). exact (proj1 (hex_encode_sound a H)).
Qed.

Lemma has_0x_hex0x a : has_0x (hex0x a) = true.
Proof. reflexivity. Qed.

Lemma from_hex_0x a : wf_bytes a -> from_hex (hex0x a) = a.
Proof.
  intros H. unfold from_hex. rewrite has_0x_hex0x. cbn [hex0x skipn].
  rewrite (len_even_not_odd _ _ (hex_encode_length a)). exact (proj1 (hex_encode_sound a H)).
Qed.

Lemma unmarshal_fixed_text_0x a : wf20 a -> unmarshal_fixed_text (hex0x a) = Some a.
Proof.
  intros [H Hl]. unfold unmarshal_fixed_text. rewrite has_0x_hex0x. cbn [hex0x skipn].
  rewrite (len_even_not_odd _ _ (hex_encode_length a)). rewrite hex_encode_length, Hl.
  cbn [Nat.mul Nat.add Nat.div Nat.divmod fst Nat.eqb ADDRESS_LENGTH negb].
  destruct (hex_encode_sound a H) as [-> ->]. reflexivity.
Qed.

Lemma is_hex_address_0x a : wf20 a -> is_hex_address (hex0x a) = true.
Proof.
  intros [H Hl]. unfold is_hex_address. rewrite has_0x_hex0x. cbn [hex0x skipn].
  rewrite hex_encode_length, Hl, (proj2 (hex_encode_sound a H)). reflexivity.
Qed.

Definition quote (s : list N) : list N := 34 :: s ++ [34].

Lemma is_string_quote s : is_string (quote s) = true.
Proof.
  unfold is_string, quote. destruct s as [|c s]; [reflexivity|].
  cbn [app]. change (34 :: c :: s ++ [34]) with ((34 :: c :: s) ++ [34]).
  rewrite last_last. reflexivity.
Qed.

Lemma unquote_quote s : unquote (quote s) = s.
Proof. unfold unquote, quote. cbn [tl]. apply removelast_last. Qed.

Lemma strip_zeros_nonzero a : nth 0 a 0 <> 0 -> strip_zeros a = a.
Proof. destruct a as [|[|p] a]; cbn; intros H; congruence. Qed.

Lemma check_internal_qi_spec b l :
  check_internal_qi b l = (Nat.eqb (length b) 20) && in_zone b l && is_qi b.
Proof.
  unfold check_internal_qi, ADDRESS_LENGTH. destruct (Nat.eqb (length b) 20) eqn:E; cbn; [|reflexivity].
  apply Nat.eqb_eq in E. rewrite (in_scope_20 b l E), ledger_negb.
  destruct (in_zone b l), (is_quai b); reflexivity.
Qed.

Lemma is_conversion_output_spec a l : wf20 a -> valid_zone l ->
  is_conversion_output a l = in_zone a l && is_quai a.
Proof.
  intros [Hw Hl] Hv. unfold is_conversion_output. rewrite Hl, (loc_eqb_in_zone a l (wf_nth a 0 Hw) Hv).
  reflexivity.
Qed.

Lemma create_object_guard_spec a l : length a = 20%nat ->
  create_object_guard a l = in_zone a l && is_quai a.
Proof.
  intros H. unfold create_object_guard. rewrite (in_scope_20 a l H).
  destruct (in_zone a l), (is_quai a); reflexivity.
Qed.

Section Grind.
  Variable H : N -> bytes.            (* attempt number -> Keccak256 digest: abstract *)
  Variable l : location.
  Variable cost : N.

  Definition attempt (i : N) : option bytes := internal_and_quai (digest_to_address (H i) l).

  Lemma none_before i k : attempt i = None -> (forall j, i + 1 <= j -> j < k -> attempt j = None) ->
    forall j, i <= j -> j < k -> attempt j = None.
  Proof.
    intros Hi Hr j J1 J2. destruct (N.eq_dec j i) as [->|Hne]; [exact Hi|]. apply Hr; lia.
  Qed.

  (* the charge is stated without subtraction: gas + i * cost is the same at every iteration *)
  Lemma grind_loop_spec fuel : forall i gas,
    match grind_loop H l fuel i gas cost with
    | GOk a g =>
        exists k, i <= k /\ k < i + N.of_nat fuel /\ attempt k = Some a
                  /\ (forall j, i <= j -> j < k -> attempt j = None)
                  /\ g + (k + 1) * cost = gas + i * cost
    | GErr =>
        (forall j, i <= j -> j < i + N.of_nat fuel -> attempt j = None)
        \/ (exists k, i <= k /\ k < i + N.of_nat fuel /\ gas + i * cost < (k + 1) * cost
                      /\ (forall j, i <= j -> j < k -> attempt j = None))
    end.
  Proof.
    induction fuel as [|fuel IH]; intros i gas; cbn [grind_loop].
    - left. intros j H1 H2. lia.
    - destruct (N.ltb_spec gas cost) as [Eg|Eg].
      + right. exists i. repeat split; try lia; intros j H1 H2; lia.
      + fold (attempt i). destruct (attempt i) as [a|] eqn:Ea.
        * exists i. repeat split; try lia; auto; intros j H1 H2; lia.
        * specialize (IH (i + 1) (gas - cost)).
          destruct (grind_loop H l fuel (i + 1) (gas - cost) cost) as [a g|].
          -- destruct IH as (k & K1 & K2 & K3 & K4 & K5). exists k.
             repeat split; [lia|lia|exact K3|exact (none_before i k Ea K4)|lia].
          -- destruct IH as [IH|(k & K1 & K2 & K3 & K4)].
             ++ left. apply (none_before i _ Ea). intros j J1 J2. apply IH; lia.
             ++ right. exists k. repeat split; [lia|lia|lia|exact (none_before i k Ea K4)].
  Qed.

  Lemma grind_spec attempts gas :
    (forall i, length (H i) = 32%nat) ->
    match grind H l attempts gas cost with
    | GOk a g =>
        length a = 20%nat /\ in_zone a l = true /\ is_quai a = true /\ g <= gas
        /\ exists k, k < attempts /\ a = skipn 12 (H k) /\ g + (k + 1) * cost = gas
                     /\ forall j, j < k -> attempt j = None
    | GErr =>
        (forall j, j < attempts -> attempt j = None)
        \/ (exists k, k < attempts /\ gas < (k + 1) * cost /\ forall j, j < k -> attempt j = None)
    end.
  Proof.
    intros Hl. unfold grind. pose proof (grind_loop_spec (N.to_nat attempts) 0 gas) as S.
    destruct (grind_loop H l (N.to_nat attempts) 0 gas cost) as [a g|].
    - destruct S as (k & K1 & K2 & K3 & K4 & K5).
      destruct (digest_internal_quai (H k) l a (Hl k) K3) as (A1 & A2 & A3 & A4).
      repeat split; auto; try lia.
      exists k. repeat split; auto; try lia. intros j Hj. apply K4; lia.
    - destruct S as [S|(k & K1 & K2 & K3 & K4)].
      + left. intros j Hj. apply S; lia.
      + right. exists k. repeat split; try lia. intros j Hj. apply K4; lia.
  Qed.
End Grind.

Lemma grind_attempts_bounded prev mx fork bn : prev <= mx -> grind_attempts prev mx fork bn <= mx.
Proof. intros H. unfold grind_attempts. destruct (bn <? fork); lia. Qed.

(* toAddr.Location().Equal(location) in ProcessQiTx *)
Lemma here_is_in_zone addr l : wf_bytes addr -> valid_zone l ->
  loc_eqb (location_of (to20 addr)) l = in_zone (to20 addr) l.
Proof.
  intros Hw Hv. apply loc_eqb_in_zone; [|exact Hv]. apply wf_nth, set_bytes_wf, Hw.
Qed.

Lemma qi_output_spec addr dl l :
  let a := to20 addr in
  let here := loc_eqb (location_of a) l in
  match qi_output addr dl l with
  | QConvert => here = true /\ is_quai a = true /\ dl = MAX_QI_TX_DATA_LENGTH
  | QWrap => here = true /\ is_quai a = true /\ dl = 20
  | QReject => is_quai a = true /\ (here = false \/ (dl <> MAX_QI_TX_DATA_LENGTH /\ dl <> 20))
  | QEtx => here = false /\ is_qi a = true
  | QUtxo => here = true /\ is_qi a = true
  end.
Proof.
  unfold qi_output. rewrite (ledger_negb (to20 addr)).
  destruct (loc_eqb (location_of (to20 addr)) l), (is_quai (to20 addr)),
    (N.eqb_spec dl MAX_QI_TX_DATA_LENGTH), (N.eqb_spec dl 20); cbn; auto.
Qed.

Lemma qi_output_reject addr dl l : is_quai (to20 addr) = true ->
  (loc_eqb (location_of (to20 addr)) l = false \/ (dl <> MAX_QI_TX_DATA_LENGTH /\ dl <> 20)) ->
  qi_output addr dl l = QReject.
Proof.
  intros Hq Hc. unfold qi_output. rewrite Hq. destruct Hc as [->|[H22 H20]]; [reflexivity|].
  apply N.eqb_neq in H22, H20. rewrite H22, H20, !andb_false_r. reflexivity.
Qed.

Lemma qi_output_utxo addr dl l : qi_output addr dl l = QUtxo ->
  loc_eqb (location_of (to20 addr)) l = true /\ is_qi (to20 addr) = true.
Proof. intros H. pose proof (qi_output_spec addr dl l) as K. rewrite H in K. exact K. Qed.

Lemma qi_output_etx addr dl l : qi_output addr dl l = QEtx ->
  loc_eqb (location_of (to20 addr)) l = false /\ is_qi (to20 addr) = true.
Proof. intros H. pose proof (qi_output_spec addr dl l) as K. rewrite H in K. exact K. Qed.

(* side conditions on the generated data: an edit of the Go source breaks them without touching any .v *)

Definition constants_as_modelled : bool :=
  (C16Sites.address_length =? N.of_nat ADDRESS_LENGTH) && (C16Sites.hash_length =? N.of_nat HASH_LENGTH)
  && (C16Sites.zone_ctx =? ZONE_CTX) && (C16Sites.hierarchy_depth =? 3)
  && (C16Sites.max_regions =? 16) && (C16Sites.max_zones =? 16) && (C16Sites.max_width =? 16)
  && (C16Sites.max_qi_tx_data_length =? MAX_QI_TX_DATA_LENGTH)
  && (C16Sites.previous_max_address_grind_attempts <=? C16Sites.max_address_grind_attempts)
  && (0 <? C16Sites.previous_max_address_grind_attempts)
  && C16Sites.zero_external_is_20_zero_bytes && negb C16Sites.zero_is_internal
  && C16Sites.zero_address_is_internal_prefix_then_zeros.

Local Open Scope string_scope.

(* every copy of the ledger predicates reads byte 1 against 127 in the modelled direction *)
Definition ledger_pred_ok (p : string * string * string) : bool :=
  let '(_, name, desc) := p in
  if String.eqb name "IsInQiLedgerScope" then String.eqb desc "1>127"
  else if String.eqb name "IsInQuaiLedgerScope" then String.eqb desc "1<=127"
  else false.

Definition ledger_predicates_as_modelled : bool :=
  forallb ledger_pred_ok C16Sites.ledger_predicates
  && (6 <=? N.of_nat (length C16Sites.ledger_predicates))%N.

(* Reviewed inventory of the BytesToAddress call sites whose byte argument is NOT 20 bytes by
   syntax (generator shapes fullslice / bytesmethod / other).  Verdicts of the manual review:
     G20   length is 20 (array type, Address.Bytes(), or a length test dominating the call)
     ANYB  arbitrary length possible, but only the bytes / zone / ledger of the result are used
     ANYC  arbitrary length possible AND the internal/external class of the result is used
           (F10 is reachable through this site)                                             *)
Inductive verdict := G20 | ANYB | ANYC.

Definition reviewed_sites : list (string * string * N * verdict) := [
  ("cmd/utils/hierarchical_coordinator.go:ValidateChainIndexer", "other", 1%N, ANYB);   (* utxo.Address from db, Bytes20 only *)
  ("common/address.go:Address.DecodeRLP", "other", 1%N, ANYC);                          (* RLP string of any length *)
  ("common/address.go:Address.ProtoDecode", "other", 1%N, ANYC);                        (* wire bytes *)
  ("common/address.go:BigToAddress", "bytesmethod", 1%N, ANYC);                         (* big.Int.Bytes(): leading zeros stripped; no production caller *)
  ("common/address.go:Bytes20ToAddress", "fullslice", 1%N, G20);                        (* [20]byte *)
  ("common/address.go:HexToAddress", "other", 1%N, ANYC);                               (* config / CLI strings *)
  ("common/types.go:NewMixedcaseAddressFromString", "other", 1%N, G20);                 (* IsHexAddress *)
  ("core/chain_indexer.go:ChainIndexer.addOutpointsToIndexer", "other", 1%N, ANYB);     (* out.Address, ledger bit only *)
  ("core/chain_indexer.go:ChainIndexer.reorgUtxoIndexer", "other", 1%N, ANYB);
  ("core/core.go:Core.Append", "bytesmethod", 1%N, G20);                                (* Address.Bytes() *)
  ("core/headerchain_validation.go:HeaderChain.VerifyUncles", "other", 2%N, G20);       (* Data()[1:21], Data()[21:41] via locals *)
  ("core/headerchain_validation.go:HeaderChain.verifyHeader", "other", 2%N, G20);
  ("core/rawdb/accessors_chain.go:ReadCoinbaseLockup", "other", 2%N, G20);              (* len(data) == 58, data[38:] *)
  ("core/state/dump.go:StateDB.DumpToCollector", "other", 1%N, ANYB);                   (* trie key preimage *)
  ("core/state/statedb.go:StateDB.PopETX", "bytesmethod", 1%N, G20);                    (* Address.Bytes() *)
  ("core/state/statedb.go:StateDB.ReadETX", "bytesmethod", 1%N, G20);
  ("core/state_processor.go:ProcessQiTx", "fullslice", 1%N, G20);                       (* len(tx.Data()) == AddressLength && *)
  ("core/state_processor.go:ProcessQiTx", "other", 3%N, ANYB);                          (* utxo.Address, txOut.Address (zone+ledger of the cropped bytes), tx.Data() under a length test *)
  ("core/state_processor.go:StateProcessor.Process", "other", 1%N, G20);                (* len(etx.Data()) != AddressLength rejected above *)
  ("core/state_processor.go:ValidateQiTxInputs", "fullslice", 1%N, G20);
  ("core/state_processor.go:ValidateQiTxInputs", "other", 1%N, ANYB);                   (* utxo.Address *)
  ("core/state_processor.go:ValidateQiTxOutputsAndSignature", "other", 2%N, ANYB);      (* txOut.Address, tx.Data() under a length test *)
  ("core/types/transaction.go:AccessList.ProtoDecode", "other", 1%N, ANYC);             (* wire bytes *)
  ("core/types/transaction.go:Transaction.ProtoDecode", "other", 3%N, ANYC);            (* wire to (x2), etx_sender *)
  ("core/types/wo.go:WorkObjectHeader.ProtoDecode", "other", 1%N, ANYC);                (* wire primary coinbase *)
  ("core/vm/contracts.go:ClaimQiDeposit", "other", 1%N, G20);                           (* len(input) != 20 rejected *)
  ("core/vm/contracts.go:InitializePrecompiles", "fullslice", 1%N, G20);                (* AddressBytes array *)
  ("core/worker.go:worker.commitTransaction", "other", 1%N, G20);                       (* len(tx.Data()) != AddressLength rejected *)
  ("core/worker.go:worker.processQiTx", "fullslice", 1%N, G20);
  ("core/worker.go:worker.processQiTx", "other", 2%N, ANYB);                            (* txOut.Address, tx.Data() under a length test *)
  ("internal/quaiapi/api.go:DoCall", "bytesmethod", 2%N, G20);                          (* Address.Bytes() *)
  ("internal/quaiapi/api.go:PublicTransactionPoolAPI.GetTransactionCount", "bytesmethod", 1%N, G20);
  ("internal/quaiapi/api.go:newRPCTransaction", "other", 1%N, ANYB);                    (* txout.Address for display *)
  ("internal/quaiapi/quai_api.go:GetDeltas", "other", 1%N, ANYB);
  ("internal/quaiapi/quai_api.go:PublicBlockChainQuaiAPI.GetUTXO", "other", 1%N, ANYB);
  ("quai/abi/unpack.go:toGoType", "other", 1%N, ANYC);                                  (* 32-byte ABI word: class decided by the padding byte *)
  ("quai/api.go:PrivateDebugAPI.getModifiedAccounts", "other", 1%N, ANYB);
  ("quai/filters/api.go:PublicFilterAPI.Accesses", "other", 1%N, ANYB);
  ("quaiclient/ethclient/ethclient.go:toCallArg", "other", 1%N, ANYB)
].

Definition site_eqb (x : string * string * N) (y : string * string * N * verdict) : bool :=
  let '(w, s, n) := x in let '(w', s', n', _) := y in
  String.eqb w w' && String.eqb s s' && N.eqb n n'.

Fixpoint sites_match (g : list (string * string * N)) (r : list (string * string * N * verdict)) : bool :=
  match g, r with
  | [], [] => true
  | x :: g', y :: r' => site_eqb x y && sites_match g' r'
  | _, _ => false
  end.

Definition not_fixed20 (x : string * string * N) : bool := negb (String.eqb (snd (fst x)) "fixed20").

Definition inventory_as_reviewed : bool :=
  sites_match (filter not_fixed20 C16Sites.sites) reviewed_sites.

Definition f10_sites : list string :=
  map (fun y => fst (fst (fst y))) (filter (fun y => match snd y with ANYC => true | _ => false end) reviewed_sites).

Local Close Scope string_scope.

Definition f10_site_list : list String.string := Eval vm_compute in f10_sites.

Definition zone10_address : bytes := 16 :: repeat 7 19.              (* 20 bytes 10 07..: zone (1,0), Quai ledger *)

Lemma zone10_wf20 : wf20 zone10_address.
Proof.
  split; [|reflexivity]. unfold wf_bytes, zone10_address. repeat constructor.
Qed.
