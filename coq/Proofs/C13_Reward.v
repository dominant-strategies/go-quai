(* C13 - post-fork share reward amounts: the time discount of a merged-mined share
   (core/headerchain.go CalculateTimeDiscountedShareReward, model C13.time_discount).
   The elapsed time is a uint32 difference that WRAPS; after the clamp it lies in [threshold, liveness], and there
   discount_params_ok keeps every uint32 product and sum of the function below 2^32, so numerator and
   denominator have closed forms in N.  The constants enter through discount_params_ok only. *)
From Coq Require Import NArith ZArith Lia Bool ZifyBool.
From GQ Require Import Generated.C13Params Model.C13.
Import C13Params.
Local Open Scope N_scope.

Lemma discount_params_hold : discount_params_ok = true.
Proof. vm_compute. reflexivity. Qed.

Lemma discount_facts pid :
  no_penalty_time_threshold < liveness_of pid < two32 /\
  share_reward_penalty_divisor * (liveness_of pid - no_penalty_time_threshold) < two32 /\
  0 < unlively_share_penalty <= share_reward_penalty_divisor /\ share_reward_penalty_divisor < two32.
Proof.
  pose proof discount_params_hold as P. unfold discount_params_ok, discount_live_ok in P.
  unfold liveness_of. destruct ((pid =? 3) || (pid =? 2)); lia.
Qed.

Lemma u32sub_small a b : b <= a -> a < two32 -> u32sub a b = a - b.
Proof.
  intros Hb Ha. unfold u32sub, u32. rewrite (N.mod_small a), (N.mod_small b) by lia.
  replace (a + two32 - b) with (a - b + 1 * two32) by lia.
  rewrite N.mod_add by discriminate. apply N.mod_small. lia.
Qed.

Lemma u32sub_wraps a b : a < b -> b < two32 -> u32sub a b = a + two32 - b.
Proof.
  intros Hab Hb. unfold u32sub, u32. rewrite (N.mod_small a), (N.mod_small b) by lia.
  apply N.mod_small. lia.
Qed.

Lemma clamp_spec live dt0 : discount_clamp live dt0 = N.max no_penalty_time_threshold (N.min live dt0).
Proof.
  unfold discount_clamp. destruct (N.ltb_spec live dt0);
    [destruct (N.ltb_spec live no_penalty_time_threshold)|destruct (N.ltb_spec dt0 no_penalty_time_threshold)]; lia.
Qed.

Lemma clamp_mid : forall live dt0, no_penalty_time_threshold <= dt0 <= live -> discount_clamp live dt0 = dt0.
Proof. intros live dt0 H. rewrite clamp_spec. lia. Qed.

Lemma clamp_range pid e :
  no_penalty_time_threshold <= discount_clamp (liveness_of pid) e <= liveness_of pid.
Proof. rewrite clamp_spec. destruct (discount_facts pid). lia. Qed.

Lemma discount_den_closed pid :
  discount_den (liveness_of pid) = share_reward_penalty_divisor * (liveness_of pid - no_penalty_time_threshold).
Proof.
  destruct (discount_facts pid) as (Hl & Hw & Hp & Hd). unfold discount_den, u32mul, u32.
  rewrite u32sub_small, (N.mod_small share_reward_penalty_divisor), N.mod_small by lia. reflexivity.
Qed.

Lemma discount_num_closed pid dt : no_penalty_time_threshold <= dt <= liveness_of pid ->
  discount_num (liveness_of pid) dt =
    unlively_share_penalty * (liveness_of pid - no_penalty_time_threshold)
    + (share_reward_penalty_divisor - unlively_share_penalty) * (liveness_of pid - dt).
Proof.
  intros Hdt. destruct (discount_facts pid) as (Hl & Hw & Hp & Hd). unfold discount_num, u32add, u32mul, u32.
  rewrite (N.mod_small unlively_share_penalty), (N.mod_small share_reward_penalty_divisor) by lia.
  rewrite !u32sub_small by lia.
  set (R := liveness_of pid - no_penalty_time_threshold) in *. set (D := liveness_of pid - dt).
  set (Q := share_reward_penalty_divisor - unlively_share_penalty).
  (* the two products together stay below divisor * range, which does not wrap *)
  assert (unlively_share_penalty * R + Q * D <= share_reward_penalty_divisor * R).
  { replace share_reward_penalty_divisor with (unlively_share_penalty + Q) by lia.
    rewrite N.mul_add_distr_r. apply N.add_le_mono_l, N.mul_le_mono_l. lia. }
  rewrite (N.mod_small (_ * R)), (N.mod_small (Q * D)), N.mod_small by lia. reflexivity.
Qed.

Lemma discount_den_nonzero pid : discount_den (liveness_of pid) <> 0.
Proof. destruct (discount_facts pid) as (Hl & Hw & Hp & Hd). rewrite discount_den_closed. nia. Qed.

Definition discounted (pid dt : N) (reward : Z) : Z :=
  (reward * Z.of_N (discount_num (liveness_of pid) dt) / Z.of_N (discount_den (liveness_of pid)))%Z.

Lemma time_discount_spec pid ts sg reward :
  time_discount pid ts sg reward = Some (discounted pid (discount_clamp (liveness_of pid) (u32sub ts sg)) reward).
Proof.
  unfold time_discount. destruct (N.eqb_spec (discount_den (liveness_of pid)) 0) as [H|]; [|reflexivity].
  destruct (discount_den_nonzero pid H).
Qed.

Lemma discounted_fresh pid reward : discounted pid no_penalty_time_threshold reward = reward.
Proof.
  destruct (discount_facts pid) as (Hl & Hw & Hp & Hd). unfold discounted.
  replace (discount_num (liveness_of pid) no_penalty_time_threshold) with (discount_den (liveness_of pid))
    by (rewrite discount_num_closed, discount_den_closed by lia; nia).
  apply Z.div_mul. pose proof (discount_den_nonzero pid). lia.
Qed.

Lemma discounted_stale pid reward : discounted pid (liveness_of pid) reward = max_penalty_amount reward.
Proof.
  destruct (discount_facts pid) as (Hl & Hw & Hp & Hd). unfold discounted, max_penalty_amount.
  rewrite discount_num_closed, discount_den_closed, N.sub_diag, N.mul_0_r, N.add_0_r, !N2Z.inj_mul, Z.mul_assoc by lia.
  apply Z.div_mul_cancel_r; lia.
Qed.

Lemma discounted_antitone pid dt dt' reward : (0 <= reward)%Z ->
  no_penalty_time_threshold <= dt -> dt <= dt' -> dt' <= liveness_of pid ->
  (discounted pid dt' reward <= discounted pid dt reward)%Z.
Proof.
  intros Hr H1 H2 H3. unfold discounted. apply Z.div_le_mono; [pose proof (discount_den_nonzero pid); lia|].
  apply Z.mul_le_mono_nonneg_l; [exact Hr|]. apply N2Z.inj_le. rewrite !discount_num_closed by lia. nia.
Qed.
