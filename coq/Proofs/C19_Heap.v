(* C19 -- two invariants of the hash index that every elementary update keeps, hence every
   operation (Proofs/C19_Moves.v): the price heap (txPricedList) holds every remote transaction
   of the index, and the index holds at most GlobalSlots+GlobalQueue transactions (inside the
   modelled domain: the pool-full branch of add is p_oos). *)
From Coq Require Import List NArith Bool Lia.
From GQ Require Import Lib.Lists Model.C19 Proofs.C19_Moves Proofs.C19_Struct.
Local Open Scope N_scope.

Lemma hk_move G p0 q : move G p0 q -> heap_ok p0 -> heap_ok q.
Proof.
  intros M H. induction M; try exact IHM; intros u Hu.
  - exact (H u Hu).
  - apply filter_In in Hu as [Hu _]. exact (IHM u Hu).
  - apply in_map_iff. exists (u, false). split; [reflexivity|]. apply filter_In. split; [exact Hu|reflexivity].
  - (* RemoteToLocals only turns remote entries into local ones *)
    apply in_map_iff in Hu as [[y f] [E Hy]]. cbn [fst snd] in E. inversion E as [[E1 E2]]. subst y.
    apply orb_false_iff in E2 as [E2 _]. subst f. exact (IHM u Hy).
  - unfold heap_put in *. destruct l; cbn in Hu |- *; destruct Hu as [E|Hu]; try discriminate; auto.
    inversion E. auto.
Qed.

Lemma hk_demote_one c a p : heap_ok p -> heap_ok (demote_one c a p).
Proof. apply (hk_move (fun _ _ => False)), mv_demote_one, mv_refl. Qed.

Lemma hk_step c p o qo : heap_ok p -> heap_ok (fst (step c p o qo)).
Proof. intros H. apply (hk_move _ _ _ (mv_step c p o qo)). destruct o; exact H. Qed.

Lemma hk_init pl st : heap_ok (init pl st).
Proof. intros t []. Qed.

Definition all_le (L : N) (p : pool) : Prop := len (map fst (p_all p)) <= L.

Lemma al_move L (G : pool -> tx -> Prop) p0 q :
  (forall r t, G r t -> len (map fst (p_all r)) < L) -> move G p0 q -> all_le L p0 -> all_le L q.
Proof.
  intros HG M H. induction M; try exact IHM; unfold all_le, len in *.
  - exact H.
  - cbn. rewrite map_length in *. pose proof (filter_len_le (fun e => negb (tx_eqb x (fst e))) (p_all p)). lia.
  - cbn. rewrite !map_length in *. exact IHM.
  - apply HG in H0. unfold heap_put, len in *. destruct l; cbn [p_all set_priced all_add set_all map length]; lia.
Qed.

Lemma al_step c p o qo : all_le (c_gslots c + c_gqueue c) p -> all_le (c_gslots c + c_gqueue c) (fst (step c p o qo)).
Proof.
  intros H. apply (al_move _ _ _ _ (fun r t A => proj2 A) (mv_step c p o qo)). destruct o; exact H.
Qed.
