(* C20, Qi->Quai destination: the Quai of a conversion is credited by RedeemLockedQuai exactly
   once, by the block at inclusion height + ConversionLockPeriod, with at most the value the ETX
   carries.  Model: C20.eligible / C20.redeem_at / C20.redeem_scan; one credit: C20.pay_one,
   C20.settle_quai. *)
From Coq Require Import List ZArith Bool Lia.
From Coq Require String.
From GQ Require Import Generated.C20Params Model.C20 Lib.Lists Proofs.C20.
Import ListNotations.
Local Open Scope Z_scope.

Definition convs (c : qchain) (n : Z) : list qetx := filter q_conv (block_at c n).

(* only the depth equal to the conversion lock period contributes *)
Lemma eligible_filter : forall depths c h,
  eligible depths c h =
  flat_map (fun d => if h <=? d then [] else convs c (h - d))
           (filter (fun d => d =? conversion_lock_period) depths).
Proof.
  induction depths as [|d ds IH]; intros c h; [reflexivity|].
  unfold eligible in *. cbn [flat_map filter]. rewrite IH.
  unfold eligible_at at 1. destruct (d =? conversion_lock_period) eqn:E.
  - cbn [flat_map]. f_equal. destruct (h <=? d); [reflexivity|].
    unfold convs. apply filter_ext. intros e. apply andb_true_r.
  - destruct (h <=? d); [reflexivity|].
    rewrite filter_none; [reflexivity|]. intros e _. apply andb_false_r.
Qed.

Definition period_once (depths : list Z) : Prop :=
  filter (fun d => d =? conversion_lock_period) depths = [conversion_lock_period].

Lemma eligible_spec : forall depths c h, period_once depths ->
  eligible depths c h = if h <=? conversion_lock_period then [] else convs c (h - conversion_lock_period).
Proof.
  intros depths c h Hp. rewrite eligible_filter. rewrite Hp. cbn [flat_map]. apply app_nil_r.
Qed.

(* whatever is paid at height h was included, as a conversion to the Quai ledger, exactly
   ConversionLockPeriod blocks earlier *)
Lemma eligible_timing : forall depths c h e, period_once depths ->
  In e (eligible depths c h) ->
  conversion_lock_period < h /\ In e (block_at c (h - conversion_lock_period)) /\ q_conv e = true.
Proof.
  intros depths c h e Hp Hin. rewrite (eligible_spec _ _ _ Hp) in Hin.
  destruct (h <=? conversion_lock_period) eqn:E; [destruct Hin|].
  apply Z.leb_gt in E. unfold convs in Hin. apply filter_In in Hin. tauto.
Qed.

Definition heights (H : nat) : list Z := map Z.of_nat (seq 1 H).

(* running the step at every height 1..H pays the conversions of the blocks 1..H-period, each
   block once and in order: nothing is paid twice, nothing early, nothing else *)
Lemma scan_pays_each_block_once : forall depths c (H : nat), period_once depths ->
  0 <= conversion_lock_period ->
  concat (map (eligible depths c) (heights H)) =
  concat (map (convs c) (heights (H - Z.to_nat conversion_lock_period))).
Proof.
  intros depths c H Hp Hpos. set (P := conversion_lock_period) in *. set (Pn := Z.to_nat P).
  assert (HP : Z.of_nat Pn = P) by (apply Z2Nat.id; exact Hpos).
  unfold heights. rewrite !map_map, (map_ext _ _ (fun x => eligible_spec depths c (Z.of_nat x) Hp)). fold P.
  (* the first Pn heights pay nothing; height x + Pn pays block x *)
  replace H with (Nat.min H Pn + (H - Pn))%nat at 1 by lia. rewrite seq_app, map_app, concat_app.
  rewrite concat_map_nil, seq_shift_k, map_map.
  - cbn [app]. f_equal. apply map_ext_in. intros x Hx. apply in_seq in Hx.
    destruct (Z.leb_spec (Z.of_nat (x + Nat.min H Pn)) P); [lia|]. f_equal. lia.
  - intros x Hx. apply in_seq in Hx. destruct (Z.leb_spec (Z.of_nat x) P); [reflexivity|lia].
Qed.

Definition credit_sum (l : list (N * N * Z)) : Z := fold_right (fun t acc => snd t + acc) 0 l.
Definition value_sum (l : list qetx) : Z := fold_right (fun e acc => q_value e + acc) 0 l.

Lemma credit_sum_app : forall a b, credit_sum (a ++ b) = credit_sum a + credit_sum b.
Proof. exact (fold_sum_app _ snd). Qed.

Lemma settle_quai_le : forall fee ex v, 0 <= fee -> 0 <= v ->
  0 <= settle_quai fee ex v <= v /\ (ex = true -> settle_quai fee ex v = v).
Proof.
  intros fee ex v Hf Hv. unfold settle_quai. destruct ex; [split; [lia|reflexivity]|].
  destruct (Z.ltb_spec v fee); split; try lia; discriminate.
Qed.

(* [settle_quai], the Quai credit of [settle], is what RedeemLockedQuai's credit step [pay_one] pays *)
Lemma pay_one_credit : forall fee exs out e,
  snd (pay_one fee (exs, out) e) =
  out ++ (if negb (n_mem (q_to e) exs) && (q_value e <? fee) then []
          else [(q_id e, q_to e, settle_quai fee (n_mem (q_to e) exs) (q_value e))]).
Proof.
  intros fee exs out e. unfold pay_one, settle_quai.
  destruct (n_mem (q_to e) exs); cbn [negb andb snd]; [reflexivity|].
  destruct (q_value e <? fee); cbn [snd]; [rewrite app_nil_r|]; reflexivity.
Qed.

Lemma pay_one_le : forall fee st e, 0 <= fee -> 0 <= q_value e ->
  credit_sum (snd (pay_one fee st e)) <= credit_sum (snd st) + q_value e.
Proof.
  intros fee [ex out] e Hf Hv. rewrite pay_one_credit, credit_sum_app. cbn [snd].
  pose proof (settle_quai_le fee (n_mem (q_to e) ex) (q_value e) Hf Hv).
  destruct (negb _ && _); cbn [credit_sum fold_right snd]; lia.
Qed.

Lemma pay_sum_le : forall fee l st, 0 <= fee -> (forall e, In e l -> 0 <= q_value e) ->
  credit_sum (snd (fold_left (pay_one fee) l st)) <= credit_sum (snd st) + value_sum l.
Proof.
  intros fee l. induction l as [|e l IH]; intros st Hf Hv; cbn [fold_left value_sum fold_right]; [lia|].
  fold (value_sum l). pose proof (pay_one_le fee st e Hf (Hv e (or_introl eq_refl))).
  specialize (IH (pay_one fee st e) Hf (fun e' H' => Hv e' (or_intror H'))). lia.
Qed.

Lemma n_mem_mono : forall a x ex, n_mem a ex = true -> n_mem a (x :: ex) = true.
Proof. intros a x ex H. cbn [n_mem]. rewrite H. apply orb_true_r. Qed.

Lemma pay_exact : forall fee l ex out,
  (forall e, In e l -> n_mem (q_to e) ex = true) ->
  fold_left (pay_one fee) l (ex, out) = (ex, out ++ map (fun e => (q_id e, q_to e, q_value e)) l).
Proof.
  intros fee l. induction l as [|e l IH]; intros ex out H; cbn [fold_left map].
  - rewrite app_nil_r. reflexivity.
  - unfold pay_one at 2. rewrite (H e) by (left; reflexivity).
    rewrite IH by (intros e' H'; apply H; right; exact H').
    rewrite <- app_assoc. reflexivity.
Qed.

Lemma redeem_at_le : forall depths fee c ex h, period_once depths -> 0 <= fee ->
  (forall e, In e (convs c (h - conversion_lock_period)) -> 0 <= q_value e) ->
  credit_sum (snd (redeem_at depths fee c ex h)) <=
  (if h <=? conversion_lock_period then 0 else value_sum (convs c (h - conversion_lock_period))).
Proof.
  intros depths fee c ex h Hp Hf Hv. unfold redeem_at. rewrite (eligible_spec _ _ _ Hp).
  destruct (h <=? conversion_lock_period).
  - cbn. lia.
  - pose proof (pay_sum_le fee _ (ex, []) Hf Hv) as H. cbn [credit_sum fold_right snd] in H. lia.
Qed.

Lemma redeem_at_exact : forall depths fee c ex h, period_once depths ->
  (forall e, In e (convs c (h - conversion_lock_period)) -> n_mem (q_to e) ex = true) ->
  redeem_at depths fee c ex h =
  (ex, if h <=? conversion_lock_period then []
       else map (fun e => (q_id e, q_to e, q_value e)) (convs c (h - conversion_lock_period))).
Proof.
  intros depths fee c ex h Hp He. unfold redeem_at. rewrite (eligible_spec _ _ _ Hp).
  destruct (h <=? conversion_lock_period); [reflexivity|].
  rewrite pay_exact by exact He. reflexivity.
Qed.

(* not the code: what a guard "at least the lock period" would make eligible *)
Definition eligible_ge (depths : list Z) (c : qchain) (h : Z) : list qetx :=
  flat_map (fun d => if h <=? d then []
                     else filter (fun e => q_conv e && (conversion_lock_period <=? d)) (block_at c (h - d))) depths.
Definition witness_chain : qchain := [(10, [mkQetx 1%N true 1%N 123000000000000000000])].

Definition depths_ok : bool :=
  match filter (fun d => d =? conversion_lock_period) lockup_depths with
  | [p] => (p =? conversion_lock_period)
  | _ => false
  end && (0 <? conversion_lock_period) && forallb (fun d => 0 <? d) lockup_depths
  && (lockup_byte0_depth =? conversion_lock_period) && Nat.eqb (length lockup_depths) 4.
Lemma lockup_depths_period_once : period_once lockup_depths.
Proof. vm_compute. reflexivity. Qed.
Lemma lock_period_nonneg : 0 <= conversion_lock_period.
Proof. vm_compute. discriminate. Qed.

Module RedeemDigest.
  Import String.
  (* RedeemLockedQuai as reviewed when the model was written (statement shape, see Generated/C20Params.v) *)
  Definition reviewed_redeem_shape_sha256 : string :=
    "d4312b38be608fcf652d63a3a16564c047c51ff95d2b6d8e04c459b96e486e0e"%string.
End RedeemDigest.
Definition nonvac_chain : qchain :=
  [(10, [mkQetx 1%N true 1%N 123000000000000000000; mkQetx 2%N false 2%N 5; mkQetx 3%N true 3%N 1000]);
   (11, [mkQetx 4%N true 1%N 7])].
