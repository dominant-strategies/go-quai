(* C12 — the three storage caches of a slot (dirtyStorage / pendingStorage / originStorage) over the
   transactions of a block refine a flat slot (visible value, committed value, trie value, journal),
   on which a failed frame is the identity; hence a failed frame in ANY transaction of a block leaves
   the visible value, the value later committed, the journal and the trie as they were at frame entry,
   whatever earlier transactions left in pendingStorage / originStorage.  Model: the l_ definitions of Model/C12.v. *)
From Coq Require Import List NArith.
From GQ Require Import Lib.Lists Lib.C12_Laws Model.C12.
Import ListNotations.

(* what GetCommittedState / GetState return *)
Definition l_cv (s : lslot) : word :=
  match l_pending s with Some v => v | None => match l_origin s with Some o => o | None => l_trie s end end.
Definition l_vis (s : lslot) : word := match l_dirty s with Some d => d | None => l_cv s end.

Record fslot := mkF { f_v : word; f_c : word; f_t : word; f_jr : list word; f_p : bool }.
Definition alpha (s : lslot) : fslot := mkF (l_vis s) (l_cv s) (l_trie s) (l_jr s) (l_pobj s).

Definition f_set (w : word) (a : fslot) : fslot :=
  if N.eqb (f_v a) w then a else mkF w (f_c a) (f_t a) (f_v a :: f_jr a) (f_p a).
Fixpoint f_pop (k : nat) (a : fslot) : fslot :=
  match k with
  | O => a
  | S k' => match f_jr a with [] => a | p :: j => f_pop k' (mkF p (f_c a) (f_t a) j (f_p a)) end
  end.
Definition f_rewind (n : nat) (a : fslot) : fslot := f_pop (length (f_jr a) - n) a.
Fixpoint f_exec (f : lframe) (a : fslot) : fslot :=
  match f with
  | LSet w => f_set w a
  | LCall body fails =>
      let n := length (f_jr a) in
      let a1 := fold_left (fun x g => f_exec g x) body a in
      if fails then f_rewind n a1 else a1
  end.
Definition f_frames (fs : list lframe) (a : fslot) : fslot := fold_left (fun x g => f_exec g x) fs a.
Definition f_finalize (a : fslot) : fslot :=
  match f_jr a with [] => a | _ => mkF (f_v a) (f_v a) (f_t a) [] true end.
Definition f_root (a : fslot) : fslot :=
  let a1 := f_finalize a in if f_p a1 then mkF (f_v a1) (f_v a1) (f_v a1) [] false else a1.
Definition f_tx (a : fslot) (t : list lframe * bool) : fslot :=
  let a1 := f_frames (fst t) a in if snd t then f_root a1 else f_finalize a1.
Definition f_block (b : lblock) (a : fslot) : fslot := fold_left f_tx b a.

(* invariant of the caches; the last conjunct: the oldest journalled prevalue (the visible value, if the journal
   is empty) is the committed value *)
Definition LInv (s : lslot) : Prop :=
  (forall o, l_origin s = Some o -> o = l_trie s)
  /\ (l_pobj s = false -> l_pending s = None)
  /\ ((l_dirty s <> None \/ l_pending s <> None) -> l_origin s <> None)
  /\ (l_jr s <> [] -> l_dirty s <> None)
  /\ last (l_jr s) (l_vis s) = l_cv s.

Lemma LInv_fresh b : LInv (l_fresh b).
Proof. repeat split; cbn; try congruence. intros [H|H]; congruence. Qed.

Fixpoint lframe_ind' (P : lframe -> Prop) (HSet : forall w, P (LSet w))
    (HCall : forall body fails, Forall P body -> P (LCall body fails)) (f : lframe) : P f :=
  match f with
  | LSet w => HSet w
  | LCall body fails =>
      HCall body fails (Forall_all P (lframe_ind' P HSet HCall) body)
  end.

Lemma f_pop_nil k a : f_jr a = [] -> f_pop k a = a.
Proof. destruct k; cbn; [auto|]. intros ->. reflexivity. Qed.

Lemma f_pop_S k a : f_pop (S k) a = f_pop k (f_pop 1 a).
Proof. cbn [f_pop]. destruct (f_jr a) as [|p j] eqn:E; [symmetry; apply f_pop_nil; exact E|reflexivity]. Qed.

Definition fext : fslot -> fslot -> Prop := ext (fun a => length (f_jr a)) f_pop.

Lemma fext_refl a : fext a a.
Proof. apply ext_refl. reflexivity. Qed.

Lemma fext_rewind a a' : fext a a' -> f_rewind (length (f_jr a)) a' = a.
Proof. apply ext_rewind. Qed.

Lemma fext_set w a : fext a (f_set w a).
Proof.
  unfold f_set. destruct (N.eqb (f_v a) w); [apply fext_refl|].
  exists 1. split; [reflexivity|]. destruct a; reflexivity.
Qed.

Lemma fext_exec f : forall a, fext a (f_exec f a).
Proof.
  induction f as [w|body fails IHb] using lframe_ind'; intros a; cbn [f_exec].
  - apply fext_set.
  - pose proof (fold_left_preorder fext _ body fext_refl (ext_trans _ _ (fun _ => eq_refl) f_pop_S) IHb a) as E.
    destruct fails; [|exact E]. rewrite (fext_rewind _ _ E). apply fext_refl.
Qed.

Lemma f_failed body a : f_exec (LCall body true) a = a.
Proof. exact (fext_rewind _ _ (fext_exec (LCall body false) a)). Qed.

Fixpoint erase (f : lframe) : list lframe :=
  match f with
  | LSet w => [LSet w]
  | LCall body fails => if fails then [] else [LCall (flat_map erase body) false]
  end.
Definition erase_block (b : lblock) : lblock := map (fun t => (flat_map erase (fst t), snd t)) b.

Lemma f_erase f : forall a, f_frames (erase f) a = f_exec f a.
Proof.
  induction f as [w|body fails IHb] using lframe_ind'; intros a.
  - reflexivity.
  - destruct fails; [rewrite f_failed; reflexivity|].
    apply (erased_body (fun _ => True) f_exec erase (fun _ _ _ => I) body); [|exact I].
    apply Forall_impl with (2 := IHb). auto.
Qed.

Lemma f_erase_block b a : f_block (erase_block b) a = f_block b a.
Proof.
  apply (erased_block (fun _ => True) f_exec erase (fun _ _ _ => I) f_finalize f_root); auto using f_erase.
Qed.

(* [LInv] as the five shapes the caches can have ([LInv_cached]): the simulation lemmas go by cases on the shape *)
Inductive cached : lslot -> Prop :=
| c_none t pb : cached (mkL None None None t [] pb)
| c_origin t pb : cached (mkL None None (Some t) t [] pb)
| c_pending p t : cached (mkL None (Some p) (Some t) t [] true)
| c_dirty d t j pb : last j d = t -> cached (mkL (Some d) None (Some t) t j pb)
| c_both d p t j : last j d = p -> cached (mkL (Some d) (Some p) (Some t) t j true).

Lemma LInv_cached s : LInv s <-> cached s.
Proof.
  split.
  - destruct s as [d p o t j pb]. unfold LInv, l_vis, l_cv. cbn. intros (I2 & I3 & I4 & I5 & I1).
    assert (O : d <> None \/ p <> None -> o = Some t).
    { intros H. destruct o as [x|]; [rewrite (I2 x eq_refl); reflexivity|destruct (I4 H eq_refl)]. }
    assert (P : p <> None -> pb = true) by (destruct pb; [reflexivity|intros H; destruct (H (I3 eq_refl))]).
    destruct d as [d|].
    + rewrite O in * by (left; discriminate). destruct p as [p|].
      * rewrite P by discriminate. exact (c_both d p t j I1).
      * exact (c_dirty d t j pb I1).
    + (* no dirty entry, so no journal *)
      assert (j = []) as -> by (destruct j; [reflexivity|destruct (I5 ltac:(discriminate) eq_refl)]).
      destruct p as [p|].
      * rewrite O, P by (try right; discriminate). apply c_pending.
      * destruct o as [x|]; [rewrite (I2 x eq_refl); apply c_origin|apply c_none].
  - intros [t pb|t pb|p t|d t j pb L|d p t j L]; unfold LInv, l_vis, l_cv; cbn; intuition congruence.
Qed.

Definition sim (s : lslot) (a : fslot) : Prop := alpha s = a /\ cached s.

Lemma sim_get s : cached s ->
  fst (l_get s) = l_vis s /\ sim (snd (l_get s)) (alpha s) /\ l_origin (snd (l_get s)) <> None.
Proof.
  intros [t pb|t pb|p t|d t j pb L|d p t j L]; cbn; repeat split; try discriminate.
  - apply c_origin.
  - apply c_origin.
  - apply c_pending.
  - exact (c_dirty d t j pb L).
  - exact (c_both d p t j L).
Qed.

Lemma sim_set w s a : sim s a -> sim (l_set w s) (f_set w a).
Proof.
  intros [<- C]. destruct (sim_get s C) as (V & [A C1] & O). unfold l_set, f_set. rewrite V. cbn [alpha f_v].
  destruct (N.eqb (l_vis s) w); [split; assumption|].
  (* the write journals the visible value and puts a dirty entry over what the read left *)
  rewrite <- A. pose proof (f_equal f_v A) as Ev.
  destruct C1 as [t pb|t pb|p t|d t j pb L|d p t j L]; cbn in Ev |- *; rewrite <- Ev; (split; [reflexivity|]).
  - destruct (O eq_refl).
  - exact (c_dirty w t [t] pb eq_refl).
  - exact (c_both w p t [p] eq_refl).
  - apply c_dirty. rewrite last_cons. exact L.
  - apply c_both. rewrite last_cons. exact L.
Qed.

Lemma sim_pop k : forall s a, sim s a -> sim (l_pop true k s) (f_pop k a).
Proof.
  induction k as [|k IH]; intros s a [<- C]; cbn [l_pop f_pop]; [split; [reflexivity|exact C]|].
  destruct C as [t pb|t pb|p t|d t [|x j] pb L|d p t [|x j] L];
    try (split; [reflexivity|constructor; assumption]);   (* empty journal: nothing to undo *)
    rewrite last_cons in L.
  - (* the prevalue x becomes the dirty entry *) exact (IH _ _ (conj eq_refl (c_dirty x t j pb L))).
  - exact (IH _ _ (conj eq_refl (c_both x p t j L))).
Qed.

Lemma sim_rewind n s a : sim s a -> sim (l_rewind true n s) (f_rewind n a).
Proof. intros [<- C]. exact (sim_pop _ s _ (conj eq_refl C)). Qed.

Lemma sim_finalize s a : sim s a -> sim (l_finalize s) (f_finalize a).
Proof.
  intros [<- [t pb|t pb|p t|d t [|x j] pb L|d p t [|x j] L]]; (split; [reflexivity|]); cbn.
  - apply c_none.
  - apply c_origin.
  - apply c_pending.
  - (* dirty without journal entries: the account is not in journal.dirties, Finalize passes it by *)
    exact (c_dirty d t [] pb L).
  - (* the dirty value becomes the pending one *) apply c_pending.
  - exact (c_both d p t [] L).
  - apply c_pending.
Qed.

(* updateTrie with visible value v: written unless v equals the cached origin t; either way v is then the trie
   value and the only cache entry *)
Lemma flushed v t :
  sim (if N.eqb v t then mkL None None (Some t) t [] false else mkL None None (Some v) v [] false) (mkF v v v [] false).
Proof. destruct (N.eqb_spec v t) as [->|_]; (split; [reflexivity|apply c_origin]). Qed.

Lemma sim_root s a : sim s a -> sim (l_root s) (f_root a).
Proof.
  intros [<- [t pb|t pb|p t|d t j pb L|d p t j L]].
  - (* nothing to write: at most the pending flag falls *)
    destruct pb; (split; [reflexivity|apply c_none]).
  - destruct pb; (split; [reflexivity|apply c_origin]).
  - exact (flushed p t).
  - destruct j as [|x j]; [destruct pb|].
    + exact (flushed d t).
    + (* dirty, untouched by Finalize, and the account is not pending *)
      split; [reflexivity|exact (c_dirty d t [] false L)].
    + (* Finalize makes the dirty value pending and the account pending *) exact (flushed d t).
  - destruct j as [|x j]; exact (flushed d t).
Qed.

Lemma sim_exec f : forall s a, sim s a -> sim (l_exec true f s) (f_exec f a).
Proof.
  induction f as [w|body fails IHb] using lframe_ind'; intros s a H; cbn [l_exec f_exec].
  - exact (sim_set w s a H).
  - pose proof (fold_left_sim sim _ _ body IHb s a H) as Hb.
    destruct fails; [|exact Hb].
    (* both sides rewind to the journal length at entry, which is the same *)
    destruct H as [<- _]. exact (sim_rewind _ _ _ Hb).
Qed.

Lemma sim_frames fs s a : sim s a -> sim (l_frames true fs s) (f_frames fs a).
Proof. exact (sim_exec (LCall fs false) s a). Qed.

Lemma sim_block b : forall s a, sim s a -> sim (l_block true b s) (f_block b a).
Proof.
  apply fold_left_sim, Forall_forall. intros t _ s a H. unfold l_tx, f_tx.
  pose proof (sim_frames (fst t) s a H) as H1.
  destruct (snd t); [exact (sim_root _ _ H1)|exact (sim_finalize _ _ H1)].
Qed.

Lemma LInv_sim s : LInv s -> sim s (alpha s).
Proof. intros H. split; [reflexivity|apply LInv_cached; exact H]. Qed.

Lemma sim_inv s a : sim s a -> alpha s = a /\ LInv s.
Proof. intros [A C]. split; [exact A|apply LInv_cached; exact C]. Qed.
