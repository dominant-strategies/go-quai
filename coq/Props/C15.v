(* C15 — No input can make the node use resources it did not pay for: interpreter memory
   is metered.  Property theorems, each followed by [Print Assumptions], and non-vacuity examples.
   Model: Model/C15.v   Lemmas: Proofs/C15*.v   Generated data: Generated/C15JumpTable.v, Generated/C15Decoders.v *)
From Coq Require Import List NArith Bool Lia.
From GQ Require Import Lib.C15_Row Lib.C15_Wire Lib.C15_Window Generated.C15JumpTable Generated.C15Decoders Model.C15
  Proofs.C15 Proofs.C15_Wire Proofs.C15_Window Proofs.C15_Inv.
Import ListNotations.
Local Open Scope N_scope.

Theorem mem_gas_monotone : forall a b, a <= b -> mem_gas a <= mem_gas b.
Proof. exact Proofs.C15.mem_gas_monotone. Qed.
Print Assumptions mem_gas_monotone.

(* what G gas can buy at most: w words with w^2 <= 512 G + 511 and 3 w <= G *)
Theorem mem_gas_buys_at_most : forall w G, mem_gas w <= G -> w <= N.sqrt (512 * G + 511) /\ 3 * w <= G.
Proof. exact mem_gas_bound_words. Qed.
Print Assumptions mem_gas_buys_at_most.

(* a step that fails its charge phase (invalid opcode, stack, out of gas, size overflow)
   never grows memory: any table, any state *)
Theorem failed_step_never_grows_memory : forall T op a s v s',
  step T op a s = (v, s') -> v <> VOk -> m_mem s' = m_mem s.
Proof.
  intros T op a s v s' H Hv.
  destruct v; [contradiction|exact (proj1 (step_inv _ _ _ _ _ _ H))..].
Qed.
Print Assumptions failed_step_never_grows_memory.

(* metered table: a successful step pays, on top of its constant gas, at least the fee
   difference between the new and the old memory size, and lastGasCost stays in sync *)
Theorem metered_step_pays_growth : forall T, jumptable_metered T = true ->
  forall op a s s', frame_ok s -> step T op a s = (VOk, s') ->
    frame_ok s' /\ words_of s <= words_of s' /\
    m_gas s' + a_cgas a + mem_gas (words_of s') <= m_gas s + mem_gas (words_of s).
Proof.
  intros T Hm op a s s' Hs Hstep.
  destruct (metered_step_acct T Hm op a s s' Hs Hstep) as (Hok & Hw & Hacc).
  split; [exact Hok|]. split; [exact Hw|lia].
Qed.
Print Assumptions metered_step_pays_growth.

(* MAIN THEOREM.  If every row that can grow memory charges for it, then for EVERY program
   (any opcode/argument sequence of any length, hence every prefix = every point of every
   execution) and every gas budget G: fee(memory) + gas left <= G, memory is whole words,
   words^2 <= 512 G + 511 and 3 words <= G, i.e. |memory| <= 32 * isqrt(512 G + 511) bytes. *)
Theorem metered_memory_bound : forall T, jumptable_metered T = true ->
  forall G p v s, run T p (init G) = (v, s) ->
    mem_gas (words_of s) + m_gas s <= G /\
    m_mem s = 32 * words_of s /\
    words_of s * words_of s <= 512 * G + 511 /\
    3 * words_of s <= G /\
    m_mem s <= 32 * N.sqrt (512 * G + 511) /\
    (v = VOk -> m_last s = mem_gas (words_of s)).
Proof.
  intros T Hm G p v s Hrun.
  destruct (run_acct T 0 G p (init G) v s (paid_init 0 G) (N.le_refl G) (fun op a _ => metered_req_le T 0 op a Hm) Hrun)
    as (k & Hlo & Hhi & Hg & Hl).
  rewrite N.max_0_r in Hhi. pose proof (N.le_antisymm _ _ Hhi Hlo) as Hmem.
  rewrite (words_of_32 s k Hmem).
  destruct (mem_gas_bound_words k G (N.le_trans _ _ _ (N.le_add_r _ _) Hg)) as (Hsq & Hlin).
  repeat split; [exact Hg|exact Hmem|apply N.sqrt_le_square, Hsq|exact Hlin| |exact Hl].
  rewrite Hmem. apply N.mul_le_mono_l, Hsq.
Qed.
Print Assumptions metered_memory_bound.

Theorem gas_never_increases : forall T G p v s, run T p (init G) = (v, s) -> m_gas s <= G.
Proof. intros T G p v s H. exact (run_gas_le T p (init G) v s H). Qed.
Print Assumptions gas_never_increases.

(* Across call frames (every frame has its own memory, a call hands part of the gas to a fresh
   frame, a return gives back at most what is left): the fees of all live memories plus all
   remaining gas never exceed G; in particular 3 * (total words of all live frames) <= G. *)
Theorem frames_memory_bound : forall T, jumptable_metered T = true ->
  forall G fp fs, frun T fp [init G] = Some fs ->
    total_mem_gas fs + total_gas fs <= G /\ 3 * total_words fs <= G /\
    Forall (fun s => m_mem s = 32 * words_of s) fs.
Proof.
  intros T Hm G fp fs Hrun.
  destruct (finv_frun T Hm G fp [init G] fs (finv_init G) Hrun) as (Hall & Hsum).
  pose proof (total_words_linear fs).
  split; [exact Hsum|]. split; [lia|].
  eapply Forall_impl; [|exact Hall].
  intros s Hs. exact (proj1 (frame_ok_words s Hs)).
Qed.
Print Assumptions frames_memory_bound.

(* ---------- the converse: one unmetered row breaks the bound ---------- *)

(* A row with a memorySize function that is not charged reaches ANY memory size (below the
   uint64 limit) in one instruction for constant gas c (+ its non-memory dynamic part o). *)
Theorem unmetered_row_unbounded : forall T op r,
  lookup T op = Some r -> r_has_mem r = true -> row_metered r = false ->
  forall n stk c o G,
    r_min r <= stk -> stk <= r_max r -> 32 * n < U64 -> c + o <= G ->
    exists s', step T op (mkA stk c (Some (32 * n)) (Some o)) (init G) = (VOk, s') /\
               m_mem s' = 32 * n /\ G <= m_gas s' + c + o.
Proof.
  intros T op r Hl Hhm Hum n stk c o G Hmin Hmax Hn HG.
  unfold row_metered in Hum. rewrite Hhm in Hum. cbn in Hum.
  unfold step. rewrite Hl. cbn [a_stack a_cgas a_req a_other init m_gas m_mem m_last].
  rewrite (proj2 (N.ltb_ge _ _) Hmin), (proj2 (N.ltb_ge _ _) Hmax),
    (proj2 (N.ltb_ge G c) (N.le_trans _ _ _ (N.le_add_r c o) HG)).
  rewrite (N.mul_comm 32 n) in *.
  unfold mem_size_of. rewrite Hhm, to_words_mul32, (proj2 (N.leb_gt _ _) Hn).
  (* the row has no dynamicGas, or one that does not charge memory: the step costs c, or c + o *)
  destruct (r_has_dyn r); cbn in Hum.
  - unfold dyn_gas. cbn [a_other m_last]. rewrite Hum, (proj2 (N.ltb_ge _ _) (N.le_add_le_sub_l _ _ _ HG)).
    eexists. split; [reflexivity|]. cbn. rewrite resize_max. lia.
  - rewrite (proj2 (N.ltb_ge _ _) (N.le_0_l _)).
    eexists. split; [reflexivity|]. cbn. rewrite resize_max. lia.
Qed.
Print Assumptions unmetered_row_unbounded.

(* ---------- obligations on the generated table of the CURRENT tree ---------- *)

(* the fee formula of the model is the one of package params *)
Theorem fee_constants_match : (MemoryGas, QuadCoeffDiv) = (3, 512).
Proof. reflexivity. Qed.
Print Assumptions fee_constants_match.

(* the interpreter runs the table that was generated (NewEVMInterpreter installs instructionSet,
   which equals NewInstructionSet()); the fork gate covers exactly PUSH0/TLOAD/TSTORE/MCOPY *)
Theorem generated_table_is_the_interpreters :
  interp_uses_active && active_equals_full = true /\ gated_ops = [92; 93; 94; 95].
Proof. split; reflexivity. Qed.
Print Assumptions generated_table_is_the_interpreters.

(* Every opcode of every fork that has a memorySize function has a dynamicGas function that
   charges the expansion fee -- EXCEPT the recorded finding F4 (ETX).  A new unmetered opcode,
   or a dynamicGas that stops charging memory, makes this false. *)
Theorem jumptable_metered_except_known :
  forallb (jumptable_metered_except [opcode_ETX]) fork_tables = true.
Proof. vm_compute. reflexivity. Qed.
Print Assumptions jumptable_metered_except_known.

(* FULL STATEMENT (what C15 asks for):  forallb jumptable_metered fork_tables = true.
   It is FALSE on the current tree: the unmetered opcodes are exactly [ETX] in both forks. *)
Theorem jumptable_metered_refuted :
  map unmetered_ops fork_tables = [[opcode_ETX]; [opcode_ETX]] /\
  forallb jumptable_metered fork_tables = false.
Proof. vm_compute. split; reflexivity. Qed.
Print Assumptions jumptable_metered_refuted.

(* the probe data is coherent and neither memorySize nor dynamicGas reads below minStack *)
Theorem jumptable_probes_safe :
  forallb jumptable_safe fork_tables && forallb jumptable_wf fork_tables = true.
Proof. vm_compute. reflexivity. Qed.
Print Assumptions jumptable_probes_safe.

(* F4 on the generated ETX row: in both forks, for every n (32 n < 2^64) and every budget
   G >= ETXGas, the single instruction ETX takes an empty memory to n words for exactly ETXGas. *)
Theorem etx_unmetered_witness : forall T, In T fork_tables ->
  forall n G, 32 * n < U64 -> ETXGas <= G ->
    exists s', step T opcode_ETX (mkA 10 ETXGas (Some (32 * n)) (Some 0)) (init G) = (VOk, s') /\
               m_mem s' = 32 * n /\ G <= m_gas s' + ETXGas.
Proof.
  intros T HT n G Hn HG.
  assert (Hrow : exists r, lookup T opcode_ETX = Some r /\ r_has_mem r = true /\ row_metered r = false /\
                           r_min r = 10 /\ 10 <= r_max r).
  {
    destruct HT as [<-|[<-|[]]]; eexists.
    all: split; [vm_compute; reflexivity|].
    all: split; [reflexivity|]; split; [reflexivity|]; split; [reflexivity|discriminate]. }
  destruct Hrow as (r & Hl & Hhm & Hum & Hmin & Hmax).
  destruct (unmetered_row_unbounded T opcode_ETX r Hl Hhm Hum n 10 ETXGas 0 G) as (s' & A & B & C).
  - rewrite Hmin. apply N.le_refl.
  - exact Hmax.
  - exact Hn.
  - rewrite N.add_0_r. exact HG.
  - exists s'. split; [exact A|]. split; [exact B|]. rewrite N.add_0_r in C. exact C.
Qed.
Print Assumptions etx_unmetered_witness.

(* hence the main bound FAILS on the current tree: 64 MiB of memory for 21030 gas (ten pushes + ETX)
   (replayed on the real interpreter by the harness corpus case "etx-64MiB") *)
Definition etx_witness_prog : prog :=
  map (fun k => (127, mkA k 3 None None)) [0;1;2;3;4;5;6;7;8;9]                 (* ten PUSH32, 3 gas each *)
  ++ [(opcode_ETX, mkA 10 ETXGas (Some 67108864) None)].
Theorem metered_memory_bound_refuted : exists T G s,
  In T fork_tables /\ run T etx_witness_prog (init G) = (VOk, s) /\ G = 21030 /\ m_mem s = 67108864 /\
  G < mem_gas (words_of s).
Proof.
  exists table_postfork, 21030. eexists. split; [right; left; reflexivity|].
  split; [vm_compute; reflexivity|]. split; [reflexivity|]. split; reflexivity.
Qed.
Print Assumptions metered_memory_bound_refuted.

(* PARTIAL (strongest true statement for the current tree): in both forks, for every program
   and budget, memory stays below max(32*isqrt(512 G + 511), U) where U bounds the (rounded)
   sizes requested AT ETX INSTRUCTIONS ONLY -- every other opcode is covered by the gas bound. *)
Theorem current_tree_memory_bound_partial : forall T, In T fork_tables ->
  forall U G p v s,
    ex_req_bounded [opcode_ETX] U p = true ->
    run T p (init G) = (v, s) ->
    m_mem s <= N.max (32 * N.sqrt (512 * G + 511)) U /\ m_gas s <= G.
Proof.
  intros T HT U G p v s Hp Hrun.
  apply (excepted_memory_bound [opcode_ETX] T U G p v s); [|exact Hp|exact Hrun].
  exact (proj1 (forallb_forall _ _) jumptable_metered_except_known T HT).
Qed.
Print Assumptions current_tree_memory_bound_partial.

(* ... and with ETX removed the tables ARE metered, so the main theorem applies to every
   program that does not execute ETX (the model of a repaired tree). *)
Definition without_op (op : N) (T : table) : table := filter (fun r => negb (r_op r =? op)) T.
Theorem tables_without_etx_metered :
  forallb (fun T => jumptable_metered (without_op opcode_ETX T)) fork_tables = true.
Proof. vm_compute. reflexivity. Qed.
Print Assumptions tables_without_etx_metered.

(* ---------- (A) hand-written length-prefixed parsers allocate proportionally ---------- *)

(* CompactSize: a successful read consumes at least one byte and leaves a suffix of the input *)
Theorem read_varint_consumes : forall b v r,
  read_varint b = Some (v, r) -> suffix r b /\ len r < len b.
Proof. exact read_varint_suffix. Qed.
Print Assumptions read_varint_consumes.

(* decode_alloc_linear for ExtractScriptSigFromCoinbaseTx: the returned scriptSig is a contiguous
   piece of the input behind at least 42 = 4+1+36+1 bytes of framing (version, input count, previous output,
   scriptSig length), or empty; hence what is allocated is <= |input| *)
Theorem script_sig_within_input : forall tx s,
  extract_script_sig tx = Some s -> infix s tx /\ len s + 42 <= len tx \/ s = [].
Proof.
  intros tx s H. left. exact (script_sig_in_input tx s H).
Qed.
Print Assumptions script_sig_within_input.

Theorem decode_alloc_linear : forall tx, script_sig_alloc tx <= len tx.
Proof.
  intros tx. unfold script_sig_alloc.
  destruct (extract_script_sig tx) as [s|] eqn:E; [|apply N.le_0_l].
  exact (infix_len s tx (proj1 (script_sig_in_input tx s E))).
Qed.
Print Assumptions decode_alloc_linear.

(* no length prefix is trusted beyond the remaining input *)
Theorem script_sig_refuses_overlong : forall tx c r1 n r3,
  read_varint (drop 4 tx) = Some (c, r1) ->
  read_varint (drop 36 r1) = Some (n, r3) ->
  len r3 < n -> extract_script_sig tx = None.
Proof.
  intros tx c r1 n r3 E1 E2 Hlt. unfold extract_script_sig. rewrite E1, E2.
  destruct (N.eqb_spec n 0) as [->|_]; [lia|].
  destruct (N.ltb_spec (len r3) n); [reflexivity|lia].
Qed.
Print Assumptions script_sig_refuses_overlong.

(* the seal hash is 32 bytes taken from inside the scriptSig; the pipeline tx -> scriptSig -> seal
   hash allocates at most |tx| + 32 bytes *)
Theorem coinbase_pipeline_alloc_linear : forall tx s hsh,
  extract_script_sig tx = Some s -> extract_seal_hash s = Some hsh ->
  len s + len hsh <= len tx + 32 /\ infix hsh tx.
Proof.
  intros tx s hsh Hs Hh.
  destruct (seal_hash_in_input s hsh Hh) as (Hl & Hi).
  destruct (script_sig_in_input tx s Hs) as (Hi2 & Hl2).
  split; [lia|exact (infix_trans _ _ _ Hi Hi2)].
Qed.
Print Assumptions coinbase_pipeline_alloc_linear.

(* ---------- totality of an instruction body: the RETURNDATACOPY window (Lib/C15_Window.v) ---------- *)

(* every window the bounds check lets through is the requested one and a valid slice of the return data
   (returnData[lo:hi] cannot panic), for ANY dataOffset, any uint64 length, any buffer length *)
Theorem rdc_window_in_bounds : forall off len ret lo hi,
  len < W64 ->
  rdc_window off len ret = Some (lo, hi) ->
  lo = off /\ hi = off + len /\ slice_ok ret lo hi = true.
Proof.
  intros off len ret lo hi Hl H. rewrite (rdc_window_spec off len ret Hl) in H.
  destruct (off + len <? W64); [|discriminate].
  destruct (N.leb_spec (off + len) ret) as [E|]; [|discriminate].
  injection H as <- <-. split; [reflexivity|]. split; [reflexivity|].
  apply andb_true_iff. split; apply N.leb_le; [apply N.le_add_r|exact E].
Qed.
Print Assumptions rdc_window_in_bounds.

(* the check is exact: it refuses iff dataOffset + length exceeds len(returnData) *)
Theorem rdc_window_exact : forall off len ret,
  len < W64 -> ret < W64 ->
  rdc_window off len ret = if off + len <=? ret then Some (off, off + len) else None.
Proof.
  intros off len ret Hl Hr. rewrite (rdc_window_spec off len ret Hl).
  destruct (N.leb_spec (off + len) ret) as [E|E].
  - rewrite (proj2 (N.ltb_lt (off + len) W64)) by lia. reflexivity.
  - rewrite andb_false_r. reflexivity.
Qed.
Print Assumptions rdc_window_exact.

(* the end of the window computed in machine words (offset64 + length64, no overflow term) is NOT a sound check:
   dataOffset = 2^64-1, length = 2 on 32 bytes of return data passes with the inverted window [2^64-1 : 1],
   which the 256-bit check refuses *)
Theorem rdc_window_u64_refuted :
  exists off len ret lo hi,
    off < W64 /\ len < W64 /\ ret < W64 /\
    rdc_window_u64 off len ret = Some (lo, hi) /\ slice_ok ret lo hi = false /\
    rdc_window off len ret = None.
Proof. exists (W64 - 1), 2, 32, (W64 - 1), 1. repeat split. Qed.
Print Assumptions rdc_window_u64_refuted.

(* the full statement "for all 256-bit dataOffset, length" is FALSE for the body alone (the 256-bit sum wraps for
   length = 2^256-2^64+2); the hypothesis len < 2^64 above is discharged by the charge phase: *)
Theorem rdc_window_body_alone_refuted :
  exists off len ret lo hi,
    off < W256 /\ len < W256 /\ rdc_window off len ret = Some (lo, hi) /\ slice_ok ret lo hi = false.
Proof.
  exists (W64 - 1), (W256 - W64 + 2), 32, (W64 - 1), 1.
  (* the sum is 2^256 + 1; said so, because a division by 2^256 is slow in the kernel's lazy machine *)
  assert (E : (W64 - 1 + (W256 - W64 + 2)) mod W256 = 1).
  { change (W64 - 1 + (W256 - W64 + 2)) with (1 + 1 * W256). rewrite N.mod_add by discriminate. reflexivity. }
  unfold rdc_window. rewrite E. repeat split.
Qed.
Print Assumptions rdc_window_body_alone_refuted.

(* a row with a memorySize function whose size computation overflows (calcMemSize64: length not a uint64) never
   reaches operation.execute *)
Theorem overflowing_request_never_executes : forall T op r a s,
  lookup T op = Some r -> r_has_mem r = true -> a_req a = None -> fst (step T op a s) <> VOk.
Proof.
  intros T op r a s Hl Hm Hreq Hok.
  destruct (step T op a s) as [v s'] eqn:Hstep. cbn in Hok. subst v.
  destruct (step_inv _ _ _ _ _ _ Hstep) as [r' ms d l' Hl' Hms _ _].
  rewrite Hl in Hl'. injection Hl' as <-.
  unfold mem_size_of in Hms. rewrite Hm, Hreq in Hms. discriminate.
Qed.
Print Assumptions overflowing_request_never_executes.

(* OBLIGATION on generated data: both fork tables have a RETURNDATACOPY row, with memorySize and dynamicGas *)
Theorem returndatacopy_guarded_by_charge_phase : forallb rdc_rows_guarded fork_tables = true.
Proof. vm_compute. reflexivity. Qed.
Print Assumptions returndatacopy_guarded_by_charge_phase.

(* a metered table with memory opcodes exists (the generated one minus ETX) and a real program
   grows memory under it: PUSH, PUSH, MSTORE at offset 1 MiB with 3,000,000 gas *)
Example metered_memory_bound_nonvacuous :
  jumptable_metered (without_op opcode_ETX table_postfork) = true /\
  run (without_op opcode_ETX table_postfork)
      [(96, mkA 0 3 None None); (96, mkA 1 3 None None); (opcode_MSTORE, mkA 2 3 (Some 1048608) (Some 0))]
      (init 3000000)
  = (VOk, mkM 804404 1048608 2195587).
Proof.
  split; [|vm_compute; reflexivity].
  exact (proj1 (forallb_forall _ _) tables_without_etx_metered table_postfork (or_intror (or_introl eq_refl))).
Qed.

(* the same request with too little gas is refused and memory stays empty *)
Example metered_oog_nonvacuous :
  run (without_op opcode_ETX table_postfork) [(opcode_MSTORE, mkA 2 3 (Some 1048608) (Some 0))] (init 2000000)
  = (VOutOfGas, mkM 1999997 0 2195587).
Proof. vm_compute. reflexivity. Qed.

(* frames: a CALL that expands memory and hands 1000 gas to a child which expands its own memory *)
Example frames_memory_bound_nonvacuous :
  frun (without_op opcode_ETX table_postfork)
       [FCall 241 (mkA 7 100 (Some 64) (Some 1000)) 1000 0; FStep opcode_MSTORE (mkA 2 3 (Some 320) (Some 0)); FRet 900]
       [init 100000]
  = Some [mkM 99794 64 6].
Proof. vm_compute. reflexivity. Qed.

(* the partial bound's hypothesis is met by a program that uses ETX with a small request *)
Example current_tree_partial_nonvacuous :
  ex_req_bounded [opcode_ETX] 64 [(opcode_ETX, mkA 10 ETXGas (Some 40) None); (opcode_MSTORE, mkA 2 3 (Some 96) (Some 0))] = true /\
  run table_postfork [(opcode_ETX, mkA 10 ETXGas (Some 40) None); (opcode_MSTORE, mkA 2 3 (Some 96) (Some 0))] (init 30000)
  = (VOk, mkM 8988 96 9).
Proof. split; vm_compute; reflexivity. Qed.

(* a coinbase whose scriptSig length prefix (0xfd 0xff 0xff = 65535) exceeds the 3 remaining bytes is refused;
   a well-formed one yields its scriptSig *)
Example script_sig_nonvacuous :
  extract_script_sig (repeat 0 4 ++ [1] ++ repeat 0 36 ++ [253; 255; 255] ++ [1; 2; 3]) = None /\
  extract_script_sig (repeat 0 4 ++ [1] ++ repeat 0 36 ++ [3] ++ [7; 8; 9] ++ [255; 255]) = Some [7; 8; 9].
Proof. split; vm_compute; reflexivity. Qed.

(* a window inside the return data is granted, one byte beyond it is refused *)
Example rdc_window_nonvacuous :
  rdc_window 4 28 32 = Some (4, 32) /\ rdc_window 4 29 32 = None /\ rdc_window (W64 - 1) 2 32 = None.
Proof. repeat split; vm_compute; reflexivity. Qed.

(* ---------- (A) the decoder inventory (extension round) ----------
   Generated/C15Decoders.v `decoders` is read from the source tree on every run: every method ProtoDecode /
   UnmarshalJSON / UnmarshalText / DecodeRLP / UnmarshalBinary / Deserialize on a named type.  Each run of the
   harness reports, as the correspondence case mkInv, which of them its sweep exercised (an entry counts only when
   one of its valid fixtures decoded to the end in that run); case_ok = inv_ok. *)

(* what a passing inventory case means, for ALL reported lists: every decoder defined in the source was exercised
   or is an exemption of the model, and the harness exempts exactly the model's exemptions *)
Theorem decoder_inventory_check_sound : forall swept exempt,
  inv_ok swept exempt = true ->
  (forall d, In d decoders -> In d swept \/ In d decoders_exempt) /\
  (forall d, In d exempt <-> In d decoders_exempt).
Proof. intros swept exempt. apply inv_ok_iff. Qed.
Print Assumptions decoder_inventory_check_sound.

(* and one decoder of the source that is neither swept nor exempted fails the case, whatever else is reported *)
Theorem decoder_inventory_check_complete : forall swept exempt d,
  In d decoders -> ~ In d swept -> ~ In d decoders_exempt -> inv_ok swept exempt = false.
Proof.
  intros swept exempt d Hd Hs He. apply not_true_is_false. intros H.
  destruct (proj1 (proj1 (inv_ok_iff swept exempt) H) d Hd); contradiction.
Qed.
Print Assumptions decoder_inventory_check_complete.

(* OBLIGATION on generated data: every exemption names a decoder that exists in the source (a renamed or removed
   decoder must be reviewed, an exemption cannot silently cover a future decoder of another name) *)
Theorem decoder_exemptions_are_real : str_incl decoders_exempt decoders = true.
Proof. vm_compute. reflexivity. Qed.
Print Assumptions decoder_exemptions_are_real.

(* OBLIGATION on generated data: outside the exemptions, decoders are defined only in the packages the sweep links
   and feeds (common, common/hexutil, common/math, core/types, quai/filters, rpc): a decoder added to any other
   package breaks this without touching any .v *)
Theorem decoders_in_scope_or_exempt :
  forallb (fun d => in_scope d || str_mem d decoders_exempt) decoders = true.
Proof. exact Proofs.C15_Inv.decoders_in_scope_or_exempt. Qed.
Print Assumptions decoders_in_scope_or_exempt.

(* the check distinguishes: everything swept passes, nothing swept fails, one decoder short fails *)
Example decoder_inventory_nonvacuous :
  inv_ok decoders decoders_exempt = true /\ inv_ok [] decoders_exempt = false /\
  inv_ok (tl decoders) decoders_exempt = false /\ inv_ok decoders [] = false.
Proof.
  split; [|split; [|split]].
  - apply inv_ok_iff. split; [intros d Hd; left; exact Hd|intros d; reflexivity].
  - (* lazy conversion stops at the first decoder; vm_compute would compare all pairs *)
    reflexivity.
  - reflexivity.
  - apply not_true_is_false. intros H. apply inv_ok_iff in H. destruct H as [_ H].
    exact (proj2 (H _) (or_introl eq_refl)).
Qed.
