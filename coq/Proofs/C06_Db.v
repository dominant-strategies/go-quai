(* C06 — the database content (key-sorted association list), the transaction loop [run_ops] and trimming.
   Lookups after an operation need sortedness ([db_ok]); what an operation does to the content as a multiset
   ([Permutation] of [content]) does not: db_get, db_put and db_del walk the list the same way. *)
From Coq Require Import List NArith Lia Permutation.
From GQ Require Import Lib.Lists Model.C06.
Import ListNotations.
Local Open Scope N_scope.

Definition above (k : key) (d : db) : Prop :=
  match d with [] => True | (k', _) :: _ => k < k' end.
Fixpoint db_ok (d : db) : Prop :=
  match d with [] => True | (k, _) :: t => above k t /\ db_ok t end.

Lemma above_trans : forall k k' d, k <= k' -> above k' d -> above k d.
Proof. intros k k' [|[k2 e2] t] Hle Ha; cbn [above] in *; [exact I|lia]. Qed.

Lemma get_above : forall d k k', above k d -> k' <= k -> db_get d k' = None.
Proof.
  intros [|[k2 e2] t] k k' Ha Hle; cbn [db_get above] in *; [reflexivity|].
  destruct (N.eqb_spec k' k2); [lia|]. destruct (N.ltb_spec k' k2); [reflexivity|lia].
Qed.

Lemma put_above : forall d k0 k e, above k0 d -> k0 < k -> above k0 (db_put k e d).
Proof.
  intros [|[k2 e2] t] k0 k e Ha Hlt; cbn [db_put above] in *; [exact Hlt|].
  destruct (N.ltb k k2); [exact Hlt|]. destruct (N.eqb k k2); [exact Hlt|exact Ha].
Qed.

Lemma put_ok : forall d k e, db_ok d -> db_ok (db_put k e d).
Proof.
  induction d as [|[k2 e2] t IH]; intros k e Hok; cbn [db_put]; [cbn; auto|].
  destruct Hok as [Ha Hok].
  destruct (N.ltb_spec k k2) as [Hlt|Hge]; [cbn [db_ok above]; auto|].
  destruct (N.eqb_spec k k2) as [->|Hne]; cbn [db_ok]; [auto|].
  split; [apply put_above; [exact Ha|lia]|apply IH, Hok].
Qed.

Lemma del_above : forall d k0 k, db_ok d -> above k0 d -> above k0 (db_del k d).
Proof.
  intros [|[k2 e2] t] k0 k Hok Ha; cbn [db_del above] in *; [exact I|].
  destruct Hok as [Ha2 Hok].
  destruct (N.eqb k k2); [apply (above_trans k0 k2); [lia|exact Ha2]|].
  destruct (N.ltb k k2); cbn [above]; exact Ha.
Qed.

Lemma del_ok : forall d k, db_ok d -> db_ok (db_del k d).
Proof.
  induction d as [|[k2 e2] t IH]; intros k Hok; cbn [db_del]; [exact I|].
  destruct Hok as [Ha Hok].
  destruct (N.eqb k k2); [exact Hok|].
  destruct (N.ltb k k2); cbn [db_ok]; [auto|].
  split; [apply del_above; assumption|apply IH, Hok].
Qed.

(* on a sorted list the early exit of db_get is not visible: below the head key the tail has nothing *)
Lemma get_cons : forall k e t k', above k t ->
  db_get ((k, e) :: t) k' = if N.eqb k' k then Some e else db_get t k'.
Proof.
  intros k e t k' Ha. cbn [db_get]. destruct (N.eqb k' k); [reflexivity|].
  destruct (N.ltb_spec k' k); [|reflexivity]. symmetry. apply (get_above t k); [exact Ha|lia].
Qed.

Lemma get_put : forall d k e k', db_ok d ->
  db_get (db_put k e d) k' = if N.eqb k' k then Some e else db_get d k'.
Proof.
  induction d as [|[k2 e2] t IH]; intros k e k' Hok; cbn [db_put].
  - apply get_cons. exact I.
  - destruct Hok as [Ha Hok].
    destruct (N.ltb_spec k k2) as [Hlt|Hge]; [|destruct (N.eqb_spec k k2) as [->|Hne]].
    + apply get_cons. exact Hlt.
    + rewrite !get_cons by exact Ha. destruct (N.eqb k' k2); reflexivity.
    + rewrite get_cons by (apply put_above; [exact Ha|lia]). rewrite IH, get_cons by assumption.
      destruct (N.eqb_spec k' k2) as [->|]; [destruct (N.eqb_spec k2 k); [lia|reflexivity]|reflexivity].
Qed.

Lemma get_del : forall d k k', db_ok d ->
  db_get (db_del k d) k' = if N.eqb k' k then None else db_get d k'.
Proof.
  induction d as [|[k2 e2] t IH]; intros k k' Hok; cbn [db_del].
  - destruct (N.eqb k' k); reflexivity.
  - destruct Hok as [Ha Hok].
    destruct (N.eqb_spec k k2) as [->|Hne]; [|destruct (N.ltb_spec k k2) as [Hlt|Hge]].
    + rewrite get_cons by exact Ha.
      destruct (N.eqb_spec k' k2) as [->|]; [apply (get_above t k2), N.le_refl; exact Ha|reflexivity].
    + destruct (N.eqb_spec k' k) as [->|]; [|reflexivity].
      apply (get_above ((k2, e2) :: t) k), N.le_refl. exact Hlt.
    + rewrite get_cons by (apply del_above; assumption). rewrite IH, get_cons by assumption.
      destruct (N.eqb_spec k' k2) as [->|]; [destruct (N.eqb_spec k2 k); [lia|reflexivity]|reflexivity].
Qed.

Lemma db_ext : forall d d', db_ok d -> db_ok d' -> (forall k, db_get d k = db_get d' k) -> d = d'.
Proof.
  induction d as [|[k e] t IH]; intros [|[k' e'] t'] Hok Hok' Hg.
  - reflexivity.
  - specialize (Hg k'). cbn [db_get] in Hg. rewrite N.eqb_refl in Hg. discriminate.
  - specialize (Hg k). cbn [db_get] in Hg. rewrite N.eqb_refl in Hg. discriminate.
  - destruct Hok as [Ha Hok], Hok' as [Ha' Hok'].
    assert (Hc : forall k2, (if N.eqb k2 k then Some e else db_get t k2)
                            = (if N.eqb k2 k' then Some e' else db_get t' k2)).
    { intros k2. rewrite <- !get_cons by assumption. apply Hg. }
    (* of two different head keys the smaller one would be bound on its own side only *)
    destruct (N.lt_trichotomy k k') as [Hlt|[<-|Hlt]].
    + specialize (Hc k). rewrite N.eqb_refl, (get_above t' k' k Ha') in Hc by lia.
      destruct (N.eqb_spec k k'); [lia|discriminate Hc].
    + pose proof (Hc k) as Hk. rewrite N.eqb_refl in Hk. injection Hk as <-.
      f_equal. apply IH; try assumption.
      intros k2. specialize (Hc k2). destruct (N.eqb_spec k2 k) as [E|]; [|exact Hc].
      rewrite E, (get_above t k k Ha), (get_above t' k k Ha') by lia. reflexivity.
    + specialize (Hc k'). rewrite N.eqb_refl, (get_above t k k' Ha) in Hc by lia.
      destruct (N.eqb_spec k' k); [lia|discriminate Hc].
Qed.

Lemma put_content : forall d k e, Permutation (content (db_put k e d)) (e :: content (db_del k d)).
Proof.
  induction d as [|[k2 e2] t IH]; intros k e; cbn [db_put db_del]; [reflexivity|].
  destruct (N.ltb_spec k k2) as [Hlt|Hge].
  - destruct (N.eqb_spec k k2); [lia|reflexivity].
  - destruct (N.eqb k k2); [reflexivity|]. cbn [content map snd].
    apply perm_trans with (e2 :: e :: content (db_del k t)); [apply perm_skip, IH|apply perm_swap].
Qed.

Lemma del_content : forall d k e, db_get d k = Some e -> Permutation (content d) (e :: content (db_del k d)).
Proof.
  induction d as [|[k2 e2] t IH]; intros k e; cbn [db_get db_del]; [discriminate|].
  destruct (N.eqb k k2); [intros [= ->]; reflexivity|].
  destruct (N.ltb k k2); [discriminate|]. intros G. cbn [content map snd].
  apply perm_trans with (e2 :: e :: content (db_del k t)); [apply perm_skip, IH, G|apply perm_swap].
Qed.

Lemma del_absent : forall d k, db_get d k = None -> db_del k d = d.
Proof.
  induction d as [|[k2 e2] t IH]; intros k; cbn [db_get db_del]; [reflexivity|].
  destruct (N.eqb k k2); [discriminate|]. destruct (N.ltb k k2); [reflexivity|].
  intros G. rewrite IH by exact G. reflexivity.
Qed.

(* what an operation does to the batch view: the lookups of [eff] only feed the two hash lists
   (a Spend of an absent key deletes nothing, and neither does db_del) *)
Definition op_db (d : db) (o : op) : db :=
  match o with Create k e | Update k e => db_put k e d | Spend k => db_del k d end.

Lemma op_db_ok : forall d o, db_ok d -> db_ok (op_db d o).
Proof. intros d o Hok. destruct o; [apply put_ok|apply put_ok|apply del_ok]; exact Hok. Qed.

Lemma get_op_db : forall d o k, db_ok d ->
  db_get (op_db d o) k =
  match o with
  | Create k0 e | Update k0 e => if N.eqb k k0 then Some e else db_get d k
  | Spend k0 => if N.eqb k k0 then None else db_get d k
  end.
Proof. intros d o k Hok. destruct o; [apply get_put|apply get_put|apply get_del]; exact Hok. Qed.

Lemma eff_db : forall d o, fst (fst (eff d o)) = op_db d o.
Proof.
  intros d [k e|k e|k]; cbn [eff op_db]; [reflexivity|destruct (db_get d k); reflexivity|].
  destruct (db_get d k) eqn:G; [reflexivity|]. symmetry. apply del_absent, G.
Qed.

Lemma run_ops_db : forall ops d, fst (fst (run_ops d ops)) = fold_left op_db ops d.
Proof.
  induction ops as [|o t IH]; intros d; cbn [run_ops fold_left]; [reflexivity|].
  rewrite <- eff_db, <- IH. destruct (eff d o) as [[d1 c1] x1]. cbn [fst].
  destruct (run_ops d1 t) as [[d2 c2] x2]. reflexivity.
Qed.

Lemma run_ops_ok : forall ops d, db_ok d -> db_ok (fst (fst (run_ops d ops))).
Proof.
  intros ops d. rewrite run_ops_db. apply fold_left_inv. intros d' o _. apply op_db_ok.
Qed.

Fixpoint creates_fresh (d : db) (ops : list op) : Prop :=
  match ops with
  | [] => True
  | o :: t =>
      match o with Create k _ => db_get d k = None | _ => True end
      /\ creates_fresh (fst (fst (eff d o))) t
  end.

Definition delta (d d' : db) (plus minus : list elem) : Prop :=
  Permutation (content d' ++ minus) (content d ++ plus).

Lemma delta_refl : forall d, delta d d [] [].
Proof. intros d. apply Permutation_refl. Qed.

Lemma delta_comp : forall d0 d1 d2 p1 m1 p2 m2,
  delta d0 d1 p1 m1 -> delta d1 d2 p2 m2 -> delta d0 d2 (p1 ++ p2) (m1 ++ m2).
Proof.
  unfold delta. intros d0 d1 d2 p1 m1 p2 m2 E1 E2.
  rewrite (Permutation_app_comm m1), app_assoc, E2, <- app_assoc, (Permutation_app_comm p2), !app_assoc, E1.
  reflexivity.
Qed.

Lemma delta_length : forall d d' p m, delta d d' p m -> (length d' + length m = length d + length p)%nat.
Proof.
  intros d d' p m E. apply Permutation_length in E. unfold content in E. rewrite !app_length, !map_length in E. exact E.
Qed.

Lemma eff_delta : forall d o, match o with Create k _ => db_get d k = None | _ => True end ->
  delta d (fst (fst (eff d o))) (snd (fst (eff d o))) (snd (eff d o)).
Proof.
  unfold delta. intros d [k e|k e|k] Hf; cbn [eff].
  - cbn [fst snd]. rewrite app_nil_r, put_content, (del_absent d k Hf). apply Permutation_cons_append.
  - destruct (db_get d k) as [old|] eqn:G; cbn [fst snd].
    + rewrite put_content, (del_content d k old G), <- !Permutation_cons_append. apply perm_swap.
    + rewrite app_nil_r, put_content, (del_absent d k G). apply Permutation_cons_append.
  - destruct (db_get d k) as [old|] eqn:G; cbn [fst snd]; [|reflexivity].
    rewrite app_nil_r, (del_content d k old G). symmetry. apply Permutation_cons_append.
Qed.

Lemma run_ops_delta : forall ops d, creates_fresh d ops ->
  delta d (fst (fst (run_ops d ops))) (snd (fst (run_ops d ops))) (snd (run_ops d ops)).
Proof.
  induction ops as [|o t IH]; intros d Hf; cbn [run_ops]; [apply delta_refl|].
  destruct Hf as [Hf1 Hf2]. pose proof (eff_delta d o Hf1) as E.
  destruct (eff d o) as [[d1 c1] x1]. cbn [fst snd] in *.
  specialize (IH d1 Hf2). destruct (run_ops d1 t) as [[d2 c2] x2]. exact (delta_comp _ _ _ _ _ _ _ E IH).
Qed.

Lemma memN_In : forall x l, memN x l = true <-> In x l.
Proof. exact (existsb_eqb_In N.eqb N.eqb_eq). Qed.

Lemma delks_ok : forall l d, db_ok d -> db_ok (delks l d).
Proof. intros l. apply fold_left_inv. intros d k _. apply del_ok. Qed.

Lemma get_delks : forall l d k, db_ok d ->
  db_get (delks l d) k = if memN k l then None else db_get d k.
Proof.
  induction l as [|k' t IH]; intros d k Hok; [reflexivity|].
  change (delks (k' :: t) d) with (delks t (db_del k' d)).
  rewrite IH by (apply del_ok, Hok). rewrite get_del by exact Hok.
  unfold memN. cbn [existsb]. destruct (N.eqb k k'); cbn [orb]; [destruct (existsb (N.eqb k) t)|]; reflexivity.
Qed.

Lemma delks_perm : forall l l', Permutation l l' -> forall d, db_ok d -> delks l d = delks l' d.
Proof.
  intros l l' P d Hok. apply db_ext; [apply delks_ok, Hok|apply delks_ok, Hok|].
  intros k. rewrite !get_delks by exact Hok. replace (memN k l') with (memN k l); [reflexivity|].
  apply Bool.eq_iff_eq_true. rewrite !memN_In. split; apply Permutation_in; [|symmetry]; exact P.
Qed.

Definition dels (tr : list (key * elem)) (d : db) : db :=
  fold_left (fun d kv => db_del (fst kv) d) tr d.

Lemma dels_delks : forall tr d, dels tr d = delks (map fst tr) d.
Proof.
  induction tr as [|kv t IH]; intros d; cbn [dels delks fold_left map]; [reflexivity|].
  apply (IH (db_del (fst kv) d)).
Qed.

Lemma dels_ok : forall tr d, db_ok d -> db_ok (dels tr d).
Proof. intros tr d Hok. rewrite dels_delks. apply delks_ok, Hok. Qed.

Lemma dels_perm : forall tr tr', Permutation tr tr' -> forall d, db_ok d -> dels tr d = dels tr' d.
Proof. intros tr tr' P d Hok. rewrite !dels_delks. apply delks_perm; [apply Permutation_map, P|exact Hok]. Qed.

Definition is_some (o : option elem) : bool := match o with Some _ => true | None => false end.
Definition gone (d : db) (tr : list (key * elem)) : list (key * elem) :=
  filter (fun kv => negb (is_some (db_get d (fst kv)))) tr.

Lemma gone_nil : forall d tr,
  (forall kv, In kv tr -> db_get d (fst kv) = Some (snd kv)) -> gone d tr = [].
Proof. intros d tr Hp. apply filter_none. intros kv Hi. rewrite (Hp kv Hi). reflexivity. Qed.

(* A record whose key is not live takes nothing from the database: [gone] counts it back in.
   The records are taken from the end, so that [gone] stays relative to the database before the first delete;
   what the earlier deletes did to the last key is read off get_delks. *)
Lemma dels_delta : forall tr d, db_ok d -> NoDup (map fst tr) ->
  (forall kv, In kv tr -> db_get d (fst kv) = Some (snd kv) \/ db_get d (fst kv) = None) ->
  delta d (dels tr d) (map snd (gone d tr)) (map snd tr).
Proof.
  induction tr as [|[k e] t IH] using rev_ind; intros d Hok Hnd Hst; [apply delta_refl|].
  rewrite map_app in Hnd. apply NoDup_app_iff in Hnd. destruct Hnd as (Hnd & _ & Hnin).
  unfold dels, gone. rewrite fold_left_app, filter_app, !map_app. fold (dels t d) (gone d t).
  apply (delta_comp d (dels t d)).
  - apply IH; [exact Hok|exact Hnd|]. intros kv Hi. apply Hst, in_or_app. left. exact Hi.
  - assert (E : db_get (dels t d) k = db_get d k).
    { rewrite dels_delks, get_delks by exact Hok. destruct (memN k (map fst t)) eqn:M; [|reflexivity].
      apply memN_In in M. destruct (Hnin k M). left. reflexivity. }
    unfold delta. cbn [fold_left filter fst].
    destruct (Hst (k, e)) as [G|G]; [apply in_or_app; right; left; reflexivity| |];
      cbn [fst snd] in G; rewrite G in E |- *; cbn [is_some negb map snd].
    + rewrite app_nil_r, (del_content _ k e E). symmetry. apply Permutation_cons_append.
    + rewrite (del_absent _ k E). reflexivity.
Qed.

Lemma in_trim_one : forall view cs kv,
  In kv (trim_one view cs) <-> In (fst kv, true) cs /\ db_get view (fst kv) = Some (snd kv).
Proof.
  intros view cs [k e]. unfold trim_one. rewrite in_flat_map. cbn [fst snd]. split.
  - intros [[k' b] [Hc Hi]]. cbn [fst snd] in Hi. destruct b; [|destruct Hi].
    destruct (db_get view k') as [e'|] eqn:G; [|destruct Hi].
    destruct Hi as [[= -> ->]|[]]. split; assumption.
  - intros [Hc G]. exists (k, true). split; [exact Hc|]. cbn [fst snd]. rewrite G. left; reflexivity.
Qed.

Lemma trim_concat : forall view cands, flat_map (trim_one view) cands = trim_one view (concat cands).
Proof.
  intros view cands. unfold trim_one.
  induction cands as [|cs t IH]; cbn [flat_map concat]; [reflexivity|]. rewrite IH, flat_map_app. reflexivity.
Qed.

Lemma trimmed_in_view : forall view cands kv,
  In kv (flat_map (trim_one view) cands) -> db_get view (fst kv) = Some (snd kv).
Proof. intros view cands kv Hi. rewrite trim_concat in Hi. apply in_trim_one in Hi. apply Hi. Qed.

Lemma trim_one_nodup : forall view cs, NoDup (map fst cs) -> NoDup (map fst (trim_one view cs)).
Proof.
  induction cs as [|[k b] t IH]; intros Hnd; [constructor|].
  inversion Hnd as [|? ? Hnin Hnd']; subst.
  change (trim_one view ((k, b) :: t))
    with ((if b then match db_get view k with Some e => [(k, e)] | None => [] end else []) ++ trim_one view t).
  destruct b; [destruct (db_get view k)|]; cbn [app map fst]; try apply IH, Hnd'.
  constructor; [|apply IH, Hnd'].
  intros Hi. apply in_map_iff in Hi. destruct Hi as [kv [<- Hi]]. apply in_trim_one in Hi.
  apply Hnin. apply (in_map fst _ _ (proj1 Hi)).
Qed.

Lemma trimmed_nodup : forall view cands,
  NoDup (map fst (concat cands)) -> NoDup (map fst (flat_map (trim_one view) cands)).
Proof. intros view cands. rewrite trim_concat. apply trim_one_nodup. Qed.
