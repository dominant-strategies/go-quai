(* C19 -- every operation of the pool model is a sequence of a dozen elementary updates of the
   pool record (what the Go code does one statement at a time under pool.mu).  [move G p0 p]:
   p is reached from p0 by such updates, none of which changes the chain state; [G q t] guards
   the only one that lets a transaction t into the hash index of q.  What the elementary updates
   keep, every operation keeps.  Also: the outcomes of TxPool.add and TxPool.removeTx (add_case,
   remove_case), and what an invariant must survive to hold after every step (kept, kept_step). *)
From Coq Require Import List NArith Bool Lia.
From GQ Require Import Lib.Lists Model.C19 Proofs.C19_Lists.
Import ListNotations.
Local Open Scope N_scope.

Definition pres (P : pool -> Prop) (f : pool -> pool) : Prop := forall p, P p -> P (f p).

Lemma fold_pres {A} (P : pool -> Prop) (f : pool -> A -> pool) (l : list A) :
  (forall x, pres P (fun p => f p x)) -> pres P (fun p => fold_left f l p).
Proof. intros Hf p. apply fold_left_inv. intros q x _. apply Hf. Qed.

(* a loop over accounts: Y is what the round of a establishes, Q what every round keeps *)
Lemma fold_each {A} (f : pool -> A -> pool) (Q Y : pool -> Prop) (a : A) (l : list A) :
  (forall b, pres Q (fun q => f q b)) -> (forall q, Q q -> Y (f q a)) -> (forall q b, Q q -> Y q -> Y (f q b)) ->
  forall p, Q p -> In a l \/ Y p -> Y (fold_left f l p).
Proof.
  intros HQ Hown Hkept. induction l as [|b l IH]; intros p Hp H; cbn [fold_left]; [destruct H as [[]|H]; exact H|].
  apply IH; [apply HQ, Hp|]. destruct H as [[->|H]|H]; [right; apply Hown, Hp|left; exact H|right; apply Hkept; assumption].
Qed.

Lemma equalize_pres P fuel c prev lp thr pending :
  (forall a, pres P (drop_last a)) -> pres P (fun p => fst (equalize fuel c prev lp thr p pending)).
Proof.
  intros Hd. revert pending. induction fuel as [|f IH]; intros pending p Hp; cbn; [exact Hp|].
  destruct (_ && _); [|exact Hp]. apply IH. apply (fold_pres P (fun s a => drop_last a s)); auto.
Qed.
Lemma tp_stage1_pres P fuel c sp off pending :
  (forall a, pres P (drop_last a)) -> pres P (fun p => fst (fst (tp_stage1 fuel c sp off p pending))).
Proof.
  intros Hd. revert off pending. induction sp as [|o rest IH]; intros off pending p Hp; cbn; [exact Hp|].
  destruct (_ <? _); [|exact Hp]. destruct (rev off) as [|lp _].
  - apply IH. exact Hp.
  - destruct (equalize fuel c off lp (plen p o) p pending) as [p' pending'] eqn:Ee.
    apply IH. pose proof (equalize_pres P fuel c off lp (plen p o) pending Hd p Hp) as X. cbn beta in X. rewrite Ee in X. exact X.
Qed.
Lemma tp_stage2_equalize fuel c off lo p pending : tp_stage2 fuel c off lo p pending = fst (equalize fuel c off lo (c_aslots c) p pending).
Proof. revert p pending. induction fuel as [|f IH]; intros p pending; cbn; [reflexivity|]. destruct (_ && _); [apply IH|reflexivity]. Qed.
Lemma truncate_pending_pres P c : (forall a, pres P (drop_last a)) -> pres P (truncate_pending c).
Proof.
  intros Hd p Hp. unfold truncate_pending. destruct (_ <=? _); [exact Hp|].
  destruct (tp_stage1 _ c (spammers c p) [] p (atotal (p_pend p))) as [[p1 pending1] off] eqn:E1.
  assert (H1 : P p1).
  { pose proof (tp_stage1_pres P (S (N.to_nat (atotal (p_pend p)))) c (spammers c p) [] (atotal (p_pend p)) Hd p Hp) as X.
    cbn beta in X. rewrite E1 in X. exact X. }
  destruct (rev off); [exact H1|]. rewrite tp_stage2_equalize. apply (equalize_pres P), H1. exact Hd.
Qed.

Lemma tq_loop_pres P c order drop :
  (forall t, pres P (remove_tx c t true)) -> pres P (tq_loop c order drop).
Proof.
  intros Hr. revert drop. induction order as [|a rest IH]; intros drop p Hp; cbn; [exact Hp|].
  destruct (drop =? 0); [exact Hp|]. destruct (_ <=? _).
  - apply IH. apply (fold_pres P (fun s t => remove_tx c t true s)); auto.
  - apply (fold_pres P (fun s t => remove_tx c t true s)); auto.
Qed.
Lemma truncate_queue_pres P c order : (forall t, pres P (remove_tx c t true)) -> pres P (truncate_queue c order).
Proof.
  intros Hr p Hp. unfold truncate_queue. destruct (_ <=? _); [exact Hp|]. apply tq_loop_pres; auto.
Qed.

Lemma add_locked_pres P c loc txs :
  (forall t, pres P (fun p => fst (fst (add c t loc p)))) -> pres P (fun p => fst (fst (add_locked c txs loc p))).
Proof.
  intros Ha. induction txs as [|t r IH]; intros p H; cbn; [exact H|].
  pose proof (Ha t p H) as X. cbn beta in X. destruct (add c t loc p) as [[p1 v] rep]. cbn [fst] in X.
  specialize (IH p1 X). cbn beta in IH. destruct (add_locked c r loc p1) as [[p2 vs] d]. exact IH.
Qed.
Lemma add_txs_pres P c loc txs :
  (forall t, pres P (fun p => fst (fst (add c t loc p)))) -> pres P (fun p => fst (fst (add_txs c txs loc p))).
Proof.
  intros Ha p H. unfold add_txs.
  pose proof (add_locked_pres P c loc (filter (fun t => negb (all_has t p)) txs) Ha p H) as X. cbn beta in X.
  destruct (add_locked c _ loc p) as [[p1 vs] d]. exact X.
Qed.

Lemma do_reset_pres P c r p :
  (forall t, pres P (fun q => fst (fst (add c t false q)))) -> P (set_pn [] (set_st (r_st r) p)) -> P (do_reset c r p).
Proof.
  intros Ha H. unfold do_reset. pose proof (add_locked_pres P c false (reinject r) Ha _ H) as X. cbn beta in X.
  destruct (add_locked c (reinject r) false _) as [[p2 vs] d]. exact X.
Qed.

(* a step is the part that depends on the operation, then what runReorg does whatever launched it (step_eq) *)
Definition body (c : cfg) (o : op) (p : pool) : pool :=
  match o with
  | OAdd loc txs => promote_list c (snd (add_txs c txs loc p)) (fst (fst (add_txs c txs loc p)))
  | OSetGasPrice g => set_gas_price c g p
  | OHead r => reheap (demote_all c (promote_list c (akeys (p_queue (do_reset c r p))) (do_reset c r p)))
  | OTick => p
  end.

Definition tail (c : cfg) (qo : list N) (p : pool) : pool := fix_nonces (truncate_queue c qo (truncate_pending c p)).

Lemma step_eq c p o qo : fst (step c p o qo) = tail c qo (body c o p).
Proof.
  (* tail unfolded by hand: left to the conversion, fix_nonces on the other side is unfolded first, which is slow *)
  unfold tail. destruct o as [loc txs|g|r|]; cbn [step body]; [destruct (add_txs c txs loc p) as [[p1 vs] d]|..]; reflexivity.
Qed.

Lemma run_hist_pres P c h : (forall o qo, pres P (fun p => fst (step c p o qo))) -> pres P (fun p => run_hist c p h).
Proof. intros Hs. apply fold_pres. intros [o qo]. apply Hs. Qed.

Lemma tail_pres P c qo :
  (forall a, pres P (drop_last a)) -> (forall t, pres P (remove_tx c t true)) -> pres P fix_nonces -> pres P (tail c qo).
Proof. intros Hd Hr Hf p H. apply Hf, truncate_queue_pres, truncate_pending_pres; auto. Qed.

Lemma set_gas_price_pres P c g :
  pres P (set_gasprice g) -> (forall t, pres P (remove_tx c t false)) -> (forall n, pres P (removed n)) ->
  pres P (set_gas_price c g).
Proof.
  intros H1 H2 H3 p H. unfold set_gas_price. destruct (_ <? _); [|apply H1, H].
  apply H3. apply (fold_pres P (fun s t => remove_tx c t false s)); [exact H2|apply H1, H].
Qed.

Lemma removed_eq n p : exists h s, removed n p = set_priced h s p.
Proof. unfold removed, reheap. destruct (_ <=? _); eauto. Qed.

Lemma removed_queue n p : p_queue (removed n p) = p_queue p.
Proof. destruct (removed_eq n p) as [h [s ->]]. reflexivity. Qed.

Definition side (inq : bool) (p : pool) : amap := if inq then p_queue p else p_pend p.
Definition set_side (inq : bool) (a : N) (l : txl) (p : pool) : pool := if inq then set_queue a l p else set_pend a l p.

(* a same-nonce replacement: all.Remove(old), priced.Removed(1) *)
Definition drop_old (old : option tx) (p : pool) : pool :=
  match old with Some o => removed 1 (all_remove o p) | None => p end.
(* TxPool.add, "Mark local addresses": pool.locals.add, all.RemoteToLocals, priced.Removed *)
Definition mark_local (a : N) (p : pool) : pool :=
  let '(p'', m) := remote_to_locals (set_locals (a :: p_locals p) p) in removed m p''.

Lemma requeue_unfold c x p : requeue c x p =
  match l_add x (c_bump c) (aget (t_from x) (p_queue p)) with
  | Some (q', old) => drop_old old (set_queue (t_from x) q' p)
  | None => p
  end.
Proof. unfold requeue, enqueue_tx. destruct (l_add _ _ _) as [[q' old]|]; reflexivity. Qed.

Lemma promote_tx_fresh c a x p : l_get (t_nonce x) (aget a (p_pend p)) = None ->
  promote_tx c a x p = pn_set a (t_nonce x + 1) (set_pend a (l_put x (aget a (p_pend p))) p).
Proof. intros E. unfold promote_tx. rewrite (l_add_fresh _ _ _ E). reflexivity. Qed.

(* removeTx: all.Remove(hash), and priced.Removed(1) when outofbound *)
Definition unindexed (ob : bool) (t : tx) (p : pool) : pool := if ob then removed 1 (all_remove t p) else all_remove t p.

Lemma unindexed_eq ob t p : exists h s, unindexed ob t p = set_priced h s (all_remove t p).
Proof. destruct ob; [apply removed_eq|]. exists (p_heap p), (p_stales p). reflexivity. Qed.

Inductive remove_case (c : cfg) (t : tx) (ob : bool) (p : pool) : pool -> Prop :=
| rm_absent : all_has t p = false -> remove_case c t ob p p
| rm_pending y invalids pl' :
    all_has t p = true -> l_get (t_nonce t) (aget (t_from t) (p_pend p)) = Some y ->
    l_remove_strict (t_nonce t) (aget (t_from t) (p_pend p)) = (invalids, pl') ->
    remove_case c t ob p
      (pn_set_if_lower (t_from t) (t_nonce t) (fold_left (fun s x => requeue c x s) invalids (set_pend (t_from t) pl' (unindexed ob t p))))
| rm_queued :
    all_has t p = true -> l_get (t_nonce t) (aget (t_from t) (p_pend p)) = None ->
    remove_case c t ob p (set_queue (t_from t) (l_remove (t_nonce t) (aget (t_from t) (p_queue p))) (unindexed ob t p)).

Lemma remove_cases c t ob p : remove_case c t ob p (remove_tx c t ob p).
Proof.
  unfold remove_tx. destruct (all_has t p) eqn:Eh; cbn [negb]; [|apply rm_absent, Eh]. fold (unindexed ob t p).
  assert (E : p_pend (unindexed ob t p) = p_pend p /\ p_queue (unindexed ob t p) = p_queue p)
    by (destruct (unindexed_eq ob t p) as [h [s ->]]; split; reflexivity).
  destruct E as [-> ->]. destruct (l_get _ _) as [y|] eqn:Eg; [|exact (rm_queued c t ob p Eh Eg)].
  destruct (l_remove_strict _ _) as [invalids pl'] eqn:Er. exact (rm_pending c t ob p y invalids pl' Eh Eg Er).
Qed.

Inductive move (G : pool -> tx -> Prop) (p0 : pool) : pool -> Prop :=
| mv_refl : move G p0 p0
| mv_pend a l p : move G p0 p -> move G p0 (set_pend a l p)
| mv_queue a l p : move G p0 p -> move G p0 (set_queue a l p)
| mv_drop x p : move G p0 p -> move G p0 (all_remove x p)
| mv_stales s p : move G p0 p -> move G p0 (set_priced (p_heap p) s p)
| mv_reheap p : move G p0 p -> move G p0 (reheap p)
| mv_pn m p : move G p0 p -> move G p0 (set_pn m p)
| mv_locals l p : move G p0 p -> move G p0 (fst (remote_to_locals (set_locals l p)))
| mv_gasprice g p : move G p0 p -> move G p0 (set_gasprice g p)
| mv_oos p : move G p0 p -> move G p0 (set_oos p)
| mv_insert t l p : move G p0 p -> G p t -> move G p0 (heap_put t l (all_add t l p)).

Lemma move_st G p q : move G p q -> p_st q = p_st p.
Proof. induction 1; auto. unfold heap_put. destruct l; exact IHmove. Qed.

Section Traces.
Variables (G : pool -> tx -> Prop) (p0 : pool).

Lemma mv_removed n : pres (move G p0) (removed n).
Proof. intros p H. unfold removed. destruct (_ <=? _); [apply mv_stales|apply mv_reheap]; exact H. Qed.
Lemma mv_drops D : pres (move G p0) (all_remove_list D).
Proof. apply fold_pres. intros x p. apply mv_drop. Qed.
Lemma mv_drop_old old : pres (move G p0) (drop_old old).
Proof. intros p H. destruct old; [apply mv_removed, mv_drop|]; exact H. Qed.
Lemma mv_mark_local a : pres (move G p0) (mark_local a).
Proof.
  intros p H. unfold mark_local. pose proof (mv_locals G p0 (a :: p_locals p) p H) as X.
  destruct (remote_to_locals _) as [p'' m]. apply mv_removed, X.
Qed.
Lemma mv_side inq a l : pres (move G p0) (set_side inq a l).
Proof. intros p. destruct inq; [apply mv_queue|apply mv_pend]. Qed.
Lemma mv_pn_set_if_lower a v : pres (move G p0) (pn_set_if_lower a v).
Proof. intros p H. unfold pn_set_if_lower. destruct (_ <=? _); [|apply mv_pn]; exact H. Qed.

Lemma mv_promote_tx c a x : pres (move G p0) (promote_tx c a x).
Proof.
  intros p H. unfold promote_tx. destruct (l_add _ _ _) as [[pl' old]|].
  - apply mv_pn. apply (mv_drop_old old), mv_pend, H.
  - apply mv_removed, mv_drop, H.
Qed.
Lemma mv_requeue c x : pres (move G p0) (requeue c x).
Proof.
  intros p H. rewrite requeue_unfold. destruct (l_add _ _ _) as [[q' old]|]; [|exact H]. apply mv_drop_old, mv_queue, H.
Qed.
Lemma mv_requeues c D : pres (move G p0) (fun p => fold_left (fun s t => requeue c t s) D p).
Proof. apply fold_pres. intros x. apply mv_requeue. Qed.

Lemma mv_promote_one c a : pres (move G p0) (promote_one c a).
Proof.
  intros p H. unfold promote_one. destruct (aget a (p_queue p)) as [|q0 qr]; [exact H|].
  destruct (l_forward _ _) as [fw q1]. destruct (l_filter _ _ _ _) as [[drops inv] q2].
  destruct (l_ready _ _) as [readies q3]. destruct (l_cap _ _) as [caps q4].
  apply mv_removed, mv_drops, mv_queue.
  apply (fold_pres _ (fun s t => promote_tx c a t s)); [intros x; apply mv_promote_tx|].
  apply mv_queue, mv_drops, mv_queue, mv_drops, mv_queue, H.
Qed.
Lemma mv_demote_one c a : pres (move G p0) (demote_one c a).
Proof.
  intros p H. unfold demote_one. destruct (l_forward _ _) as [olds l1]. destruct (l_filter _ _ _ _) as [[drops invalids] l2].
  assert (H4 : move G p0 (fold_left (fun s t => requeue c t s) invalids (all_remove_list drops (set_pend a l2 (all_remove_list olds (set_pend a l1 p)))))).
  { apply mv_requeues, mv_drops, mv_pend, mv_drops, mv_pend, H. }
  destruct l2 as [|y l2']; [exact H4|]. destruct (l_get _ _); [exact H4|]. apply mv_requeues, mv_pend, H4.
Qed.
Lemma mv_unindexed ob t : pres (move G p0) (unindexed ob t).
Proof. intros p H. destruct ob; [apply mv_removed|]; apply mv_drop, H. Qed.
Lemma mv_remove_tx c t ob : pres (move G p0) (remove_tx c t ob).
Proof.
  intros p H. destruct (remove_cases c t ob p) as [_|y invalids pl' _ _ _|_ _]; [exact H| |apply mv_queue, mv_unindexed, H].
  apply mv_pn_set_if_lower, mv_requeues, mv_pend, mv_unindexed, H.
Qed.
Lemma mv_remove_txs c ob L : pres (move G p0) (fun p => fold_left (fun s t => remove_tx c t ob s) L p).
Proof. apply fold_pres. intros t. apply mv_remove_tx. Qed.
Lemma mv_drop_last a : pres (move G p0) (drop_last a).
Proof.
  intros p H. unfold drop_last. destruct (rev _); [exact H|].
  apply mv_removed, mv_pn_set_if_lower, mv_drop, mv_pend, H.
Qed.
Lemma mv_fix_nonces : pres (move G p0) fix_nonces.
Proof.
  intros p. unfold fix_nonces. apply fold_pres. intros a q H. destruct (rev _); [exact H|apply mv_pn, H].
Qed.
Lemma mv_evict_tick c qexp pexp : pres (move G p0) (evict_tick c qexp pexp).
Proof.
  intros p H. unfold evict_tick.
  apply fold_pres; [intros a q; apply (mv_remove_txs c true (aget a (p_pend q)))|].
  apply fold_pres; [intros a q; apply (mv_remove_txs c true (aget a (p_queue q)))|exact H].
Qed.
End Traces.

Definition admits (c : cfg) (p : pool) (t : tx) : Prop :=
  validate p t = None /\ len (map fst (p_all p)) < c_gslots c + c_gqueue c.

Lemma admits_drop_old c t old p : admits c p t -> admits c (drop_old old p) t.
Proof.
  intros A. destruct old as [o|]; [|exact A]. cbn [drop_old]. destruct (removed_eq 1 (all_remove o p)) as [h [s ->]].
  destruct A as [V L]. split; [exact V|]. cbn. unfold len in *. rewrite map_length in *.
  pose proof (filter_len_le (fun e => negb (tx_eqb o (fst e))) (p_all p)). lia.
Qed.

Lemma validate_not_ok p t v : validate p t = Some v -> v <> VOk.
Proof.
  unfold validate. repeat (destruct (_ <? _); [intros [= <-]; discriminate|]). discriminate.
Qed.

Definition placed (inq : bool) (t : tx) (L : bool) (p : pool) : pool :=
  let l := aget (t_from t) (side inq p) in
  heap_put t L (all_add t L (drop_old (l_get (t_nonce t) l) (set_side inq (t_from t) (l_put t l) p))).

(* the three accepting branches of TxPool.add (replace a pending transaction, replace a queued one, enter the
   queue) are the one constructor add_placed *)
Inductive add_case (c : cfg) (t : tx) (loc : bool) (p : pool) : pool * verdict * bool -> Prop :=
| add_refused v : v <> VOk -> add_case c t loc p (p, v, false)
| add_full : add_case c t loc p (set_oos p, VOverflow, false)
| add_placed (inq mark : bool) :
    let l := aget (t_from t) (side inq p) in
    all_has t p = false -> admits c p t ->
    (if inq then l_get (t_nonce t) (aget (t_from t) (p_pend p)) = None else l_get (t_nonce t) l <> None) ->
    (forall o, l_get (t_nonce t) l = Some o -> t_price o < t_price t /\ bump_threshold (c_bump c) (t_price o) <= t_price t) ->
    (mark = true -> inq = true) ->
    let q := placed inq t (loc || mem_n (t_from t) (p_locals p)) p in
    add_case c t loc p (if mark then mark_local (t_from t) q else q, VOk, if l_get (t_nonce t) l then true else false).

Lemma enqueue_tx_placed c t L p : enqueue_tx c t L true p =
  match l_add t (c_bump c) (aget (t_from t) (p_queue p)) with
  | Some _ => (placed true t L p, Some (if l_get (t_nonce t) (aget (t_from t) (p_queue p)) then true else false))
  | None => (p, None)
  end.
Proof.
  unfold enqueue_tx, placed. cbn [side set_side]. destruct (l_add _ _ _) as [[q' old]|] eqn:Ea; [|reflexivity].
  destruct (l_add_some _ _ _ _ _ Ea) as [-> [-> _]]. reflexivity.
Qed.

Lemma add_cases c t loc p : add_case c t loc p (add c t loc p).
Proof.
  unfold add. destruct (all_has t p) eqn:Eh; [apply add_refused; discriminate|].
  destruct (validate p t) as [v|] eqn:Ev; [apply add_refused, (validate_not_ok _ _ _ Ev)|].
  destruct (_ <? _) eqn:Ef; [apply add_full|].
  assert (A : admits c p t) by (split; [exact Ev|lia]).
  destruct (l_get (t_nonce t) (aget (t_from t) (p_pend p))) as [o0|] eqn:Eg.
  - destruct (l_add t (c_bump c) _) as [[pl' old]|] eqn:Ea; [|apply add_refused; discriminate].
    destruct (l_add_some _ _ _ _ _ Ea) as [-> [-> Hp]].
    refine (add_placed c t loc p false false Eh A _ Hp _); [cbn [side]; congruence|discriminate].
  - rewrite enqueue_tx_placed. destruct (l_add t (c_bump c) _) as [[q' old]|] eqn:Ea; [|apply add_refused; discriminate].
    destruct (l_add_some _ _ _ _ _ Ea) as [_ [-> Hp]].
    destruct (loc && negb (mem_n _ _)).
    + exact (add_placed c t loc p true true Eh A Eg Hp (fun _ => eq_refl)).
    + refine (add_placed c t loc p true false Eh A Eg Hp _). discriminate.
Qed.

Lemma mv_add c t loc p0 : pres (move (admits c) p0) (fun p => fst (fst (add c t loc p))).
Proof.
  intros p H. destruct (add_cases c t loc p) as [v _| |inq mark l Eh A _ _ _ q]; cbn [fst]; [exact H|apply mv_oos, H|].
  assert (M : move (admits c) p0 q).
  { apply mv_insert; [apply mv_drop_old, mv_side, H|apply admits_drop_old; destruct inq; exact A]. }
  destruct mark; [apply mv_mark_local|]; exact M.
Qed.

(* no field for demote_one: in a head event the invariant is broken from the state swap until
   demoteUnexecutables has run (R of kept_step) *)
Record kept (c : cfg) (P : pool -> Prop) : Prop := {
  k_add : forall t loc, pres P (fun p => fst (fst (add c t loc p)));
  k_promote : forall a, pres P (promote_one c a);
  k_remove : forall t ob, pres P (remove_tx c t ob);
  k_drop_last : forall a, pres P (drop_last a);
  k_removed : forall n, pres P (removed n);
  k_reheap : pres P reheap;
  k_gasprice : forall g, pres P (set_gasprice g);
  k_fix : pres P fix_nonces
}.

Section Kept.
Variables (c : cfg) (P : pool -> Prop).
Hypothesis K : kept c P.

Lemma kept_tail qo : pres P (tail c qo).
Proof. apply tail_pres; [apply (k_drop_last _ _ K)|intros t; apply (k_remove _ _ K)|apply (k_fix _ _ K)]. Qed.
Lemma kept_promote_list l : pres P (promote_list c l).
Proof. apply fold_pres, (k_promote _ _ K). Qed.
Lemma kept_set_gas_price g : pres P (set_gas_price c g).
Proof. apply set_gas_price_pres; [apply (k_gasprice _ _ K)|intros t; apply (k_remove _ _ K)|apply (k_removed _ _ K)]. Qed.
Lemma kept_remove_txs ob L : pres P (fun p => fold_left (fun s t => remove_tx c t ob s) L p).
Proof. apply fold_pres. intros t. apply (k_remove _ _ K). Qed.

(* R: what holds between the state swap of a head event and demoteUnexecutables *)
Theorem kept_step (R : pool -> Prop) :
  (forall t, pres R (fun p => fst (fst (add c t false p)))) -> (forall a, pres R (promote_one c a)) ->
  (forall p, R p -> P (demote_all c p)) ->
  forall p o qo, match o with OHead r => R (set_pn [] (set_st (r_st r) p)) | _ => P p end -> P (fst (step c p o qo)).
Proof.
  intros Ra Rp Rd p o qo H. rewrite step_eq. apply kept_tail. destruct o as [loc txs|g|r|]; cbn [body].
  - apply kept_promote_list, (add_txs_pres P c loc txs (fun t => k_add _ _ K t loc)), H.
  - apply kept_set_gas_price, H.
  - apply (k_reheap _ _ K), Rd. apply (fold_pres R (fun s a => promote_one c a s) _ Rp), (do_reset_pres R c r p Ra), H.
  - exact H.
Qed.
End Kept.

Lemma kept_trace c p0 : kept c (move (admits c) p0).
Proof.
  constructor; intros.
  - apply mv_add.
  - apply mv_promote_one.
  - apply mv_remove_tx.
  - apply mv_drop_last.
  - apply mv_removed.
  - intros p. apply mv_reheap.
  - intros p. apply mv_gasprice.
  - apply mv_fix_nonces.
Qed.

Lemma mv_step c p o qo :
  move (admits c) (match o with OHead r => set_pn [] (set_st (r_st r) p) | _ => p end) (fst (step c p o qo)).
Proof.
  set (p0 := match o with OHead r => set_pn [] (set_st (r_st r) p) | _ => p end).
  apply (kept_step c _ (kept_trace c p0) (move (admits c) p0)).
  - intros t. apply mv_add.
  - intros a. apply mv_promote_one.
  - intros q. apply (fold_pres _ (fun s a => demote_one c a s)). intros a. apply mv_demote_one.
  - unfold p0. destruct o; apply mv_refl.
Qed.

Lemma step_st c p o qo : p_st (fst (step c p o qo)) = match o with OHead r => r_st r | _ => p_st p end.
Proof. rewrite (move_st _ _ _ (mv_step c p o qo)). destruct o; reflexivity. Qed.
