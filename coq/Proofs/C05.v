(* C05 -- lemmas about Model/C05.v: the two send opcodes as instances of one shape, the frame functions (one
   invariant, one walk through [exec] and one through [call]), side conditions on generated data, witnesses of
   the defects, UnwrapQi under Call. *)
From Coq Require Import List PeanoNat NArith Bool String Lia.
From GQ Require Import Generated.C05Params Model.C05.
Import ListNotations.
Local Open Scope N_scope.

(* the property for one send operation; exactly one status word is pushed in both cases *)
Definition all_or_nothing (value fee idx : N) (r : opres) : Prop :=
  (r_push r = Some 1 /\ r_debit r = value + fee /\
     exists e, r_emit r = Some e /\ e_value e = value /\ e_index e = idx)
  \/ (r_push r = Some 0 /\ r_debit r = 0 /\ r_emit r = None).

Definition etx_fee (gl tip cap : N) : N := (tip + cap) * gl.
Definition convert_fee (c : ctx) (gl : N) : N := x_price c * gl.

Definition etx_post_debit_failure (c : ctx) (bal idx : N) (alok : bool) (addr value gl tip cap asz : N) : bool :=
  match etx_debit c bal value gl tip cap with
  | Some _ => (negb alok && negb (asz =? 0)) || (MaxUint16 <? idx) || negb (eligible c (addr mod W160))
  | None => false
  end.
(* the inputs on which opETX leaves the all-or-nothing contract (exactly: send_all_or_nothing_op_etx_partial) *)
Definition etx_defect (c : ctx) (self bal idx : N) (alok : bool) (addr value gl tip cap asz : N) : bool :=
  negb (in_scope (x_pfx c) (addr mod W160)) &&
  (negb (internal_quai (x_pfx c) self) || etx_post_debit_failure c bal idx alok addr value gl tip cap asz).
(* before SelfDestructRefundForkBlock the amounts are computed modulo 2^256 *)
Definition etx_amount_wraps (c : ctx) (value gl tip cap : N) : bool :=
  negb (post_fork c) && ((W256 <=? tip + cap) || (W256 <=? (tip + cap) * gl) || (W256 <=? value + (tip + cap) * gl)).

Definition convert_guard (c : ctx) (addr value : N) : bool :=
  in_scope (x_pfx c) (addr mod W160) && is_qi (addr mod W160) && negb (value <? MinQuaiConversionAmount)
  && negb (x_ptn c <? ControllerKickInBlock) && negb (in_hold c).
Definition convert_defect (c : ctx) (self bal idx : N) (addr value gl : N) : bool :=
  convert_guard c addr value &&
  (negb (internal_quai (x_pfx c) self) ||
   match convert_debit c bal value gl with Some _ => MaxUint16 <? idx | None => false end).
Definition convert_amount_wraps (c : ctx) (value gl : N) : bool :=
  negb (post_fork c) && ((W256 <=? x_price c) || (W256 <=? x_price c * gl) || (W256 <=? value + x_price c * gl)).

Lemma W256_pos : 0 < W256. Proof. reflexivity. Qed.
Lemma W64_pos : 0 < W64. Proof. reflexivity. Qed.

Lemma aon_no_status : forall value fee idx r, r_push r = None -> ~ all_or_nothing value fee idx r.
Proof. intros value fee idx r H0 [[H _]|[H _]]; congruence. Qed.
Lemma aon_lost : forall value fee idx r, r_debit r <> 0 -> r_emit r = None -> ~ all_or_nothing value fee idx r.
Proof. intros value fee idx r Hd He [[_ [_ [e [H _]]]]|[_ [H _]]]; congruence. Qed.

(* [convert_total c value gl] is [etx_total c value gl 0 (x_price c)] by computation, and so for [convert_amount_wraps], [convert_fee] *)
Lemma etx_total_exact : forall c value gl tip cap t,
  etx_amount_wraps c value gl tip cap = false -> etx_total c value gl tip cap = Some t -> t = value + etx_fee gl tip cap.
Proof.
  intros c value gl tip cap t Hw H. unfold etx_total, etx_amount_wraps, etx_fee in *. destruct (post_fork c).
  - destruct (W64 <=? gl); [discriminate|]. destruct (gl <? TxGas); [discriminate|].
    destruct (W256 <=? tip + cap); [discriminate|]. destruct (W256 <=? (tip + cap) * gl); [discriminate|].
    destruct (W256 <=? value + (tip + cap) * gl); [discriminate|]. now inversion H.
  - cbn [negb andb] in Hw. apply orb_false_iff in Hw. destruct Hw as [Hw H3]. apply orb_false_iff in Hw. destruct Hw as [H1 H2].
    apply N.leb_gt in H1, H2, H3. inversion H.
    rewrite (N.mod_small (tip + cap)), (N.mod_small ((tip + cap) * gl)), N.mod_small by assumption. reflexivity.
Qed.
Lemma post_fork_no_wrap_convert : forall c value gl, post_fork c = true -> convert_amount_wraps c value gl = false.
Proof. intros c value gl H. unfold convert_amount_wraps. rewrite H. reflexivity. Qed.

(* the common tail of etx_debit and convert_debit yields an amount: control reaches StateDB.SubBalance *)
Lemma send_debit_reached : forall c value gl tip cap bal (late : bool) t,
  match etx_total c value gl tip cap with
  | None => None
  | Some t0 => if (t0 =? 0) || (bal <? t0) then None else if late then None else Some t0
  end = Some t -> t <> 0 /\ t <= bal /\ (etx_amount_wraps c value gl tip cap = false -> t = value + etx_fee gl tip cap).
Proof.
  intros c value gl tip cap bal late t H.
  destruct (etx_total c value gl tip cap) as [t0|] eqn:T; [|discriminate].
  destruct ((t0 =? 0) || (bal <? t0)) eqn:E; [discriminate|]. destruct late; [discriminate|].
  inversion H; subst. apply orb_false_iff in E. destruct E as [E1 E2].
  apply N.eqb_neq in E1. apply N.ltb_ge in E2. repeat split; auto.
  intros Hw. exact (etx_total_exact _ _ _ _ _ _ Hw T).
Qed.
Lemma etx_debit_reached : forall c bal value gl tip cap t, etx_debit c bal value gl tip cap = Some t ->
  t <> 0 /\ t <= bal /\ (etx_amount_wraps c value gl tip cap = false -> t = value + etx_fee gl tip cap).
Proof. intros c bal value gl tip cap. exact (send_debit_reached c value gl tip cap bal _). Qed.
Lemma convert_debit_reached : forall c bal value gl t, convert_debit c bal value gl = Some t ->
  t <> 0 /\ t <= bal /\ (convert_amount_wraps c value gl = false -> t = value + convert_fee c gl).
Proof. intros c bal value gl. exact (send_debit_reached c value gl 0 (x_price c) bal _). Qed.

(* the shape opETX and opConvert share, the checks in the order of the Go code; [lost]: a check fails after StateDB.SubBalance *)
Definition send_op (pre sender : bool) (debit : option N) (lost : bool) (word : option N) (e : etx) : opres :=
  if negb pre then fail0
  else if negb sender then nopush
  else match debit with
       | None => fail0
       | Some total => if lost then mkRes total word None else mkRes total (Some 1) (Some e)
       end.

Lemma send_op_aon : forall value fee idx pre sender debit lost word e,
  (forall t, debit = Some t -> t = value + fee /\ t <> 0) -> e_value e = value -> e_index e = idx ->
  (all_or_nothing value fee idx (send_op pre sender debit lost word e) <->
   pre && (negb sender || match debit with Some _ => lost | None => false end) = false).
Proof.
  intros value fee idx pre sender debit lost word e HD Hv Hi. unfold send_op.
  assert (F : all_or_nothing value fee idx fail0) by (right; auto).
  destruct pre; cbn [negb andb]; [|split; [reflexivity|intros _; exact F]].
  destruct sender; cbn [negb orb].
  2:{ split; [intros A; destruct (aon_no_status _ _ _ nopush eq_refl A)|discriminate]. }
  destruct debit as [t|]; [|split; [reflexivity|intros _; exact F]].
  destruct (HD t eq_refl) as [-> Tnz].
  destruct lost.
  - split; [intros A; destruct (aon_lost _ _ _ (mkRes _ word None) Tnz eq_refl A)|discriminate].
  - split; [reflexivity|]. intros _. left. cbn. split; [reflexivity|]. split; [reflexivity|]. exists e. auto.
Qed.

Lemma send_op_no_status : forall pre sender debit lost word e,
  r_push (send_op pre sender debit lost word e) = None <->
  pre && (negb sender ||
          match debit with Some _ => lost && match word with None => true | Some _ => false end | None => false end) = true.
Proof.
  intros. unfold send_op.
  destruct pre; [|split; discriminate].
  destruct sender; [|split; reflexivity].
  destruct debit; [|split; discriminate].
  destruct lost; [|split; discriminate].
  destruct word; split; (reflexivity || discriminate).
Qed.

Lemma send_op_emit_iff : forall pre sender debit lost word e, word <> Some 1 ->
  (r_emit (send_op pre sender debit lost word e) <> None <-> r_push (send_op pre sender debit lost word e) = Some 1).
Proof.
  intros pre sender debit lost word e Hw. unfold send_op.
  destruct pre; cbn; [|split; [congruence|discriminate]].
  destruct sender; cbn; [|split; [congruence|discriminate]].
  destruct debit; cbn; [|split; [congruence|discriminate]].
  destruct lost; cbn; split; congruence.
Qed.

Lemma send_op_emit : forall pre sender debit lost word e e',
  r_emit (send_op pre sender debit lost word e) = Some e' -> e' = e /\ lost = false.
Proof.
  intros pre sender debit lost word e e'. unfold send_op.
  destruct pre; [|discriminate]. destruct sender; [|discriminate]. destruct debit; [|discriminate].
  destruct lost; [discriminate|]. cbn. intros H. inversion H. auto.
Qed.

(* what [apply_res] needs for [effect]: StateDB.SubBalance does not underflow, the ETX takes the next index *)
Definition res_ok (bal idx : N) (r : opres) : Prop :=
  r_debit r <= bal /\ forall e, r_emit r = Some e -> e_index e = idx.

Lemma send_op_ok : forall bal idx pre sender debit lost word e,
  (forall t, debit = Some t -> t <= bal) -> e_index e = idx -> res_ok bal idx (send_op pre sender debit lost word e).
Proof.
  intros bal idx pre sender debit lost word e HD Hi. split.
  - unfold send_op. destruct pre; [|apply N.le_0_l]. destruct sender; [|apply N.le_0_l].
    destruct debit as [t|]; [|apply N.le_0_l]. destruct lost; exact (HD t eq_refl).
  - intros e' H. apply send_op_emit in H. destruct H as [-> _]. exact Hi.
Qed.

Lemma op_etx_shape : forall c self bal idx alok addr value gl tip cap asz,
  op_etx c self bal idx alok addr value gl tip cap asz =
  send_op (negb (in_scope (x_pfx c) (addr mod W160))) (internal_quai (x_pfx c) self) (etx_debit c bal value gl tip cap)
    ((negb alok && negb (asz =? 0)) || (MaxUint16 <? idx) || negb (eligible c (addr mod W160)))
    (if (negb alok && negb (asz =? 0)) || (MaxUint16 <? idx) then Some 0 else None)
    (mkEtx (addr mod W160) self value idx EtxDefaultType (gl mod W64)).
Proof.
  intros. unfold op_etx, send_op.
  destruct (in_scope (x_pfx c) (addr mod W160)); [reflexivity|].
  destruct (internal_quai (x_pfx c) self); [|reflexivity].
  destruct (etx_debit c bal value gl tip cap); [|reflexivity].
  destruct (negb alok && negb (asz =? 0)); [reflexivity|].
  destruct (MaxUint16 <? idx); [reflexivity|].
  destruct (eligible c (addr mod W160)); reflexivity.
Qed.

Lemma op_convert_shape : forall c self bal idx addr value gl,
  op_convert c self bal idx addr value gl =
  send_op (convert_guard c addr value) (internal_quai (x_pfx c) self) (convert_debit c bal value gl)
    (MaxUint16 <? idx) (Some 0) (mkEtx (addr mod W160) self value idx EtxConversionType (gl mod W64)).
Proof.
  intros. unfold op_convert, convert_guard, send_op.
  destruct (in_scope (x_pfx c) (addr mod W160)); [|reflexivity].
  destruct (is_qi (addr mod W160)); [|reflexivity].
  destruct (value <? MinQuaiConversionAmount); [reflexivity|].
  destruct (x_ptn c <? ControllerKickInBlock); [reflexivity|].
  destruct (in_hold c); reflexivity.
Qed.

Lemma op_etx_ok : forall c self bal idx alok addr value gl tip cap asz,
  res_ok bal idx (op_etx c self bal idx alok addr value gl tip cap asz).
Proof.
  intros. rewrite op_etx_shape. apply send_op_ok; [|reflexivity].
  intros t D. apply etx_debit_reached in D. tauto.
Qed.
Lemma op_convert_ok : forall c self bal idx addr value gl, res_ok bal idx (op_convert c self bal idx addr value gl).
Proof.
  intros. rewrite op_convert_shape. apply send_op_ok; [|reflexivity].
  intros t D. apply convert_debit_reached in D. tauto.
Qed.

Lemma create_etx_ok_shape : forall c from bal idx to gas value r,
  create_etx c from bal idx to gas value = (true, r) ->
  (exists ty, r = mkRes value None (Some (mkEtx to from value idx ty (gas - ETXGas)))) /\
  value <= bal /\ idx <= MaxUint16 /\ ETXGas + TxGas <= gas.
Proof.
  intros c from bal idx to gas value r. unfold create_etx.
  destruct (negb (is_qi to) && in_scope (x_pfx c) to); [discriminate|].
  destruct (is_qi to && in_scope (x_pfx c) to && (x_ptn c <? ControllerKickInBlock)); [discriminate|].
  destruct (is_qi to && in_scope (x_pfx c) to && in_hold c); [discriminate|].
  destruct (is_qi to && negb (in_scope (x_pfx c) to)); [discriminate|].
  destruct (is_qi to && in_scope (x_pfx c) to && (value <? MinQuaiConversionAmount)); [discriminate|].
  destruct (gas <? ETXGas) eqn:G1; [discriminate|].
  destruct (negb (internal_quai (x_pfx c) from)); [discriminate|].
  destruct (gas - ETXGas <? TxGas) eqn:G2; [discriminate|].
  destruct (bal <? value) eqn:B; [discriminate|].
  destruct (MaxUint16 <? idx) eqn:I; [discriminate|].
  destruct (negb (is_qi to && in_scope (x_pfx c) to) && negb (eligible c to)); [discriminate|].
  intros H. inversion H. apply N.ltb_ge in G1, G2, B, I.
  split; [eexists; reflexivity|]. repeat split; auto. unfold ETXGas, TxGas in *. lia.
Qed.

Lemma lenN_aux_spec : forall A (l : list A) acc, lenN_aux l acc = acc + N.of_nat (List.length l).
Proof. induction l as [|x l IH]; intros acc; cbn [lenN_aux List.length]; [cbn; lia|]. rewrite IH, Nat2N.inj_succ. lia. Qed.
Lemma lenN_spec : forall A (l : list A), lenN l = N.of_nat (List.length l).
Proof. intros. unfold lenN. rewrite lenN_aux_spec. lia. Qed.
Lemma lenN_app : forall A (l l' : list A), lenN (l ++ l') = lenN l + lenN l'.
Proof. intros. rewrite !lenN_spec, app_length. lia. Qed.

Definition seq_from (n : N) (l : list etx) : Prop :=
  forall j e, nth_error l j = Some e -> e_index e = n + N.of_nat j.
(* [seq_from 0 l] by conversion ([0 + n] computes to [n]): Props/C05.v applies the [seq_from] lemmas to it *)
Definition indices_ok (l : list etx) : Prop := forall j e, nth_error l j = Some e -> e_index e = N.of_nat j.

Lemma seq_from_nil : forall n, seq_from n []. Proof. intros n j e H. destruct j; discriminate. Qed.
Lemma seq_from_app : forall n l1 l2, seq_from n l1 -> seq_from (n + lenN l1) l2 -> seq_from n (l1 ++ l2).
Proof.
  intros n l1 l2 H1 H2 j e H. destruct (Nat.lt_ge_cases j (List.length l1)) as [L|L].
  - rewrite nth_error_app1 in H by assumption. auto.
  - rewrite nth_error_app2 in H by assumption. apply H2 in H. rewrite H, lenN_spec. lia.
Qed.
Lemma seq_from_one : forall n e, e_index e = n -> seq_from n [e].
Proof. intros n e H j x Hj. destruct j as [|j]; cbn in Hj; [inversion Hj; subst; lia|destruct j; discriminate]. Qed.

Fixpoint sumb (l : list (N * N)) : N := match l with [] => 0 | (_, v) :: l' => v + sumb l' end.

Lemma sumb_setb : forall a v l, sumb (setb a v l) + getb a l = sumb l + v.
Proof.
  induction l as [|[k x] l IH]; cbn [setb getb sumb]; [lia|].
  destruct (k =? a); cbn [sumb]; lia.
Qed.
Lemma sumb_subb : forall a v l, v <= getb a l -> sumb (subb a v l) + v = sumb l.
Proof.
  intros a v l H. unfold subb. destruct (v =? 0) eqn:E; [apply N.eqb_eq in E; lia|].
  pose proof (sumb_setb a (getb a l - v) l). lia.
Qed.
Lemma sumb_addb : forall a v l, sumb (addb a v l) = sumb l + v.
Proof.
  intros a v l. unfold addb. destruct (v =? 0) eqn:E; [apply N.eqb_eq in E; lia|].
  pose proof (sumb_setb a (getb a l + v) l). lia.
Qed.
Lemma sumb_transfer : forall a b v l, v <= getb a l -> sumb (transfer a b v l) = sumb l.
Proof. intros. unfold transfer. rewrite sumb_addb. pose proof (sumb_subb a v l H). lia. Qed.
Lemma transfer_zero : forall a b l, transfer a b 0 l = l.
Proof. intros. unfold transfer, addb, subb. reflexivity. Qed.

(* value that left the accounts through the operations of non-reverted frames *)
Fixpoint debited (e : ev) : N :=
  match e with
  | EvOp _ r => r_debit r
  | EvCall ok sub => if ok then fold_right (fun x acc => debited x + acc) 0 sub else 0
  end.
Definition debited_all (tr : list ev) : N := fold_right (fun x acc => debited x + acc) 0 tr.

Lemma debited_all_app : forall a b, debited_all (a ++ b) = debited_all a + debited_all b.
Proof. unfold debited_all. induction a as [|x a IH]; intros b; cbn [app fold_right]; [lia|]. rewrite IH. lia. Qed.
Lemma emitted_all_app : forall a b, emitted_all (a ++ b) = emitted_all a ++ emitted_all b.
Proof. intros. unfold emitted_all. apply flat_map_app. Qed.

Record effect (w w' : world) (ems : list etx) (deb : N) : Prop := {
  eff_etxs : w_etxs w' = w_etxs w ++ ems;
  eff_indices : seq_from (lenN (w_etxs w)) ems;
  eff_value : sumb (w_bal w') + deb = sumb (w_bal w) }.
Arguments eff_etxs {w w' ems deb}.
Arguments eff_indices {w w' ems deb}.
Arguments eff_value {w w' ems deb}.

Lemma effect_refl : forall w, effect w w [] 0.
Proof. intros w. split; [symmetry; apply app_nil_r|apply seq_from_nil|apply N.add_0_r]. Qed.

Lemma effect_trans : forall w1 w2 w3 e1 e2 d1 d2,
  effect w1 w2 e1 d1 -> effect w2 w3 e2 d2 -> effect w1 w3 (e1 ++ e2) (d1 + d2).
Proof.
  intros w1 w2 w3 e1 e2 d1 d2 [A1 B1 C1] [A2 B2 C2]. split.
  - rewrite A2, A1, app_assoc. reflexivity.
  - apply seq_from_app; [assumption|]. rewrite A1, lenN_app in B2. assumption.
  - lia.
Qed.

Lemma effect_apply_res : forall r self w, res_ok (getb self (w_bal w)) (lenN (w_etxs w)) r ->
  effect w (apply_res r self w) (opt_list (r_emit r)) (r_debit r).
Proof.
  intros r self w [Hd Hi]. split; cbn [apply_res w_etxs w_bal].
  - reflexivity.
  - destruct (r_emit r) as [e|]; cbn [opt_list]; [|apply seq_from_nil]. apply seq_from_one. auto.
  - apply sumb_subb. assumption.
Qed.

Lemma effect_transfer : forall w a b v, v <= getb a (w_bal w) ->
  effect w (mkW (transfer a b v (w_bal w)) (w_etxs w)) [] 0.
Proof.
  intros w a b v H. split; cbn [w_etxs w_bal]; [symmetry; apply app_nil_r|apply seq_from_nil|].
  rewrite N.add_0_r. apply sumb_transfer, H.
Qed.

Lemma effect_snoc : forall w1 w w' tr e,
  effect w1 w (emitted_all tr) (debited_all tr) -> effect w w' (emitted e) (debited e) ->
  effect w1 w' (emitted_all (tr ++ [e])) (debited_all (tr ++ [e])).
Proof.
  intros w1 w w' tr e A B. rewrite emitted_all_app, debited_all_app.
  unfold emitted_all at 2, debited_all at 2. cbn [flat_map fold_right]. rewrite app_nil_r, N.add_0_r.
  exact (effect_trans _ _ _ _ _ _ _ A B).
Qed.

(* the arguments with which the interpreter can reach a frame function while interpreter.readOnly is set:
   STATICCALL itself (sets the flag), CALL only with value 0 and an in-zone Quai target (write protection,
   gasCall), CALLCODE / DELEGATECALL; CREATE / CREATE2 are write-protected *)
Definition ro_args (c : ctx) (k : fkind) (ro : bool) (addr value : N) : Prop :=
  match k with
  | FK CkStatic => True
  | FK CkCall => ro = true /\ value = 0 /\ internal_quai (x_pfx c) addr = true
  | FK _ => ro = true
  | FCreate _ _ _ => False
  end.

Record frame_ok (c : ctx) (k : fkind) (ro : bool) (addr value : N) (w : world) (r : cres) : Prop := {
  fr_effect : effect w (c_world r) (if kept r then emitted_all (c_tr r) else []) (if kept r then debited_all (c_tr r) else 0);
  fr_reverted : c_err r <> 0 -> c_err r <> 6 -> c_world r = w;
  fr_read_only : ro_args c k ro addr value -> c_world r = w;
  fr_message_call : forall k', k = FK k' -> c_err r <> 6 }.
Arguments fr_effect {c k ro addr value w r}.
Arguments fr_reverted {c k ro addr value w r}.
Arguments fr_read_only {c k ro addr value w r}.
Arguments fr_message_call {c k ro addr value w r}.

Definition calls_ok (c : ctx) (cf : fkind -> bool -> N -> N -> N -> N -> N -> world -> cres) : Prop :=
  forall k ro depth caller addr gas value w, frame_ok c k ro addr value w (cf k ro depth caller addr gas value w).

Lemma frame_refused : forall c k ro addr value w e g tr, e <> 0 -> e <> 6 ->
  frame_ok c k ro addr value w (mkC e g w tr).
Proof.
  intros c k ro addr value w e g tr H0 H6. split; [|reflexivity|reflexivity|intros k' _; exact H6].
  unfold kept. cbn [c_err c_world c_tr]. apply N.eqb_neq in H0, H6. rewrite H0, H6. apply effect_refl.
Qed.

(* kept: err == nil, or a constructor's ErrCodeStoreOutOfGas (class 6) *)
Lemma frame_kept : forall c k ro addr value w e g w2 tr,
  e = 0 \/ e = 6 /\ (forall k', k <> FK k') ->
  effect w w2 (emitted_all tr) (debited_all tr) -> (ro_args c k ro addr value -> w2 = w) ->
  frame_ok c k ro addr value w (mkC e g w2 tr).
Proof.
  intros c k ro addr value w e g w2 tr He E RO.
  assert (K : kept (mkC e g w2 tr) = true) by (destruct He as [->|[-> _]]; reflexivity).
  split; cbn [c_err c_world c_tr].
  - rewrite K. exact E.
  - intros H0 H6. destruct He as [->|[-> _]]; [destruct (H0 eq_refl)|destruct (H6 eq_refl)].
  - exact RO.
  - intros k' Hk. destruct He as [->|[_ N]]; [discriminate|destruct (N k' Hk)].
Qed.

Section Frame.
  Variable c : ctx.
  Variable ro : bool.
  Variable depth self : N.
  Variable w1 : world.

  (* the worlds and traces the instructions of one frame entered in world w1 can reach *)
  Inductive reach : world -> list ev -> Prop :=
  | ReachEntry : reach w1 []
  | ReachSend : forall w tr n r, ro = false -> res_ok (getb self (w_bal w)) (lenN (w_etxs w)) r ->
      reach w tr -> reach (apply_res r self w) (tr ++ [EvOp n r])
  | ReachFrame : forall w tr k addr value r, frame_ok c k ro addr value w r ->
      (ro = true -> ro_args c k true addr value) -> reach w tr -> reach (c_world r) (tr ++ [EvCall (kept r) (c_tr r)])
  | ReachRaised : forall w tr sub, reach w tr -> reach w (tr ++ [EvCall false sub]).

  Lemma reach_effect : forall w tr, reach w tr -> effect w1 w (emitted_all tr) (debited_all tr).
  Proof.
    intros w tr R. induction R as [|w tr n r _ Hr _ IH|w tr k addr value r F _ _ IH|w tr sub _ IH].
    - apply effect_refl.
    - exact (effect_snoc _ _ _ _ (EvOp n r) IH (effect_apply_res r self w Hr)).
    - exact (effect_snoc _ _ _ _ (EvCall _ _) IH (fr_effect F)).
    - exact (effect_snoc _ _ _ _ (EvCall false sub) IH (effect_refl w)).
  Qed.

  Lemma reach_ro : ro = true -> forall w tr, reach w tr -> w = w1.
  Proof.
    intros Hro w tr R. induction R as [|w tr n r NR _ _ _|w tr k addr value r F A _ IH|w tr sub _ IH].
    - reflexivity.
    - rewrite Hro in NR. discriminate NR.
    - rewrite <- IH. apply (fr_read_only F). rewrite Hro. exact (A Hro).
    - exact IH.
  Qed.

  (* the "writes" flag of a jump-table row: ErrWriteProtection in a read-only frame *)
  Lemma writes_not_ro : forall b, b = true -> ro && b = false -> ro = false.
  Proof. intros b -> H. rewrite andb_true_r in H. exact H. Qed.

  Variable cf : fkind -> bool -> N -> N -> N -> N -> N -> world -> cres.
  Hypothesis cf_ok : calls_ok c cf.

  Lemma exec_reach : forall code f w tr, reach w tr ->
    let '(_, _, w', tr') := exec cf c ro depth self code f w tr in reach w' tr'.
  Proof.
    induction code as [|i rest IH]; intros f w tr H; [exact H|].
    destruct i; cbn [exec]; unfold fault.
    - (* PUSH32 *)
      destruct (stack_bad row_PUSH32 f); [exact H|].
      destruct (use_gas (cgas row_PUSH32) f) as [f1|]; [|exact H]. apply IH, H.
    - (* POP *)
      destruct (stack_bad row_POP f); [exact H|].
      destruct (use_gas (cgas row_POP) f) as [f1|]; [|exact H]. apply IH, H.
    - (* MSTORE *)
      destruct (stack_bad row_MSTORE f); [exact H|].
      destruct (use_gas (cgas row_MSTORE) f) as [f1|]; [|exact H].
      destruct (f_stack f1) as [|off [|v st]]; try exact H.
      destruct (if W64 <=? off then None else if W64 <=? off + 32 then None else Some (off + 32)) as [msz|]; [|exact H].
      destruct (mem_size32 msz) as [ms|]; [|exact H].
      destruct (mem_gas f1 ms) as [[fee last]|]; [|exact H].
      destruct (use_gas fee (with_mlast f1 last)) as [f2|]; [|exact H]. apply IH, H.
    - (* ETX *)
      destruct (stack_bad row_ETX f); [exact H|].
      destruct (ro && r_writes row_ETX) eqn:RO; [exact H|].
      destruct (use_gas (cgas row_ETX) f) as [f1|]; [|exact H].
      destruct (f_stack f1) as [|t0 [|addr [|value [|gl [|tip [|cap [|ioff [|isz [|aoff [|asz st]]]]]]]]]]; try exact H.
      destruct (calc_mem ioff isz) as [x|]; [|exact H].
      destruct (calc_mem aoff asz) as [y|]; [|exact H].
      destruct (W64 <=? x + y); [exact H|].
      destruct (mem_size32 (x + y)) as [ms|]; [|exact H].
      apply IH, ReachSend; [exact (writes_not_ro _ eq_refl RO)|apply op_etx_ok|exact H].
    - (* CONVERT *)
      destruct (stack_bad row_CONVERT f); [exact H|].
      destruct (ro && r_writes row_CONVERT) eqn:RO; [exact H|].
      destruct (use_gas (cgas row_CONVERT) f) as [f1|]; [|exact H].
      destruct (f_stack f1) as [|t0 [|addr [|value [|gl st]]]]; try exact H.
      apply IH, ReachSend; [exact (writes_not_ro _ eq_refl RO)|apply op_convert_ok|exact H].
    - (* CALL, CALLCODE, DELEGATECALL, STATICCALL *)
      destruct (stack_bad (row_of k) f); [exact H|].
      destruct (call_args k (f_stack f)) as [[[[[[[[g addr] value] ioff] isz] roff] rsz] st]|]; [|exact H].
      destruct (ro && is_call k && negb (value =? 0)) eqn:WP; [exact H|].
      destruct (use_gas WarmStorageReadCost f) as [f1|]; [|exact H].
      destruct (calc_mem roff rsz) as [x|]; [|exact H].
      destruct (calc_mem ioff isz) as [y|]; [|exact H].
      destruct (mem_size32 (N.max x y)) as [ms|]; [|exact H].
      destruct (is_call k && negb (internal_quai (x_pfx c) (addr mod W160))) eqn:IQ; [exact H|].
      destruct (mem_gas f1 ms) as [[mfee last]|]; [|exact H].
      destruct (f_gas f1 <? _); [exact H|].
      destruct (use_gas _ (with_mlast f1 last)) as [f2|]; [|exact H].
      destruct (c_err _ =? 5).
      { (* common.ErrExternalAddress: the calling frame faults as well *)
        apply ReachRaised, H. }
      apply IH. eapply ReachFrame; [apply cf_ok| |exact H].
      (* in a read-only frame: write protection gave value = 0, gasCall gave an in-zone Quai target *)
      intros R. rewrite R in WP. destruct k; cbn [ro_args]; auto.
      cbn [is_call andb] in WP, IQ. apply negb_false_iff in WP, IQ. apply N.eqb_eq in WP. auto.
    - (* CREATE, CREATE2 *)
      destruct (stack_bad _ f); [exact H|].
      destruct (ro && r_writes _) eqn:RO; [exact H|].
      destruct (use_gas _ f) as [f1|]; [|exact H].
      destruct (create_args two (f_stack f1)) as [[[[value off] size] st]|]; [|exact H].
      destruct (calc_mem off size) as [msz|]; [|exact H].
      destruct (mem_size32 msz) as [ms|]; [|exact H].
      destruct (mem_gas f1 ms) as [[mfee last]|]; [|exact H].
      destruct (use_gas _ (with_mlast f1 last)) as [f2|]; [|exact H].
      apply IH. eapply ReachFrame; [apply cf_ok| |exact H].
      assert (W : r_writes (if two then row_CREATE2 else row_CREATE) = true) by (destruct two; reflexivity).
      intros R. rewrite (writes_not_ro _ W RO) in R. discriminate R.
    - (* STOP *)
      exact H.
    - (* RETURN *)
      destruct (stack_bad row_RETURN f); [exact H|].
      destruct (f_stack f) as [|off [|sz st]]; try exact H.
      destruct (calc_mem off sz) as [msz|]; [|exact H].
      destruct (mem_size32 msz) as [ms|]; [|exact H].
      destruct (mem_gas f ms) as [[fee last]|]; [|exact H].
      destruct (use_gas fee (with_mlast f last)) as [f2|]; exact H.
    - (* REVERT *)
      destruct (stack_bad row_REVERT f); [exact H|].
      destruct (f_stack f) as [|off [|sz st]]; try exact H.
      destruct (calc_mem off sz) as [msz|]; [|exact H].
      destruct (mem_size32 msz) as [ms|]; [|exact H].
      destruct (mem_gas f ms) as [[fee last]|]; [|exact H].
      destruct (use_gas fee (with_mlast f last)) as [f2|]; exact H.
    - (* 0xfe *)
      exact H.
  Qed.

  (* (k, ro0, addr, value): the caller-side arguments of the frame function; w: its snapshot, w1: the entry world (w after
     the value transfer) *)
  Lemma run_frame_ok : forall k ro0 addr value deposit code gas w,
    effect w w1 [] 0 -> (ro_args c k ro0 addr value -> ro = true /\ w1 = w) -> (forall k', k = FK k' -> deposit = false) ->
    frame_ok c k ro0 addr value w (run_frame cf c ro depth self deposit code gas w w1).
  Proof.
    intros k ro0 addr value deposit code gas w T HRO HD. unfold run_frame.
    (* no code: the transfer alone *)
    assert (M : forall g, frame_ok c k ro0 addr value w (mkC 0 g w1 [])).
    { intros g. apply frame_kept; [auto|exact T|]. intros RA. exact (proj2 (HRO RA)). }
    destruct code as [[|i0 code]|]; [apply M| |apply M].
    pose proof (exec_reach (i0 :: code) (mkF [] gas 0 0) w1 [] ReachEntry) as R.
    destruct (exec cf c ro depth self (i0 :: code) (mkF [] gas 0 0) w1 []) as [[[h f] w2] tr].
    (* kept: the transfer, then the effect of the trace *)
    assert (K : forall e g, e = 0 \/ e = 6 /\ deposit = true -> frame_ok c k ro0 addr value w (mkC e g w2 tr)).
    { intros e g He. apply frame_kept.
      - destruct He as [->|[-> D]]; [auto|]. right. split; [reflexivity|]. intros k' Hk. rewrite (HD k' Hk) in D. discriminate D.
      - exact (effect_trans _ _ _ _ _ _ _ T (reach_effect _ _ R)).
      - intros RA. destruct (HRO RA) as [Hro <-]. apply (reach_ro Hro _ _ R). }
    destruct h as [|n| | |].
    - apply K. tauto.
    - destruct deposit; [|apply K; tauto].
      destruct (MaxCodeSize <? n); [apply frame_refused; discriminate|].
      destruct (f_gas f <? n * CreateDataGas); apply K; tauto.
    - apply frame_refused; discriminate.
    - apply frame_refused; discriminate.
    - apply frame_refused; discriminate.
  Qed.
End Frame.

Lemma can_transfer_le : forall c w a v, can_transfer c w a v = true -> v <= getb a (w_bal w).
Proof. intros c w a v H. unfold can_transfer in H. apply andb_true_iff in H. destruct H as [_ H]. apply N.leb_le in H. exact H. Qed.

Lemma frame_target : forall c k ro addr value w x,
  frame_ok c k ro addr value w x ->
  frame_ok c k ro addr value w (match target_err c addr with Some e => mkC e 0 w [] | None => x end).
Proof.
  intros c k ro addr value w x Hx. unfold target_err.
  destruct (reserved addr); [apply frame_refused; discriminate|].
  destruct (is_qi addr); [apply frame_refused; discriminate|].
  destruct (negb (in_scope (x_pfx c) addr)); [apply frame_refused; discriminate|exact Hx].
Qed.

Lemma call_frame_ok : forall fuel c, calls_ok c (call fuel c).
Proof.
  induction fuel as [|fuel IH]; intros c k ro depth caller addr gas value w.
  { apply frame_refused; discriminate. }
  cbn [call].
  destruct k as [[ | | | ]|init naddr grind].
  - (* Call *)
    destruct (CallCreateDepth <? depth); [apply frame_refused; discriminate|].
    destruct (negb (value =? 0) && negb (can_transfer c w caller value)) eqn:CT; [apply frame_refused; discriminate|].
    assert (VLE : value <= getb caller (w_bal w)).
    { apply andb_false_iff in CT. destruct CT as [CT|CT].
      - apply negb_false_iff, N.eqb_eq in CT. lia.
      - apply negb_false_iff in CT. eapply can_transfer_le; eassumption. }
    destruct (reserved addr); [apply frame_refused; discriminate|].
    destruct (internal_quai (x_pfx c) addr) eqn:IQ; cbn [negb].
    2:{ (* CreateETX under Call's snapshot *)
      destruct (create_etx c caller (getb caller (w_bal w)) (lenN (w_etxs w)) addr gas value) as [ok r] eqn:CE.
      destruct ok; [|apply frame_refused; discriminate].
      apply create_etx_ok_shape in CE. destruct CE as [[ty ->] [Dle _]].
      apply frame_kept; [auto| |intros [_ [_ RA]]; rewrite RA in IQ; discriminate IQ].
      apply (effect_snoc w w _ [] (EvOp 2 _) (effect_refl w)), effect_apply_res.
      split; [exact Dle|]. intros e' He'. inversion He'. reflexivity. }
    destruct (negb (exists_acct c w addr)).
    { destruct (value =? 0) eqn:V0; [apply frame_kept; [auto|apply effect_refl|reflexivity]|].
      destruct (CallNewAccountGas <? gas); [|apply frame_refused; discriminate].
      destruct (negb (internal_quai (x_pfx c) caller)); [apply frame_refused; discriminate|].
      apply frame_kept; [auto|apply effect_transfer, VLE|].
      intros [_ [RV _]]. rewrite RV in V0. discriminate V0. }
    destruct (negb (internal_quai (x_pfx c) caller)); [apply frame_refused; discriminate|].
    apply run_frame_ok; [apply IH|apply effect_transfer, VLE| |intros k' _; reflexivity].
    intros [Hro [Hv _]]. split; [exact Hro|]. rewrite Hv, transfer_zero. destruct w; reflexivity.
  - (* CallCode *)
    destruct (CallCreateDepth <? depth); [apply frame_refused; discriminate|].
    destruct (negb (can_transfer c w caller value)); [apply frame_refused; discriminate|].
    apply frame_target, run_frame_ok; [apply IH|apply effect_refl| |intros k' _; reflexivity].
    intros RA. split; [exact RA|reflexivity].
  - (* DelegateCall *)
    destruct (CallCreateDepth <? depth); [apply frame_refused; discriminate|].
    apply frame_target, run_frame_ok; [apply IH|apply effect_refl| |intros k' _; reflexivity].
    intros RA. split; [exact RA|reflexivity].
  - (* StaticCall *)
    destruct (CallCreateDepth <? depth); [apply frame_refused; discriminate|].
    apply frame_target, run_frame_ok; [apply IH|apply effect_refl| |intros k' _; reflexivity].
    intros _. split; reflexivity.
  - (* Create / Create2 *)
    destruct (negb (internal_quai (x_pfx c) caller)); [apply frame_refused; discriminate|].
    destruct (gas <? grind); [apply frame_refused; discriminate|].
    destruct (CallCreateDepth <? depth); [apply frame_refused; discriminate|].
    destruct (negb (CallNewAccountGas <? gas - grind)); [apply frame_refused; discriminate|].
    destruct (negb (can_transfer c w caller value)) eqn:CT; [apply frame_refused; discriminate|].
    apply negb_false_iff, can_transfer_le in CT.
    destruct (negb (internal_quai (x_pfx c) naddr)); [apply frame_refused; discriminate|].
    apply run_frame_ok; [apply IH|apply effect_transfer, CT|intros []|discriminate].
Qed.

(* generated data: the obligations a source edit breaks *)

Fixpoint strs_eqb (a b : list string) : bool :=
  match a, b with
  | [], [] => true
  | x :: a', y :: b' => String.eqb x y && strs_eqb a' b'
  | _, _ => false
  end.
Definition oN_eqb' (a b : option N) : bool :=
  match a, b with Some x, Some y => x =? y | None, None => true | _, _ => false end.
Definition row_eqb (a b : oprow) : bool :=
  (r_min a =? r_min b) && (r_max a =? r_max b) && String.eqb (r_exec a) (r_exec b) && String.eqb (r_cgas a) (r_cgas b)
  && oN_eqb' (r_cgasv a) (r_cgasv b) && String.eqb (r_dgas a) (r_dgas b) && String.eqb (r_mem a) (r_mem b)
  && Bool.eqb (r_halts a) (r_halts b) && Bool.eqb (r_jumps a) (r_jumps b) && Bool.eqb (r_writes a) (r_writes b)
  && Bool.eqb (r_reverts a) (r_reverts b) && Bool.eqb (r_returns a) (r_returns b).

Local Open Scope string_scope.
(* the jump-table rows the model was written against: pops/pushes, which gas functions run, flags *)
Definition rows_as_modelled : bool :=
  row_eqb row_ETX (mkRow 10 (StackLimit + 10 - 1) "opETX" "gasEtx" (Some ETXGas) "" "memoryETX" false false true false false) &&
  row_eqb row_CONVERT (mkRow 4 (StackLimit + 4 - 1) "opConvert" "gasEtx" (Some ETXGas) "" "" false false true false false) &&
  row_eqb row_CALL (mkRow 7 (StackLimit + 7 - 1) "opCall" "gasWarmStorageRead" None "makeCallVariantGasCall" "memoryCall" false false false false true) &&
  row_eqb row_PUSH32 (mkRow 0 (StackLimit - 1) "makePush" "gasFastestStep" (Some 3%N) "" "" false false false false false) &&
  row_eqb row_POP (mkRow 1 (StackLimit + 1) "opPop" "gasQuickStep" (Some 2%N) "" "" false false false false false) &&
  row_eqb row_MSTORE (mkRow 2 (StackLimit + 2) "opMstore" "gasFastestStep" (Some 3%N) "pureMemoryGascost" "memoryMStore" false false false false false) &&
  row_eqb row_STOP (mkRow 0 StackLimit "opStop" "gasZero" (Some 0%N) "" "" true false false false false) &&
  row_eqb row_REVERT (mkRow 2 (StackLimit + 2) "opRevert" "gasZero" (Some 0%N) "pureMemoryGascost" "memoryRevert" false false false true true) &&
  row_eqb row_CALLCODE (mkRow 7 (StackLimit + 7 - 1) "opCallCode" "gasWarmStorageRead" None "makeCallVariantGasCall" "memoryCall" false false false false true) &&
  row_eqb row_DELEGATECALL (mkRow 6 (StackLimit + 6 - 1) "opDelegateCall" "gasWarmStorageRead" None "makeCallVariantGasCall" "memoryDelegateCall" false false false false true) &&
  row_eqb row_STATICCALL (mkRow 6 (StackLimit + 6 - 1) "opStaticCall" "gasWarmStorageRead" None "makeCallVariantGasCall" "memoryStaticCall" false false false false true) &&
  row_eqb row_CREATE (mkRow 3 (StackLimit + 3 - 1) "opCreate" "gasCreateConstant" (Some 32000%N) "pureMemoryGascost" "memoryCreate" false false true false true) &&
  row_eqb row_CREATE2 (mkRow 4 (StackLimit + 4 - 1) "opCreate2" "gasCreate2Constant" (Some 32000%N) "gasCreate2" "memoryCreate2" false false true false true) &&
  row_eqb row_RETURN (mkRow 2 (StackLimit + 2) "opReturn" "gasZero" (Some 0%N) "pureMemoryGascost" "memoryReturn" true false false false false) &&
  negb opcode_0xfe_defined.

(* the order of the relevant calls in the Go source of the mirrored functions *)
Definition sources_as_modelled : bool :=
  strs_eqb src_opETX
    ["pop"; "pop"; "pop"; "pop"; "pop"; "pop"; "pop"; "pop"; "pop"; "pop"; "IsInChainScope"; "Clear"; "push";
     "InternalAndQuaiAddress"; "CmpUint64"; "Clear"; "push"; "Clear"; "push"; "AddOverflow"; "Clear"; "push"; "MulOverflow"; "Clear"; "push";
     "AddOverflow"; "Clear"; "push"; "CanTransfer"; "Clear"; "push"; "CmpUint64"; "Clear"; "push"; "Clear"; "push";
     "SubBalance"; "DecodeBytes"; "Clear"; "push"; "lenETXCache"; "Clear"; "push"; "NewTx"; "CheckIfEtxEligible"; "appendETXCache"; "SetOne"; "push"] &&
  strs_eqb src_opConvert
    ["pop"; "pop"; "pop"; "pop"; "IsInChainScope"; "Clear"; "push"; "IsInQiLedgerScope"; "Clear"; "push"; "Clear"; "push"; "Clear"; "push";
     "Clear"; "push"; "Clear"; "push"; "InternalAndQuaiAddress"; "CmpUint64"; "Clear"; "push"; "Clear"; "push"; "FromBig"; "Clear"; "push";
     "MulOverflow"; "Clear"; "push"; "AddOverflow"; "Clear"; "push"; "FromBig"; "CanTransfer"; "Clear"; "push"; "Clear"; "push";
     "SubBalance"; "lenETXCache"; "Clear"; "push"; "NewTx"; "appendETXCache"; "SetOne"; "push"] &&
  strs_eqb src_CreateETX
    ["IsInQuaiLedgerScope"; "IsInChainScope"; "IsInQiLedgerScope"; "IsInChainScope"; "IsInQiLedgerScope"; "IsInChainScope";
     "InternalAndQuaiAddress"; "CanTransfer"; "SubBalance"; "lenETXCache"; "NewTx"; "CheckIfEtxEligible"; "appendETXCache"] &&
  strs_eqb src_Call
    ["CanTransfer"; "snapshot"; "RunLockupContract"; "revertToSnapshot"; "InternalAndQuaiAddress"; "CreateETX"; "revertToSnapshot";
     "Exist"; "CreateAccount"; "Transfer"; "Run"; "revertToSnapshot"] &&
  strs_eqb src_opCall ["pop"; "pop"; "pop"; "pop"; "pop"; "pop"; "pop"; "Clear"; "SetOne"; "push"] &&
  strs_eqb src_gasCall ["InternalAndQuaiAddress"] &&
  strs_eqb src_UnwrapQi ["InternalAndQuaiAddress"; "InternalAndQiAddress"; "InternalAndQuaiAddress"; "GetState"; "SetState";
                         "lenETXCache"; "appendETXCache"; "NewTx"] &&
  (* every frame kind takes the EVM snapshot (state revision AND length of the ETX cache) before it runs code
     and restores it on any error: [run_frame] *)
  strs_eqb src_snapshot ["Snapshot"; "lenETXCache"; "copyCoinbasesDeleted"] &&
  strs_eqb src_revertToSnapshot ["RevertToSnapshot"; "sliceETXCache"; "copyCoinbasesDeleted"] &&
  strs_eqb src_CallCode ["CanTransfer"; "snapshot"; "precompile"; "RunPrecompiledContract"; "InternalAndQuaiAddress"; "Run"; "revertToSnapshot"] &&
  strs_eqb src_DelegateCall ["snapshot"; "precompile"; "RunPrecompiledContract"; "InternalAndQuaiAddress"; "Run"; "revertToSnapshot"] &&
  strs_eqb src_StaticCall ["snapshot"; "precompile"; "RunPrecompiledContract"; "InternalAndQuaiAddress"; "Run"; "revertToSnapshot"] &&
  strs_eqb src_Create ["InternalAndQuaiAddress"; "CreateAddress"; "InternalAndQuaiAddress"; "create"; "attemptGrindContractCreation"; "create"] &&
  strs_eqb src_Create2 ["CreateAddress2"; "create"] &&
  strs_eqb src_create ["InternalAndQuaiAddress"; "CanTransfer"; "InternalAndQuaiAddress"; "snapshot"; "CreateAccount"; "Transfer"; "Run";
                       "UseGas"; "SetCode"; "revertToSnapshot"; "UseGas"] &&
  strs_eqb src_opCallCode ["pop"; "pop"; "pop"; "pop"; "pop"; "pop"; "pop"; "CallCode"; "Clear"; "SetOne"; "push"] &&
  strs_eqb src_opDelegateCall ["pop"; "pop"; "pop"; "pop"; "pop"; "pop"; "DelegateCall"; "Clear"; "SetOne"; "push"] &&
  strs_eqb src_opStaticCall ["pop"; "pop"; "pop"; "pop"; "pop"; "pop"; "StaticCall"; "Clear"; "SetOne"; "push"] &&
  strs_eqb src_opCreate ["pop"; "pop"; "pop"; "UseGas"; "Create"; "Clear"; "push"] &&
  strs_eqb src_opCreate2 ["pop"; "pop"; "pop"; "pop"; "UseGas"; "Create2"; "Clear"; "push"] &&
  strs_eqb src_gasCallCode [] && strs_eqb src_gasDelegateCall [] && strs_eqb src_gasStaticCall [].
Local Close Scope string_scope.

(* fork heights: the regimes the theorems distinguish all exist and are ordered as the model assumes *)
Definition forks_as_modelled : bool :=
  (0 <? ControllerKickInBlock) && (ControllerKickInBlock <? KawPowForkBlock) &&
  (KawPowForkBlock + KQuaiChangeHoldInterval <? ShaEquivalentDifficultyForkBlock) &&
  (ShaEquivalentDifficultyForkBlock + KQuaiChangeHoldInterval <? SelfDestructRefundForkBlock) &&
  (SelfDestructRefundForkBlock <? W64) && (TxGas <=? ETXGas + TxGas) && (0 <? TxGas) &&
  (0 <? MinQuaiConversionAmount) && (MinQuaiConversionAmount <? W256) &&
  negb (EtxDefaultType =? EtxConversionType) && negb (EtxUnwrapQiType =? EtxDefaultType) &&
  negb (EtxUnwrapQiType =? EtxConversionType) && (CallCreateDepth <? 1100).   (* 1100: the fuel of [case_run] (Model/C05.v) *)

(* witnesses of the defects (replayed on the real EVM by the harness corpus) *)

Definition wit_origin : N := 0x00010e0e0e0e0e0e0e0e0e0e0e0e0e0e0e0e0e0e.
Definition wit_self : N := 0x0002a1a1a1a1a1a1a1a1a1a1a1a1a1a1a1a1a1a1.
Definition wit_to : N := 0x0107555555555555555555555555555555555555.     (* foreign zone 0-1, Quai ledger *)
Definition wit_qi : N := 0x0085919191919191919191919191919191919191.     (* in-zone Qi address *)
Definition wit_post : N := SelfDestructRefundForkBlock + 5.
Definition wit_pre : N := SelfDestructRefundForkBlock - 5.
Definition wit_ctx (ptn elig : N) (codes : list (N * list instr)) : ctx := mkCtx 0 ptn elig 1000000000 codes.
Definition e21 : N := 1000000000000000000000.

(* where the witness addresses lie.  The witnesses rewrite with these before they evaluate: the divisions of 160-bit
   numbers in [byte0] / [byte1] / [mod W160] are slow in the kernel, the arithmetic that is left is not *)
Lemma wit_self_quai : forall ptn elig codes, internal_quai (x_pfx (wit_ctx ptn elig codes)) wit_self = true.
Proof. intros. vm_compute. reflexivity. Qed.
Lemma wit_to_word : wit_to mod W160 = wit_to.
Proof. vm_compute. reflexivity. Qed.
Lemma wit_to_foreign : forall ptn elig codes, in_scope (x_pfx (wit_ctx ptn elig codes)) wit_to = false.
Proof. intros. vm_compute. reflexivity. Qed.
Lemma wit_to_eligible : forall ptn elig codes, eligible (wit_ctx ptn elig codes) wit_to = N.testbit elig 1.
Proof. intros. unfold eligible. replace (byte0 wit_to) with 1 by (vm_compute; reflexivity). reflexivity. Qed.
Lemma wit_qi_word : wit_qi mod W160 = wit_qi.
Proof. vm_compute. reflexivity. Qed.
Lemma wit_qi_local : forall ptn elig codes, in_scope (x_pfx (wit_ctx ptn elig codes)) wit_qi = true.
Proof. intros. vm_compute. reflexivity. Qed.
Lemma wit_qi_qi : is_qi wit_qi = true.
Proof. vm_compute. reflexivity. Qed.

(* F2: malformed access-list blob *)
Lemma etx_bad_access_list_witness :
  let r := op_etx (wit_ctx wit_post 2 []) wit_self e21 0 false wit_to 12345 21000 1 2 3 in
  r_push r = Some 0 /\ r_debit r = 12345 + (1 + 2) * 21000 /\ r_emit r = None.
Proof. rewrite op_etx_shape, wit_to_word, wit_to_foreign, wit_self_quai, wit_to_eligible. vm_compute. auto. Qed.

Lemma etx_aon_refuted :
  exists c self bal idx alok addr value gl tip cap asz,
    ~ all_or_nothing value (etx_fee gl tip cap) idx (op_etx c self bal idx alok addr value gl tip cap asz).
Proof.
  exists (wit_ctx wit_post 2 []), wit_self, e21, 0, false, wit_to, 12345, 21000, 1, 2, 3.
  destruct etx_bad_access_list_witness as [_ [B C]]. apply aon_lost; [rewrite B; discriminate|exact C].
Qed.

(* F3: opConvert, index overflow after the debit *)
Lemma convert_index_overflow_witness :
  let r := op_convert (wit_ctx wit_post 0 []) wit_self e21 65536 wit_qi MinQuaiConversionAmount 30000 in
  r_push r = Some 0 /\ r_debit r = MinQuaiConversionAmount + 1000000000 * 30000 /\ r_emit r = None.
Proof.
  rewrite op_convert_shape. unfold convert_guard. rewrite wit_qi_word, wit_qi_local, wit_qi_qi, wit_self_quai.
  vm_compute. auto.
Qed.

Lemma convert_aon_refuted :
  exists c self bal idx addr value gl,
    ~ all_or_nothing value (convert_fee c gl) idx (op_convert c self bal idx addr value gl).
Proof.
  exists (wit_ctx wit_post 0 []), wit_self, e21, 65536, wit_qi, MinQuaiConversionAmount, 30000.
  destruct convert_index_overflow_witness as [_ [B C]]. apply aon_lost; [rewrite B; discriminate|exact C].
Qed.

(* the loss is visible at transaction level: the frame does not fail, the debit stays, nothing is recorded *)
Definition wit_prog_bad_al : list instr :=
  [IPush 0xc101020000000000000000000000000000000000000000000000000000000000; IPush 0; IMstore;
   IPush 3; IPush 0; IPush 0; IPush 0; IPush 2; IPush 1; IPush 21000; IPush 12345; IPush wit_to; IPush 0; IEtx false; IPop; IStop].
Definition wit_prog_inelig (pad : bool) : list instr :=
  (if pad then [IPush 7] else []) ++
  [IPush 0; IPush 0; IPush 0; IPush 0; IPush 2; IPush 1; IPush 21000; IPush 12345; IPush wit_to; IPush 0; IEtx false; IPop; IStop].
Definition wit_world : world := mkW [(wit_origin, e21); (wit_self, e21)] [].

Lemma tx_loss_run :
  call 5 (wit_ctx wit_post 2 [(wit_self, wit_prog_bad_al)]) (FK CkCall) false 0 wit_origin wit_self 10000000 0 wit_world =
  mkC 0 9978956 (mkW [(wit_origin, e21); (wit_self, e21 - 75345)] []) [EvOp 0 (mkRes 75345 (Some 0) None)].
Proof. vm_compute. reflexivity. Qed.

Lemma tx_loss_witness :
  let r := call 5 (wit_ctx wit_post 2 [(wit_self, wit_prog_bad_al)]) (FK CkCall) false 0 wit_origin wit_self 10000000 0 wit_world in
  c_err r = 0 /\ w_etxs (c_world r) = [] /\ sumb (w_bal (c_world r)) + 75345 = sumb (w_bal wit_world).
Proof. rewrite tx_loss_run. vm_compute. auto. Qed.

Lemma tx_aon_refuted :
  exists fuel c caller addr gas value w,
    let r := call fuel c (FK CkCall) false 0 caller addr gas value w in
    c_err r = 0 /\ emitted_all (c_tr r) = [] /\ sumb (w_bal (c_world r)) < sumb (w_bal w).
Proof.
  exists 5%nat, (wit_ctx wit_post 2 [(wit_self, wit_prog_bad_al)]), wit_origin, wit_self, 10000000, 0, wit_world.
  rewrite tx_loss_run. vm_compute. auto.
Qed.

(* a constructor that sends and then returns code it cannot pay for: CREATE reports failure (err class 6 =
   ErrCodeStoreOutOfGas, status word 0) but create() does not restore its snapshot: the endowment stays in the
   code-less new account, the send's debit and ETX stay (evm.go:create "err != nil && err != ErrCodeStoreOutOfGas") *)
Definition wit_new : N := 0x0009c9c9c9c9c9c9c9c9c9c9c9c9c9c9c9c9c9c9.
Definition wit_send : list instr :=
  [IPush 0; IPush 0; IPush 0; IPush 0; IPush 2; IPush 1; IPush 21000; IPush 12345; IPush wit_to; IPush 0; IEtx false; IPop].
Definition wit_ctor_big_code : list instr := wit_send ++ [IPush 20000; IPush 0; IReturn].

Lemma ctor_code_store_witness :
  let r := call 5 (wit_ctx wit_post 2 []) (FCreate wit_ctor_big_code wit_new 0) false 0 wit_self 0 2000000 1000000 wit_world in
  c_err r = 6 /\
  w_etxs (c_world r) = [mkEtx wit_to wit_new 12345 0 EtxDefaultType 21000] /\
  getb wit_new (w_bal (c_world r)) = 1000000 - 75345 /\ getb wit_self (w_bal (c_world r)) = e21 - 1000000.
Proof. vm_compute. repeat split; reflexivity. Qed.

Lemma failed_frame_no_trace_refuted :
  exists fuel c k ro depth caller addr gas value w,
    c_err (call fuel c k ro depth caller addr gas value w) <> 0 /\
    c_world (call fuel c k ro depth caller addr gas value w) <> w.
Proof.
  exists 5%nat, (wit_ctx wit_post 2 []), (FCreate wit_ctor_big_code wit_new 0), false, 0, wit_self, 0, 2000000, 1000000, wit_world.
  destruct ctor_code_store_witness as [E [X _]]. split; [rewrite E; discriminate|]. intros H. rewrite H in X. discriminate X.
Qed.

Definition unwrap_aon (owner gas wrapped : N) (etxs : list etx) (benef value gl : N) (res : bool * N * N * list etx) : Prop :=
  match res with
  | (ok, g, wr, etxs') =>
      (ok = true /\ value <= wrapped /\ wr = wrapped - value /\ g = gas - gl /\
       exists e, etxs' = etxs ++ [e] /\ e_value e = value /\ e_index e = lenN etxs /\ e_gas e = gl /\
                 e_to e = benef /\ e_sender e = owner /\ e_type e = EtxUnwrapQiType)
      \/ (ok = false /\ wr = wrapped /\ etxs' = etxs)
  end.

(* the guards of UnwrapQi up to the write of the slot *)
Definition unwrap_due (c : ctx) (owner gas wrapped benef value gl : N) : bool :=
  (gl <=? gas) && in_scope (x_pfx c) benef && is_qi benef && internal_quai (x_pfx c) owner
  && negb (wrapped =? 0) && (value <=? wrapped).

Lemma unwrap_qi_spec : forall c owner gas wrapped idx benef value gl,
  unwrap_qi c owner gas wrapped idx benef value gl =
  if unwrap_due c owner gas wrapped benef value gl then
    if MaxUint16 <? idx then mkU false (gas - gl) (wrapped - value) None
    else mkU true (gas - gl) (wrapped - value) (Some (mkEtx benef owner value idx EtxUnwrapQiType gl))
  else mkU false (if gas <? gl then gas else gas - gl) wrapped None.
Proof.
  intros. unfold unwrap_qi, unwrap_due. rewrite (N.leb_antisym gas gl), (N.leb_antisym wrapped value).
  destruct (gas <? gl); [reflexivity|].
  destruct (in_scope (x_pfx c) benef); [|reflexivity].
  destruct (is_qi benef); [|reflexivity].
  destruct (internal_quai (x_pfx c) owner); [|reflexivity].
  destruct (wrapped =? 0); [reflexivity|].
  destruct (wrapped <? value); reflexivity.
Qed.

(* with a full cache the slot is written before the index check, and only from ShaEquivalentDifficultyForkBlock on does
   Call restore it *)
Lemma call_unwrap_spec : forall c owner gas wrapped etxs benef value gl,
  call_unwrap c owner gas wrapped etxs benef value gl =
  if unwrap_due c owner gas wrapped benef value gl then
    if MaxUint16 <? lenN etxs
    then (false, gas - gl, (if ShaEquivalentDifficultyForkBlock <=? x_ptn c then wrapped else wrapped - value), etxs)
    else (true, gas - gl, wrapped - value, etxs ++ [mkEtx benef owner value (lenN etxs) EtxUnwrapQiType gl])
  else (false, (if gas <? gl then gas else gas - gl), wrapped, etxs).
Proof.
  intros. unfold call_unwrap. rewrite unwrap_qi_spec.
  destruct (unwrap_due c owner gas wrapped benef value gl); [destruct (MaxUint16 <? lenN etxs); [|reflexivity]|];
    cbn [u_ok u_gas u_wrapped u_emit opt_list]; rewrite app_nil_r;
    destruct (ShaEquivalentDifficultyForkBlock <=? x_ptn c); reflexivity.
Qed.

Lemma call_unwrap_overflow : forall c owner gas wrapped etxs benef value gl,
  unwrap_due c owner gas wrapped benef value gl = true -> MaxUint16 < lenN etxs ->
  call_unwrap c owner gas wrapped etxs benef value gl =
  (false, gas - gl, (if ShaEquivalentDifficultyForkBlock <=? x_ptn c then wrapped else wrapped - value), etxs).
Proof. intros c owner gas wrapped etxs benef value gl D I. apply N.ltb_lt in I. rewrite call_unwrap_spec, D, I. reflexivity. Qed.

Definition prefilled (n : N) : list etx := repeatN dummy_etx (N.to_nat n) [].

Lemma repeatN_length : forall A (x : A) n acc, List.length (repeatN x n acc) = (n + List.length acc)%nat.
Proof. induction n as [|n IH]; intros acc; [reflexivity|]. cbn [repeatN]. rewrite IH. cbn [List.length]. lia. Qed.
Lemma lenN_prefilled : forall n, lenN (prefilled n) = n.
Proof. intros n. unfold prefilled. rewrite lenN_spec, repeatN_length, Nat.add_0_r. apply N2Nat.id. Qed.

Lemma wit_unwrap_due : forall ptn gas wrapped value gl,
  unwrap_due (wit_ctx ptn 0 []) wit_self gas wrapped wit_qi value gl = (gl <=? gas) && negb (wrapped =? 0) && (value <=? wrapped).
Proof. intros. unfold unwrap_due. rewrite wit_qi_local, wit_qi_qi, wit_self_quai, !andb_true_r. reflexivity. Qed.

(* before ShaEquivalentDifficultyForkBlock a failing lockup call is not reverted: the slot stays debited *)
Lemma unwrap_pre_sha_witness :
  call_unwrap (wit_ctx (ShaEquivalentDifficultyForkBlock - 1) 0 []) wit_self 100000 5000 (prefilled 65536) wit_qi 1200 30000
  = (false, 70000, 3800, prefilled 65536).
Proof. rewrite call_unwrap_overflow; [reflexivity|rewrite wit_unwrap_due; reflexivity|rewrite lenN_prefilled; reflexivity]. Qed.

Lemma unwrap_aon_refuted :
  exists c owner gas wrapped etxs benef value gl,
    ~ unwrap_aon owner gas wrapped etxs benef value gl (call_unwrap c owner gas wrapped etxs benef value gl).
Proof.
  exists (wit_ctx (ShaEquivalentDifficultyForkBlock - 1) 0 []), wit_self, 100000, 5000, (prefilled 65536), wit_qi, 1200, 30000.
  rewrite unwrap_pre_sha_witness. intros [[H _]|[_ [H _]]]; discriminate H.
Qed.
