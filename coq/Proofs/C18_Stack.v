(* C18 -- trie/stacktrie.go: the StackTrie model (Model/C18.v:st_insert) refines trie.go:insert, never
   panics on key lists whose consecutive keys diverge upwards (ascending and prefix-free), hence
   stands for exactly the trie the full implementation builds from the same list. *)
From Coq Require Import List NArith Bool Arith Lia.
From GQ Require Import Lib.Key Lib.Lists Model.C18 Proofs.C18_Base Proofs.C18_Insert.
Import ListNotations.

Section SInd.
  Variable P : snode -> Prop.
  Hypothesis HE : P SE.
  Hypothesis HL : forall k v, P (SL k v).
  Hypothesis HX : forall k c, P c -> P (SX k c).
  Hypothesis HB : forall cs, (forall i x, nth_error cs i = Some x -> P x) -> P (SB cs).
  Hypothesis HH : forall g, P (SH g).
  Lemma snode_ind' : forall s, P s.
  Proof.
    fix IH 1. intros [|k v|k c|cs|g]; [exact HE|apply HL|apply HX, IH|apply HB|apply HH].
    induction cs as [|y r IHr]; intros [|i] x Hx; try discriminate.
    - injection Hx as <-. apply IH.
    - exact (IHr i x Hx).
  Qed.
End SInd.

Lemma schild_app_spec {A} (f : snode -> A) d cs i :
  schild_app f d cs i = match nth_error cs i with Some x => f x | None => d end.
Proof. revert i. induction cs as [|x cs IH]; intros [|i]; cbn; auto. Qed.

Lemma sset_nth_length cs i n : length (sset_nth cs i n) = length cs.
Proof. revert i. induction cs as [|x cs IH]; intros [|i]; cbn; auto. Qed.

Lemma nth_error_sset_nth_eq cs i n : i < length cs -> nth_error (sset_nth cs i n) i = Some n.
Proof. revert i. induction cs as [|x cs IH]; intros [|i] H; cbn in *; try lia; auto. apply IH. lia. Qed.

Lemma nth_error_sset_nth_neq cs i j n : i <> j -> nth_error (sset_nth cs i n) j = nth_error cs j.
Proof.
  revert i j. induction cs as [|x cs IH]; intros [|i] [|j] H; cbn; auto; try congruence.
Qed.

Lemma map_sset_nth cs i x :
  map to_node (sset_nth cs i x) = set_nth (map to_node cs) i (to_node x).
Proof. revert i. induction cs as [|y cs IH]; intros [|i]; cbn; auto. f_equal. apply IH. Qed.

Lemma to_node_st_hash s : to_node (st_hash s) = to_node s.
Proof. destruct s; reflexivity. Qed.

Lemma hash_last_spec l :
  map to_node (fst (hash_last l)) = map to_node l /\ length (fst (hash_last l)) = length l.
Proof.
  induction l as [|x r [IH1 IH2]]; cbn [hash_last]; [auto|].
  destruct (hash_last r) as [r' found]. cbn [fst] in *.
  destruct found; cbn [fst map length]; [rewrite IH1, IH2; auto|].
  destruct (is_se x); cbn [fst map length]; [auto|]. rewrite to_node_st_hash. auto.
Qed.

Lemma hash_elder_map cs i : map to_node (hash_elder cs i) = map to_node cs.
Proof.
  unfold hash_elder. rewrite map_app. rewrite (proj1 (hash_last_spec _)), <- map_app, firstn_skipn.
  reflexivity.
Qed.

Lemma hash_elder_length cs i : length (hash_elder cs i) = length cs.
Proof.
  unfold hash_elder. rewrite app_length, (proj2 (hash_last_spec _)), <- app_length, firstn_skipn.
  reflexivity.
Qed.

Lemma hash_elder_nth cs i j : i <= j -> nth_error (hash_elder cs i) j = nth_error cs j.
Proof.
  intros Hij. unfold hash_elder.
  rewrite <- (firstn_skipn i cs) at 3.
  pose proof (proj2 (hash_last_spec (firstn i cs))) as Hl.
  assert (Hf : length (firstn i cs) <= i) by (rewrite firstn_length; lia).
  rewrite !nth_error_app2 by lia. rewrite Hl. reflexivity.
Qed.

Lemma to_node_sbranch2 a b n o :
  (a < 16)%N -> (b < 16)%N ->
  to_node (sbranch2 a b n o) = branch2 a b (to_node n) (to_node o).
Proof.
  intros Ha Hb. unfold sbranch2, branch2. cbn [to_node]. rewrite !map_sset_nth.
  change empty17 with (map to_node sempty16 ++ [Nil]).
  rewrite <- !set_nth_app_l; [reflexivity| |].
  - cbn. lia.
  - rewrite set_nth_length. cbn. lia.
Qed.

Lemma mk_short_snoc k x c : mk_short (k ++ [x]) c = Short (k ++ [x]) c.
Proof. destruct k; reflexivity. Qed.

Definition smk_short (k : hkey) (c : snode) : snode := match k with [] => c | _ => SX k c end.

Lemma to_node_smk_short k c : to_node (smk_short k c) = mk_short k (to_node c).
Proof. destruct k; reflexivity. Qed.

(* what the leaf case and the extension case of stacktrie.go:insert both do when the node's chunk
   p ++ y :: _ leaves the key p ++ x :: ra *)
Definition st_split (p : hkey) (y x : N) (old : snode) (ra : hkey) (v : val) : option snode :=
  if N.ltb y 16 && N.ltb x 16 then Some (smk_short p (sbranch2 y x (st_hash old) (SL ra v))) else None.

Lemma st_insert_SE key v : st_insert SE key v = Some (SL key v).
Proof. reflexivity. Qed.

Lemma st_insert_SL_stuck k ra v0 v : st_insert (SL k v0) (k ++ ra) v = None.
Proof. cbn [st_insert]. rewrite prefix_len_self_app, Nat.leb_refl. reflexivity. Qed.

Lemma st_insert_SL_split p ra y rb v0 v :
  match ra with x :: _ => x <> y | [] => True end ->
  st_insert (SL (p ++ y :: rb) v0) (p ++ ra) v =
  match ra with x :: ra' => st_split p y x (SL rb v0) ra' v | [] => None end.
Proof.
  intros Hd. cbn [st_insert]. rewrite (prefix_len_app p ra (y :: rb)) by (destruct ra; auto).
  replace (Nat.leb (length (p ++ y :: rb)) (length p)) with false
    by (symmetry; apply Nat.leb_gt; rewrite app_length; cbn; lia).
  rewrite nth_error_app_mid. destruct ra as [|x ra].
  - rewrite app_nil_r, (proj2 (nth_error_None p (length p))) by lia. reflexivity.
  - rewrite nth_error_app_mid, !skipn_S_app_mid, firstn_app_length. destruct p; reflexivity.
Qed.

Lemma st_insert_SX_match k c ra v :
  st_insert (SX k c) (k ++ ra) v =
  match st_insert c ra v with Some c' => Some (SX k c') | None => None end.
Proof. cbn [st_insert]. rewrite prefix_len_self_app, Nat.eqb_refl, skipn_app_length. reflexivity. Qed.

Lemma st_insert_SX_split p ra y rb c v :
  match ra with x :: _ => x <> y | [] => True end ->
  st_insert (SX (p ++ y :: rb) c) (p ++ ra) v =
  match ra with x :: ra' => st_split p y x (smk_short rb c) ra' v | [] => None end.
Proof.
  intros Hd. cbn [st_insert]. rewrite (prefix_len_app p ra (y :: rb)) by (destruct ra; auto).
  replace (Nat.eqb (length p) (length (p ++ y :: rb))) with false
    by (symmetry; apply Nat.eqb_neq; rewrite app_length; cbn; lia).
  rewrite nth_error_app_mid. destruct ra as [|x ra].
  - rewrite app_nil_r, (proj2 (nth_error_None p (length p))) by lia. reflexivity.
  - rewrite nth_error_app_mid, !skipn_S_app_mid, firstn_app_length, app_length.
    replace (Nat.ltb (length p) (length p + length (y :: rb) - 1)) with (negb (is_empty rb))
      by (symmetry; destruct rb; [apply Nat.ltb_ge|apply Nat.ltb_lt]; cbn; lia).
    destruct p, rb; reflexivity.
Qed.

Lemma st_insert_SB cs c rest v :
  st_insert (SB cs) (c :: rest) v =
  if Nat.ltb (N.to_nat c) 16 then
    match nth_error cs (N.to_nat c) with
    | Some x => match st_insert x rest v with
                | Some nn => Some (SB (sset_nth (hash_elder cs (N.to_nat c)) (N.to_nat c) nn))
                | None => None
                end
    | None => None
    end
  else None.
Proof.
  cbn [st_insert]. rewrite schild_app_spec.
  destruct (Nat.ltb (N.to_nat c) 16), (nth_error cs (N.to_nat c)); reflexivity.
Qed.

Lemma st_split_sim p y x old rb child ra v s' :
  x <> y -> to_node old = mk_short rb child -> st_split p y x old ra v = Some s' ->
  insert (Short (p ++ y :: rb) child) (p ++ x :: ra ++ [16%N]) (Val v) = Some (to_node s').
Proof.
  unfold st_split. intros Hn Hold Hs. destruct (N.ltb y 16 && N.ltb x 16) eqn:Hg; [|discriminate].
  injection Hs as <-. apply andb_true_iff in Hg as [Hy Hx]. apply N.ltb_lt in Hy, Hx.
  rewrite insert_Short_split by (try lia; congruence).
  rewrite mk_short_snoc, to_node_smk_short, to_node_sbranch2, to_node_st_hash, Hold by lia. reflexivity.
Qed.

Lemma st_insert_sim v : forall s key s',
  st_insert s key v = Some s' ->
  insert (to_node s) (key ++ [16%N]) (Val v) = Some (to_node s').
Proof.
  intros s. induction s as [|k v0|k c IH|cs IH|g] using snode_ind'; intros key s' Hs.
  - injection Hs as <-. cbn [to_node]. destruct key; reflexivity.
  - destruct (common_prefix key k) as (p & ra & rb & -> & -> & Hd).
    destruct rb as [|y rb]; [rewrite app_nil_r, st_insert_SL_stuck in Hs; discriminate|].
    rewrite st_insert_SL_split in Hs by exact Hd. destruct ra as [|x ra]; [discriminate|].
    cbn [to_node]. rewrite <- !app_assoc. cbn [app].
    apply (st_split_sim p y x (SL rb v0) _ _ ra v s' Hd (eq_sym (mk_short_snoc rb 16%N (Val v0))) Hs).
  - destruct (common_prefix key k) as (p & ra & rb & -> & -> & Hd).
    destruct rb as [|y rb].
    + rewrite app_nil_r in *. rewrite st_insert_SX_match in Hs.
      destruct (st_insert c ra v) as [c'|] eqn:Hc; [|discriminate]. injection Hs as <-.
      cbn [to_node]. rewrite <- app_assoc, insert_Short_match, (IH _ _ Hc); [reflexivity|].
      rewrite app_assoc. intros E. exact (app_cons_not_nil _ _ _ (eq_sym E)).
    + rewrite st_insert_SX_split in Hs by exact Hd. destruct ra as [|x ra]; [discriminate|].
      cbn [to_node]. rewrite <- !app_assoc. cbn [app].
      apply (st_split_sim _ _ _ _ _ _ _ _ _ Hd (to_node_smk_short rb c) Hs).
  - destruct key as [|c rest]; [discriminate|]. rewrite st_insert_SB in Hs.
    destruct (Nat.ltb (N.to_nat c) 16); [|discriminate].
    destruct (nth_error cs (N.to_nat c)) as [x|] eqn:Hx; [|discriminate].
    destruct (st_insert x rest v) as [nn|] eqn:Hi; [|discriminate]. injection Hs as <-.
    specialize (IH _ x Hx rest nn Hi).
    cbn [to_node app]. rewrite insert_Full.
    assert (Hlen : N.to_nat c < length (map to_node cs)).
    { rewrite map_length. apply nth_error_Some. congruence. }
    rewrite nth_error_app1 by exact Hlen. rewrite (map_nth_error to_node _ _ Hx), IH.
    rewrite map_sset_nth, hash_elder_map, set_nth_app_l by exact Hlen. reflexivity.
  - discriminate.
Qed.

(* the key inserted last runs along the rightmost open path of s: nothing on it is hashed and every
   branch on it has nothing right of it *)
Inductive on_spine : snode -> hkey -> Prop :=
| OS_L k v : on_spine (SL k v) k
| OS_X k c rest : on_spine c rest -> on_spine (SX k c) (k ++ rest)
| OS_B cs i rest x :
    (i < 16)%N -> length cs = 16 -> nth_error cs (N.to_nat i) = Some x -> on_spine x rest ->
    (forall j y, N.to_nat i < j -> nth_error cs j = Some y -> y = SE) ->
    on_spine (SB cs) (i :: rest).

Definition nib (k : hkey) : Prop := Forall (fun x => (x < 16)%N) k.

Lemma nib_mid p x r : nib (p ++ x :: r) -> (x < 16)%N.
Proof. intros H. apply Forall_app in H. destruct H as [_ H]. inversion H. assumption. Qed.

Lemma nib_suffix p r : nib (p ++ r) -> nib r.
Proof. intros H. apply Forall_app in H. apply H. Qed.

Lemma on_spine_split p y x n ra v :
  (y < x)%N -> (x < 16)%N ->
  on_spine (smk_short p (sbranch2 y x n (SL ra v))) (p ++ x :: ra).
Proof.
  intros Hlt Hx.
  assert (HB : on_spine (sbranch2 y x n (SL ra v)) (x :: ra)).
  { unfold sbranch2. apply OS_B with (x := SL ra v); auto.
    - rewrite !sset_nth_length. reflexivity.
    - apply nth_error_sset_nth_eq. rewrite sset_nth_length. cbn. lia.
    - constructor.
    - intros j z Hj Hz. rewrite !nth_error_sset_nth_neq in Hz by lia.
      exact (nth_error_repeat_inv SE 16 j z Hz). }
  destruct p as [|c p]; [exact HB|]. constructor. exact HB.
Qed.

Lemma st_split_spine p y x old rb ra v :
  (y < x)%N -> nib (p ++ y :: rb) -> nib (p ++ x :: ra) ->
  exists s', st_split p y x old ra v = Some s' /\ on_spine s' (p ++ x :: ra).
Proof.
  intros Hlt Hy%nib_mid Hx%nib_mid. unfold st_split.
  rewrite (proj2 (N.ltb_lt y 16) Hy), (proj2 (N.ltb_lt x 16) Hx). eexists. split; [reflexivity|].
  apply on_spine_split; assumption.
Qed.

Lemma on_spine_set cs i x rest :
  (i < 16)%N -> length cs = 16 -> on_spine x rest ->
  (forall j y, N.to_nat i < j -> nth_error cs j = Some y -> y = SE) ->
  on_spine (SB (sset_nth (hash_elder cs (N.to_nat i)) (N.to_nat i) x)) (i :: rest).
Proof.
  intros Hi Hlen Hx Hright. apply OS_B with (x := x); auto.
  - rewrite sset_nth_length, hash_elder_length. exact Hlen.
  - apply nth_error_sset_nth_eq. rewrite hash_elder_length. lia.
  - intros j y Hj Hy. rewrite nth_error_sset_nth_neq, hash_elder_nth in Hy by lia. eapply Hright; eauto.
Qed.

Lemma st_insert_ascending v : forall s last, on_spine s last ->
  forall key, div_lt last key = true -> nib last -> nib key ->
  exists s', st_insert s key v = Some s' /\ on_spine s' key.
Proof.
  intros s last Hos. induction Hos as [k v0|k c rest Hc IH|cs i rest x Hi Hlen Hx Hxs IH Hright];
    intros key Hd Hnl Hnk.
  - destruct (div_lt_spec _ _ Hd) as (p & a & ra & b & rb & -> & -> & Hlt).
    rewrite st_insert_SL_split by lia. eapply st_split_spine; eauto.
  - destruct (div_lt_app_l _ _ _ Hd) as [(key' & -> & Hd')|(p & a & ra & b & rb & -> & -> & Hlt)].
    + destruct (IH key' Hd' (nib_suffix _ _ Hnl) (nib_suffix _ _ Hnk)) as (c' & Hc' & Hos').
      rewrite st_insert_SX_match, Hc'. eexists. split; [reflexivity|]. constructor. exact Hos'.
    + rewrite <- app_assoc in Hnl. rewrite st_insert_SX_split by lia. eapply st_split_spine; eauto.
  - destruct key as [|j key']; [cbn in Hd; discriminate|].
    assert (Hj : (j < 16)%N) by (inversion Hnk; assumption).
    assert (Hnr : nib rest) by (inversion Hnl; assumption).
    assert (Hnk' : nib key') by (inversion Hnk; assumption).
    rewrite st_insert_SB.
    replace (Nat.ltb (N.to_nat j) 16) with true by (symmetry; apply Nat.ltb_lt; lia).
    cbn [div_lt] in Hd.
    destruct (N.eqb_spec i j) as [E|Hn].
    + subst j. rewrite Hx.
      destruct (IH key' Hd Hnr Hnk') as (x' & -> & Hos').
      eexists. split; [reflexivity|]. apply on_spine_set; assumption.
    + apply N.ltb_lt in Hd.
      destruct (nth_error cs (N.to_nat j)) as [y|] eqn:Hy;
        [|apply nth_error_None in Hy; lia].
      assert (y = SE) by (eapply Hright; [|exact Hy]; lia). subst y.
      rewrite st_insert_SE. eexists. split; [reflexivity|].
      apply on_spine_set; [assumption|assumption|constructor|].
      intros j' z Hj' Hz. eapply Hright; [|exact Hz]. lia.
Qed.

Definition okkv (kv : list N * list N) : Prop := wf_bytes (fst kv) /\ snd kv <> [].

Lemma st_update_insert s k v : v <> [] -> st_update s k v = st_insert s (nibbles k) v.
Proof. destruct v; [congruence|reflexivity]. Qed.

Lemma st_update_sim s k v s' :
  st_update s k v = Some s' -> update (to_node s) k v = Some (to_node s').
Proof.
  unfold st_update, update. destruct (is_empty v); [discriminate|]. rewrite hex_nibbles. apply st_insert_sim.
Qed.

Lemma st_run_sim l : forall s s', st_run s l = Some s' -> run (to_node s) l = Some (to_node s').
Proof.
  induction l as [|[k v] l IH]; intros s s' H; cbn [st_run run] in *; [injection H as <-; reflexivity|].
  destruct (st_update s k v) as [s1|] eqn:E; [|discriminate].
  rewrite (st_update_sim _ _ _ _ E). apply IH, H.
Qed.

Lemma st_run_from_spine : forall l s lastk,
  on_spine s (nibbles lastk) -> wf_bytes lastk -> Forall okkv l ->
  chain_div (lastk :: map fst l) = true -> exists s', st_run s l = Some s'.
Proof.
  induction l as [|[k v] l IH]; intros s lastk Hos Hw Hok Hch; [exists s; reflexivity|].
  inversion Hok as [|? ? [Hk Hv] Hok']; subst. cbn [fst snd] in Hk, Hv.
  cbn [map fst chain_div] in Hch. apply andb_true_iff in Hch as [Hd Hch].
  destruct (st_insert_ascending v s _ Hos (nibbles k) (div_lt_nibbles _ _ Hd)
              (nibbles_lt _ Hw) (nibbles_lt _ Hk)) as (s1 & Hs1 & Hos1).
  cbn [st_run]. rewrite (st_update_insert s k v Hv), Hs1.
  exact (IH s1 k Hos1 Hk Hok' Hch).
Qed.

Lemma stack_equals_trie l :
  Forall okkv l -> chain_div (map fst l) = true ->
  exists s, st_run SE l = Some s /\ run Nil l = Some (to_node s).
Proof.
  intros Hok Hch. assert (H : exists s, st_run SE l = Some s).
  { destruct l as [|[k v] l]; [exists SE; reflexivity|].
    inversion Hok as [|? ? [Hk Hv] Hok']; subst. cbn [fst snd] in Hk, Hv.
    cbn [st_run]. rewrite (st_update_insert SE k v Hv), st_insert_SE.
    exact (st_run_from_spine l _ k (OS_L _ _) Hk Hok' Hch). }
  destruct H as (s & Hs). exists s. split; [exact Hs|exact (st_run_sim l SE s Hs)].
Qed.
