(* C18 -- from hex keys to the KEYBYTES API (TryUpdate / TryDelete / TryGet), histories,
   and history independence of the node tree (hence of the root for any hash function). *)
From Coq Require Import List NArith.
From GQ Require Import Lib.Key Model.C18 Proofs.C18_Base Proofs.C18_Ext Proofs.C18_Insert Proofs.C18_Delete.
Import ListNotations.

Definition valid (q : hkey) : Prop := exists bs, wf_bytes bs /\ q = hex bs.

Definition Inv (t : node) : Prop :=
  wf t = true /\ forall q, lookup t q <> None -> valid q.

Lemma Inv_okdom t : Inv t -> okdom t.
Proof. intros [_ Hd] q Hq. destruct (Hd q Hq) as (bs & Hb & ->). apply hex_tk. exact Hb. Qed.

Lemma Inv_fits t k : Inv t -> wf_bytes k -> fits t (hex k).
Proof.
  intros [Hw Hd] Hk. split; [exact Hw|]. split; [|apply hex_tk, Hk].
  intros q Hq. destruct (Hd q Hq) as (bs & Hb & ->). split; apply hex_not_sprefix; auto.
Qed.

Lemma Inv_nil : Inv Nil.
Proof. split; [reflexivity|]. intros q Hq. exfalso. apply Hq. reflexivity. Qed.

Lemma sets_Inv t k o t' : Inv t -> wf_bytes k -> wf t' = true -> sets t (hex k) o t' ->
  Inv t' /\ forall k', get t' k' = if keqb k' k then match o with Some v => v | None => [] end else get t k'.
Proof.
  intros [_ Hd] Hk Hw Hl. split; [split; [exact Hw|]|].
  - intros q Hq. rewrite Hl in Hq. destruct (keqb q (hex k)) eqn:E; [|exact (Hd q Hq)].
    apply keqb_eq in E. subst q. exists k. auto.
  - intros k'. unfold get. rewrite Hl, keqb_hex. destruct (keqb k' k); reflexivity.
Qed.

Lemma update_correct t k v : Inv t -> wf_bytes k ->
  exists t', update t k v = Some t' /\ Inv t' /\ forall k', get t' k' = if keqb k' k then v else get t k'.
Proof.
  intros Hi Hk. unfold update. destruct v as [|b v]; cbn [is_empty].
  - destruct (delete_correct t (hex k) (Inv_fits t k Hi Hk) (Inv_okdom t Hi))
      as (d & t' & -> & Hw' & Hl). exists t'. split; [reflexivity|].
    exact (sets_Inv t k None t' Hi Hk Hw' Hl).
  - destruct (insert_correct (b :: v) ltac:(discriminate) t (hex k) (Inv_fits t k Hi Hk) (Inv_okdom t Hi))
      as (t' & -> & Hw' & Hl). exists t'. split; [reflexivity|].
    exact (sets_Inv t k (Some (b :: v)) t' Hi Hk (wfn_wf _ Hw') Hl).
Qed.

Definition hist := list (list N * list N).
Definition wf_hist (h : hist) : Prop := Forall (fun kv => wf_bytes (fst kv)) h.

(* the content a history leaves behind: last write wins, empty value = absent *)
Fixpoint apply_hist (f : list N -> list N) (h : hist) : list N -> list N :=
  match h with
  | [] => f
  | (k, v) :: h' => apply_hist (fun k' => if keqb k' k then v else f k') h'
  end.

Lemma apply_hist_ext f g h : (forall k, f k = g k) -> forall k, apply_hist f h k = apply_hist g h k.
Proof.
  revert f g. induction h as [|[k0 v0] h IH]; intros f g He k; cbn [apply_hist]; auto.
  apply IH. intros k'. destruct (keqb k' k0); auto.
Qed.

Lemma apply_hist_notin (h : hist) : forall f k, ~ In k (map fst h) -> apply_hist f h k = f k.
Proof.
  induction h as [|[k0 v0] h IH]; intros f k Hn; cbn [apply_hist]; [reflexivity|].
  rewrite IH by (intros Hi; apply Hn; right; exact Hi).
  destruct (keqb k k0) eqn:E; [|reflexivity].
  apply keqb_eq in E. subst. exfalso. apply Hn. left. reflexivity.
Qed.

Lemma apply_hist_nodup (h : hist) : forall f k v, NoDup (map fst h) -> In (k, v) h -> apply_hist f h k = v.
Proof.
  induction h as [|[k0 v0] h IH]; intros f k v Hnd Hin; [destruct Hin|].
  cbn [map fst] in Hnd. inversion Hnd as [|? ? Hnot Hnd']; subst.
  cbn [apply_hist]. destruct Hin as [Heq|Hin].
  - inversion Heq; subst. rewrite apply_hist_notin by exact Hnot. rewrite keqb_refl. reflexivity.
  - eapply IH; eauto.
Qed.

Lemma run_app a : forall t b,
  run t (a ++ b) = match run t a with Some t1 => run t1 b | None => None end.
Proof.
  induction a as [|[k v] a IH]; intros t b; cbn [app run]; auto.
  destruct (update t k v); auto.
Qed.

Lemma run_correct h : forall t, Inv t -> wf_hist h ->
  exists t', run t h = Some t' /\ Inv t' /\ forall k, get t' k = apply_hist (get t) h k.
Proof.
  induction h as [|[k v] h IH]; intros t Hi Hh.
  - exists t. auto.
  - inversion Hh as [|? ? Hk Hh']; subst. cbn [fst] in Hk.
    destruct (update_correct t k v Hi Hk) as (t1 & Hu & Hi1 & Hg1).
    destruct (IH t1 Hi1 Hh') as (t' & Hr & Hi' & Hg).
    exists t'. cbn [run]. rewrite Hu. split; [exact Hr|]. split; [exact Hi'|].
    intros k0. rewrite Hg. cbn [apply_hist]. apply apply_hist_ext, Hg1.
Qed.

Lemma content_determines_tree t1 t2 : Inv t1 -> Inv t2 ->
  (forall k, wf_bytes k -> get t1 k = get t2 k) -> t1 = t2.
Proof.
  intros [Hw1 Hd1] [Hw2 Hd2] Hg. apply wf_extensional; auto. intros q.
  assert (Hv : valid q -> lookup t1 q = lookup t2 q).
  { intros (bs & Hb & ->). specialize (Hg bs Hb). unfold get in Hg.
    destruct (lookup t1 (hex bs)) as [v1|] eqn:E1; destruct (lookup t2 (hex bs)) as [v2|] eqn:E2; auto.
    - congruence.
    - exfalso. apply (wf_values t1 Hw1 _ _ E1). exact Hg.
    - exfalso. apply (wf_values t2 Hw2 _ _ E2). auto. }
  destruct (lookup t1 q) as [v1|] eqn:E1.
  - apply Hv. apply Hd1. congruence.
  - destruct (lookup t2 q) as [v2|] eqn:E2; auto.
    apply Hv. apply Hd2. congruence.
Qed.

Lemma history_independent h1 h2 : wf_hist h1 -> wf_hist h2 ->
  (forall k, wf_bytes k -> apply_hist (fun _ => []) h1 k = apply_hist (fun _ => []) h2 k) ->
  exists t, run Nil h1 = Some t /\ run Nil h2 = Some t.
Proof.
  intros H1 H2 He.
  destruct (run_correct h1 Nil Inv_nil H1) as (t1 & R1 & I1 & G1).
  destruct (run_correct h2 Nil Inv_nil H2) as (t2 & R2 & I2 & G2).
  exists t1. split; [exact R1|]. rewrite R2. f_equal. apply content_determines_tree; auto.
  (* [get Nil] is the empty content [fun _ => []] by computation *)
  intros k Hk. rewrite G1, G2. symmetry. apply He, Hk.
Qed.
