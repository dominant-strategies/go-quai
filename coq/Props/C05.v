(* C05 -- Sending value off-chain is all-or-nothing at the origin.
   Property theorems, each followed by [Print Assumptions].  Model: Model/C05.v   Lemmas: Proofs/C05*.v
   Generated data (constants, jump-table rows, source order): Generated/C05Params.v

   [all_or_nothing value fee idx r] (Proofs/C05.v) is the property for one operation:
     success: status word 1 /\ debit = value + fee /\ exactly one ETX with that value at index idx
     failure: status word 0 /\ no debit /\ no ETX            (exactly one status word either way). *)
From Coq Require Import List NArith Bool.
From GQ Require Import Generated.C05Params Lib.C05_Slice Model.C05 Proofs.C05 Proofs.C05_Block Proofs.C05_Claim.
(* not used by the theorems: required here so that the number library of the harness-written case files is part of the
   cone the check builds (on a freshly cleaned tree nothing else would compile it) *)
From GQ Require Lib.C05_Num.
Import ListNotations.
Local Open Scope N_scope.

(* ---------------- ETX opcode (core/vm/instructions.go:opETX) ---------------- *)

(* FULL STATEMENT (refuted on the code as it is):
     forall c self bal idx alok addr value gl tip cap asz,
       all_or_nothing value ((tip+cap)*gl) idx (op_etx c self bal idx alok addr value gl tip cap asz).
   The debit (StateDB.SubBalance) precedes the access-list decode, the index-overflow check and the
   eligibility check; the eligibility branch and the sender check return without pushing a status word.
   Findings F2 (design/C05.findings.json); the witnesses are corpus cases of harness/cmd/c05. *)
Theorem send_all_or_nothing_op_etx_refuted :
  exists c self bal idx alok addr value gl tip cap asz,
    ~ all_or_nothing value (etx_fee gl tip cap) idx (op_etx c self bal idx alok addr value gl tip cap asz).
Proof. exact etx_aon_refuted. Qed.
Print Assumptions send_all_or_nothing_op_etx_refuted.

Theorem op_etx_bad_access_list_keeps_debit :
  let r := op_etx (wit_ctx wit_post 2 []) wit_self e21 0 false wit_to 12345 21000 1 2 3 in
  r_push r = Some 0 /\ r_debit r = 12345 + (1 + 2) * 21000 /\ r_emit r = None.
Proof. exact etx_bad_access_list_witness. Qed.
Print Assumptions op_etx_bad_access_list_keeps_debit.

Theorem op_etx_index_overflow_keeps_debit :
  let r := op_etx (wit_ctx wit_post 2 []) wit_self e21 65536 true wit_to 12345 21000 1 2 0 in
  r_push r = Some 0 /\ r_debit r = 12345 + (1 + 2) * 21000 /\ r_emit r = None.
Proof. rewrite op_etx_shape, wit_to_word, wit_to_foreign, wit_self_quai, wit_to_eligible. vm_compute. auto. Qed.
Print Assumptions op_etx_index_overflow_keeps_debit.

Theorem op_etx_ineligible_pushes_nothing_keeps_debit :
  let r := op_etx (wit_ctx wit_post 0 []) wit_self e21 0 true wit_to 12345 21000 1 2 0 in
  r_push r = None /\ r_debit r = 12345 + (1 + 2) * 21000 /\ r_emit r = None.
Proof. rewrite op_etx_shape, wit_to_word, wit_to_foreign, wit_self_quai, wit_to_eligible. vm_compute. auto. Qed.
Print Assumptions op_etx_ineligible_pushes_nothing_keeps_debit.

(* before SelfDestructRefundForkBlock the amounts wrap modulo 2^256: the ETX carries 2^256-1, 62999 is debited *)
Theorem op_etx_prefork_amount_wraps :
  let r := op_etx (wit_ctx wit_pre 2 []) wit_self e21 0 true wit_to (W256 - 1) 21000 1 2 0 in
  r_push r = Some 1 /\ r_debit r = 62999 /\ exists e, r_emit r = Some e /\ e_value e = W256 - 1.
Proof.
  rewrite op_etx_shape, wit_to_word, wit_to_foreign, wit_self_quai, wit_to_eligible.
  vm_compute. split; [reflexivity|]. split; [reflexivity|]. eexists. split; reflexivity.
Qed.
Print Assumptions op_etx_prefork_amount_wraps.

(* PARTIAL (strongest true statement): in every fork regime and for ALL inputs whose amounts do not wrap,
   the operation is all-or-nothing EXACTLY when the input is outside the listed branches
   ([etx_defect]: destination out of scope and (sender not an in-zone Quai address, or the debit is
   reached and then the access list is malformed / the cache holds more than 65535 entries / the
   destination is ineligible)). *)
Theorem send_all_or_nothing_op_etx_partial : forall c self bal idx alok addr value gl tip cap asz,
  etx_amount_wraps c value gl tip cap = false ->
  (all_or_nothing value (etx_fee gl tip cap) idx (op_etx c self bal idx alok addr value gl tip cap asz)
   <-> etx_defect c self bal idx alok addr value gl tip cap asz = false).
Proof.
  intros c self bal idx alok addr value gl tip cap asz Hw. rewrite op_etx_shape.
  apply send_op_aon; [|reflexivity|reflexivity].
  intros t D. apply etx_debit_reached in D. destruct D as [Tnz [_ Tx]]. auto.
Qed.
Print Assumptions send_all_or_nothing_op_etx_partial.

(* after the fork no amount wraps: the characterisation holds for every input *)
Theorem op_etx_post_fork_never_wraps : forall c value gl tip cap,
  post_fork c = true -> etx_amount_wraps c value gl tip cap = false.
Proof. intros c value gl tip cap H. unfold etx_amount_wraps. rewrite H. reflexivity. Qed.
Print Assumptions op_etx_post_fork_never_wraps.

(* exactly one status word, except on precisely these inputs (stack discipline of the jump-table row: pops 10, pushes 1) *)
Theorem op_etx_status_word_missing_iff : forall c self bal idx alok addr value gl tip cap asz,
  r_push (op_etx c self bal idx alok addr value gl tip cap asz) = None <->
  negb (in_scope (x_pfx c) (addr mod W160)) &&
  (negb (internal_quai (x_pfx c) self) ||
   match etx_debit c bal value gl tip cap with
   | Some _ => (alok || (asz =? 0)) && negb (MaxUint16 <? idx) && negb (eligible c (addr mod W160))
   | None => false
   end) = true.
Proof.
  intros. rewrite op_etx_shape, send_op_no_status.
  destruct (etx_debit c bal value gl tip cap); [|reflexivity].
  destruct alok, (asz =? 0), (MaxUint16 <? idx), (eligible c (addr mod W160)); reflexivity.
Qed.
Print Assumptions op_etx_status_word_missing_iff.

(* an ETX is recorded iff the operation reports success; it carries the value, the fresh index, the sender *)
Theorem op_etx_records_iff_reports_success : forall c self bal idx alok addr value gl tip cap asz,
  r_emit (op_etx c self bal idx alok addr value gl tip cap asz) <> None <->
  r_push (op_etx c self bal idx alok addr value gl tip cap asz) = Some 1.
Proof.
  intros. rewrite op_etx_shape. apply send_op_emit_iff.
  destruct (negb alok && negb (asz =? 0) || (MaxUint16 <? idx)); discriminate.
Qed.
Print Assumptions op_etx_records_iff_reports_success.

Theorem op_etx_recorded_etx_shape : forall c self bal idx alok addr value gl tip cap asz e,
  r_emit (op_etx c self bal idx alok addr value gl tip cap asz) = Some e ->
  e_index e = idx /\ e_value e = value /\ e_sender e = self /\ e_to e = addr mod W160 /\ e_type e = EtxDefaultType
  /\ idx <= MaxUint16.
Proof.
  intros c self bal idx alok addr value gl tip cap asz e H.
  rewrite op_etx_shape in H. apply send_op_emit in H. destruct H as [-> L].
  apply orb_false_iff in L. destruct L as [L _]. apply orb_false_iff in L. destruct L as [_ L]. apply N.ltb_ge in L.
  cbn. auto 6.
Qed.
Print Assumptions op_etx_recorded_etx_shape.

(* ---------------- CONVERT opcode (core/vm/instructions.go:opConvert) ---------------- *)

(* FULL STATEMENT (refuted): forall c self bal idx addr value gl,
     all_or_nothing value (x_price c * gl) idx (op_convert c self bal idx addr value gl).
   Finding F3: the index-overflow branch sits after the debit. *)
Theorem send_all_or_nothing_op_convert_refuted :
  exists c self bal idx addr value gl,
    ~ all_or_nothing value (convert_fee c gl) idx (op_convert c self bal idx addr value gl).
Proof. exact convert_aon_refuted. Qed.
Print Assumptions send_all_or_nothing_op_convert_refuted.

Theorem op_convert_index_overflow_keeps_debit :
  let r := op_convert (wit_ctx wit_post 0 []) wit_self e21 65536 wit_qi MinQuaiConversionAmount 30000 in
  r_push r = Some 0 /\ r_debit r = MinQuaiConversionAmount + 1000000000 * 30000 /\ r_emit r = None.
Proof. exact convert_index_overflow_witness. Qed.
Print Assumptions op_convert_index_overflow_keeps_debit.

Theorem op_convert_prefork_amount_wraps :
  let r := op_convert (wit_ctx wit_pre 0 []) wit_self e21 0 wit_qi (W256 - 1) 21000 in
  r_push r = Some 1 /\ r_debit r = 20999999999999 /\ exists e, r_emit r = Some e /\ e_value e = W256 - 1.
Proof.
  rewrite op_convert_shape. unfold convert_guard. rewrite wit_qi_word, wit_qi_local, wit_qi_qi, wit_self_quai.
  vm_compute. split; [reflexivity|]. split; [reflexivity|]. eexists. split; reflexivity.
Qed.
Print Assumptions op_convert_prefork_amount_wraps.

Theorem send_all_or_nothing_op_convert_partial : forall c self bal idx addr value gl,
  convert_amount_wraps c value gl = false ->
  (all_or_nothing value (convert_fee c gl) idx (op_convert c self bal idx addr value gl)
   <-> convert_defect c self bal idx addr value gl = false).
Proof.
  intros c self bal idx addr value gl Hw. rewrite op_convert_shape.
  apply send_op_aon; [|reflexivity|reflexivity].
  intros t D. apply convert_debit_reached in D. destruct D as [Tnz [_ Tx]]. auto.
Qed.
Print Assumptions send_all_or_nothing_op_convert_partial.

Theorem op_convert_status_word_missing_iff : forall c self bal idx addr value gl,
  r_push (op_convert c self bal idx addr value gl) = None <->
  convert_guard c addr value && negb (internal_quai (x_pfx c) self) = true.
Proof.
  intros. rewrite op_convert_shape, send_op_no_status.
  destruct (convert_debit c bal value gl); [rewrite andb_false_r|]; rewrite orb_false_r; reflexivity.
Qed.
Print Assumptions op_convert_status_word_missing_iff.

Theorem op_convert_records_iff_reports_success : forall c self bal idx addr value gl,
  r_emit (op_convert c self bal idx addr value gl) <> None <->
  r_push (op_convert c self bal idx addr value gl) = Some 1.
Proof. intros. rewrite op_convert_shape. apply send_op_emit_iff. discriminate. Qed.
Print Assumptions op_convert_records_iff_reports_success.

(* ---------------- plain call to an out-of-scope address (EVM.Call -> EVM.CreateETX) ---------------- *)

(* FULL STATEMENT, proved: Call's snapshot/revert makes CreateETX all-or-nothing although its
   index-overflow and eligibility checks also follow the debit.  The prepaid destination fee is the
   forwarded gas (gas - ETXGas), bought by the transaction; the balance debit is exactly the value. *)
Theorem send_all_or_nothing_create_etx_call : forall fuel c ro depth caller addr gas value w,
  internal_quai (x_pfx c) addr = false ->
  let r := call (S fuel) c (FK CkCall) ro depth caller addr gas value w in
  (c_err r = 0 /\ c_gas r = 0 /\ value <= getb caller (w_bal w) /\
   w_bal (c_world r) = subb caller value (w_bal w) /\
   exists e, w_etxs (c_world r) = w_etxs w ++ [e] /\ e_value e = value /\ e_index e = lenN (w_etxs w) /\
             e_gas e = gas - ETXGas /\ e_to e = addr /\ e_sender e = caller)
  \/ (c_err r <> 0 /\ c_world r = w).
Proof.
  intros fuel c ro depth caller addr gas value w Hi. cbn zeta. cbn [call].
  destruct (CallCreateDepth <? depth); [right; cbn; split; [discriminate|reflexivity]|].
  destruct (negb (value =? 0) && negb (can_transfer c w caller value)); [right; cbn; split; [discriminate|reflexivity]|].
  destruct (reserved addr); [right; cbn; split; [discriminate|reflexivity]|].
  rewrite Hi. cbn [negb].
  destruct (create_etx c caller (getb caller (w_bal w)) (lenN (w_etxs w)) addr gas value) as [ok r] eqn:CE.
  destruct ok; [|right; cbn; split; [discriminate|reflexivity]].
  apply create_etx_ok_shape in CE. destruct CE as [[ty ->] [Dle _]].
  left. cbn. repeat split; auto. eexists. repeat split; reflexivity.
Qed.
Print Assumptions send_all_or_nothing_create_etx_call.

(* ---------------- frames of every kind ----------------
   [call fuel c k ro depth caller addr gas value w] is EVM.Call (k = FK CkCall), EVM.CallCode (FK CkCallCode),
   EVM.DelegateCall (FK CkDelegate), EVM.StaticCall (FK CkStatic) or EVM.Create / Create2 + create
   (FCreate init naddr grind); the programs may use CALL, CALLCODE, DELEGATECALL, STATICCALL, CREATE and CREATE2
   to any depth.  The statements below with a kind k quantify over the kind of the outermost frame as well. *)

(* FULL STATEMENT (refuted on the code as it is): a frame that returns an error leaves balances and the ETX
   list exactly as they were:
     forall fuel c k ro depth caller addr gas value w,
       c_err (call fuel c k ro depth caller addr gas value w) <> 0 -> c_world (call ...) = w.
   Constructors break it: evm.go:create does not restore its snapshot after ErrCodeStoreOutOfGas (the pre-Homestead
   rule of go-ethereum), so a constructor that sends and then returns more code than its gas can pay for makes
   CREATE push 0 while the endowment, the send's debit and its ETX all stay.  The send itself remains
   all-or-nothing (the ETX is backed by the debit of the new account); what is wrong is the report of the frame.
   Finding create:code-store-out-of-gas (design/C05.findings.json); the witness is a corpus case of the harness. *)
Theorem failed_frame_leaves_no_trace_refuted :
  exists fuel c k ro depth caller addr gas value w,
    c_err (call fuel c k ro depth caller addr gas value w) <> 0 /\
    c_world (call fuel c k ro depth caller addr gas value w) <> w.
Proof. exact failed_frame_no_trace_refuted. Qed.
Print Assumptions failed_frame_leaves_no_trace_refuted.

Theorem constructor_code_store_out_of_gas_keeps_effects :
  let r := call 5 (wit_ctx wit_post 2 []) (FCreate wit_ctor_big_code wit_new 0) false 0 wit_self 0 2000000 1000000 wit_world in
  c_err r = 6 /\
  w_etxs (c_world r) = [mkEtx wit_to wit_new 12345 0 EtxDefaultType 21000] /\
  getb wit_new (w_bal (c_world r)) = 1000000 - 75345 /\ getb wit_self (w_bal (c_world r)) = e21 - 1000000.
Proof. exact ctor_code_store_witness. Qed.
Print Assumptions constructor_code_store_out_of_gas_keeps_effects.

(* PROVED in full for the four message-call kinds: a CALL / CALLCODE / DELEGATECALL / STATICCALL frame that returns
   an error (fault, REVERT, depth, balance, write protection, bad target, CreateETX error, an error re-raised from
   below ...) leaves balances and the ETX list exactly as they were -- for every program, to any depth *)
Theorem failed_call_leaves_no_trace : forall fuel c k ro depth caller addr gas value w,
  c_err (call fuel c (FK k) ro depth caller addr gas value w) <> 0 ->
  c_world (call fuel c (FK k) ro depth caller addr gas value w) = w.
Proof.
  intros fuel c k ro depth caller addr gas value w H.
  pose proof (call_frame_ok fuel c (FK k) ro depth caller addr gas value w) as F.
  exact (fr_reverted F H (fr_message_call F k eq_refl)).
Qed.
Print Assumptions failed_call_leaves_no_trace.

(* PARTIAL for constructors (strongest true statement): every error except ErrCodeStoreOutOfGas (class 6) *)
Theorem failed_frame_leaves_no_trace_partial : forall fuel c k ro depth caller addr gas value w,
  c_err (call fuel c k ro depth caller addr gas value w) <> 0 ->
  c_err (call fuel c k ro depth caller addr gas value w) <> 6 ->
  c_world (call fuel c k ro depth caller addr gas value w) = w.
Proof.
  intros fuel c k ro depth caller addr gas value w.
  exact (fr_reverted (call_frame_ok fuel c k ro depth caller addr gas value w)).
Qed.
Print Assumptions failed_frame_leaves_no_trace_partial.

(* the ETX list after a frame = the list before ++ the ETXs recorded by the operations of frames that
   were not reverted, in execution order ([emitted]: an EvCall -- a frame of ANY kind -- contributes its
   sub-trace only if it was kept; [kept r] = no error, or the constructors' ErrCodeStoreOutOfGas); by the two
   records_iff_reports_success theorems these are exactly the operations that pushed 1 *)
Theorem outbound_set_is_successful_ops : forall fuel c k ro depth caller addr gas value w,
  let r := call fuel c k ro depth caller addr gas value w in
  w_etxs (c_world r) = w_etxs w ++ (if kept r then emitted_all (c_tr r) else []).
Proof.
  intros fuel c k ro depth caller addr gas value w.
  exact (eff_etxs (fr_effect (call_frame_ok fuel c k ro depth caller addr gas value w))).
Qed.
Print Assumptions outbound_set_is_successful_ops.

(* indices are the positions 0,1,2,... without gaps *)
Theorem outbound_indices_are_positions : forall fuel c k ro depth caller addr gas value w,
  indices_ok (w_etxs w) -> indices_ok (w_etxs (c_world (call fuel c k ro depth caller addr gas value w))).
Proof.
  intros fuel c k ro depth caller addr gas value w H.
  pose proof (fr_effect (call_frame_ok fuel c k ro depth caller addr gas value w)) as E.
  rewrite (eff_etxs E). exact (seq_from_app 0 _ _ H (eff_indices E)).
Qed.
Print Assumptions outbound_indices_are_positions.

(* value leaves the accounts only through the debits of send operations in non-reverted frames
   (transfers between accounts -- CALL value, constructor endowment -- are neutral, reverted frames give
   everything back) *)
Theorem value_leaves_only_through_send_operations : forall fuel c k ro depth caller addr gas value w,
  let r := call fuel c k ro depth caller addr gas value w in
  sumb (w_bal (c_world r)) + (if kept r then debited_all (c_tr r) else 0) = sumb (w_bal w).
Proof.
  intros fuel c k ro depth caller addr gas value w.
  exact (eff_value (fr_effect (call_frame_ok fuel c k ro depth caller addr gas value w))).
Qed.
Print Assumptions value_leaves_only_through_send_operations.

(* a STATICCALL frame (and whatever it calls) neither debits anybody nor records an ETX: ETX, CONVERT, CREATE,
   CREATE2 and value-carrying CALLs are write-protected (the "writes" flags come from the generated jump-table
   rows) and the flag is inherited by every frame below *)
Theorem static_frame_sends_nothing : forall fuel c ro depth caller addr gas value w,
  c_world (call fuel c (FK CkStatic) ro depth caller addr gas value w) = w.
Proof.
  intros fuel c ro depth caller addr gas value w.
  exact (fr_read_only (call_frame_ok fuel c (FK CkStatic) ro depth caller addr gas value w) I).
Qed.
Print Assumptions static_frame_sends_nothing.

(* ... more generally every frame function reached while interpreter.readOnly is set ([ro_args]) *)
Theorem read_only_frames_send_nothing : forall fuel c k ro depth caller addr gas value w,
  ro_args c k ro addr value -> c_world (call fuel c k ro depth caller addr gas value w) = w.
Proof.
  intros fuel c k ro depth caller addr gas value w.
  exact (fr_read_only (call_frame_ok fuel c k ro depth caller addr gas value w)).
Qed.
Print Assumptions read_only_frames_send_nothing.

(* FULL transaction-level statement (refuted, consequence of F2): "a successful transaction loses
   exactly what its recorded ETXs carry".  Witness: the frame does not fault, 75345 is gone, no ETX. *)
Theorem transaction_loses_value_without_etx_refuted :
  exists fuel c caller addr gas value w,
    let r := call fuel c (FK CkCall) false 0 caller addr gas value w in
    c_err r = 0 /\ emitted_all (c_tr r) = [] /\ sumb (w_bal (c_world r)) < sumb (w_bal w).
Proof. exact tx_aon_refuted. Qed.
Print Assumptions transaction_loses_value_without_etx_refuted.

(* ---------------- lockup precompile: UnwrapQi under EVM.Call (core/vm/contracts.go, evm.go lockup branch) ---------------- *)

(* [unwrap_aon]: success: slot debited by exactly the value, gas limit taken from the gas, one ETX (value,
   fresh index, type UnwrapQi);  failure: slot and ETX list unchanged.
   FULL statement (all fork regimes) is refuted: before ShaEquivalentDifficultyForkBlock Call does not restore
   the snapshot after a failing lockup call and UnwrapQi checks the index after SetState. *)
Theorem send_all_or_nothing_unwrap_qi_call_refuted :
  exists c owner gas wrapped etxs benef value gl,
    ~ unwrap_aon owner gas wrapped etxs benef value gl (call_unwrap c owner gas wrapped etxs benef value gl).
Proof. exact unwrap_aon_refuted. Qed.
Print Assumptions send_all_or_nothing_unwrap_qi_call_refuted.

(* PARTIAL = full from the fork on, and before the fork for every input outside the index-overflow branch *)
Theorem send_all_or_nothing_unwrap_qi_call_partial : forall c owner gas wrapped etxs benef value gl,
  (ShaEquivalentDifficultyForkBlock <=? x_ptn c) || (lenN etxs <=? MaxUint16) = true ->
  unwrap_aon owner gas wrapped etxs benef value gl (call_unwrap c owner gas wrapped etxs benef value gl).
Proof.
  intros c owner gas wrapped etxs benef value gl H. rewrite call_unwrap_spec.
  destruct (unwrap_due c owner gas wrapped benef value gl) eqn:D; [|right; auto].
  rewrite (N.leb_antisym MaxUint16) in H.
  destruct (MaxUint16 <? lenN etxs).
  - rewrite orb_false_r in H. rewrite H. right. auto.
  - left. unfold unwrap_due in D. apply andb_prop in D. destruct D as [_ V]. apply N.leb_le in V.
    repeat split; auto. eexists. split; [reflexivity|]. cbn. repeat split; reflexivity.
Qed.
Print Assumptions send_all_or_nothing_unwrap_qi_call_partial.

(* ---------------- the model's reading of the source is the current one ---------------- *)

Theorem jump_table_rows_as_modelled : rows_as_modelled = true.
Proof. vm_compute. reflexivity. Qed.
Print Assumptions jump_table_rows_as_modelled.

Theorem source_order_as_modelled : sources_as_modelled = true.
Proof. vm_compute. reflexivity. Qed.
Print Assumptions source_order_as_modelled.

Theorem fork_heights_as_modelled : forks_as_modelled = true.
Proof. vm_compute. reflexivity. Qed.
Print Assumptions fork_heights_as_modelled.

(* ---------------- non-vacuity ---------------- *)

(* an input outside the defect branches, with amounts that do not wrap: success *)
Example op_etx_partial_nonvacuous :
  etx_amount_wraps (wit_ctx wit_post 2 []) 12345 21000 1 2 = false /\
  etx_defect (wit_ctx wit_post 2 []) wit_self e21 7 true wit_to 12345 21000 1 2 0 = false /\
  op_etx (wit_ctx wit_post 2 []) wit_self e21 7 true wit_to 12345 21000 1 2 0
  = mkRes 75345 (Some 1) (Some (mkEtx wit_to wit_self 12345 7 EtxDefaultType 21000)).
Proof.
  unfold etx_defect, etx_post_debit_failure.
  rewrite op_etx_shape, wit_to_word, wit_to_foreign, wit_self_quai, wit_to_eligible. vm_compute. auto.
Qed.

(* and a pre-fork one *)
Example op_etx_partial_prefork_nonvacuous :
  etx_amount_wraps (wit_ctx wit_pre 2 []) 12345 21000 1 2 = false /\
  etx_defect (wit_ctx wit_pre 2 []) wit_self e21 0 true wit_to 12345 21000 1 2 0 = false /\
  r_push (op_etx (wit_ctx wit_pre 2 []) wit_self e21 0 true wit_to 12345 21000 1 2 0) = Some 1.
Proof.
  unfold etx_defect, etx_post_debit_failure.
  rewrite op_etx_shape, wit_to_word, wit_to_foreign, wit_self_quai, wit_to_eligible. vm_compute. auto.
Qed.

Example op_convert_partial_nonvacuous :
  convert_amount_wraps (wit_ctx wit_post 0 []) MinQuaiConversionAmount 21000 = false /\
  convert_defect (wit_ctx wit_post 0 []) wit_self e21 0 wit_qi MinQuaiConversionAmount 21000 = false /\
  op_convert (wit_ctx wit_post 0 []) wit_self e21 0 wit_qi MinQuaiConversionAmount 21000
  = mkRes (MinQuaiConversionAmount + 21000000000000) (Some 1)
          (Some (mkEtx wit_qi wit_self MinQuaiConversionAmount 0 EtxConversionType 21000)).
Proof.
  rewrite op_convert_shape. unfold convert_defect, convert_guard. rewrite wit_qi_word, wit_qi_local, wit_qi_qi, wit_self_quai.
  vm_compute. auto.
Qed.

Example unwrap_qi_nonvacuous :
  call_unwrap (wit_ctx wit_post 0 []) wit_self 100000 5000 [] wit_qi 1200 30000
  = (true, 70000, 3800, [mkEtx wit_qi wit_self 1200 0 EtxUnwrapQiType 30000]) /\
  (let res := call_unwrap (wit_ctx wit_post 0 []) wit_self 100000 5000 (prefilled 65536) wit_qi 1200 30000 in
   fst (fst (fst res)) = false /\ snd (fst res) = 5000 /\ lenN (snd res) = 65536).
Proof.
  split; [rewrite call_unwrap_spec, wit_unwrap_due; reflexivity|].
  cbv zeta. rewrite call_unwrap_overflow; [|rewrite wit_unwrap_due; reflexivity|rewrite lenN_prefilled; reflexivity].
  cbn [fst snd]. rewrite lenN_prefilled. auto.
Qed.

(* top-level call to a foreign address: one ETX, debit = value, gas forwarded *)
Example create_etx_call_nonvacuous :
  let r := call 3 (wit_ctx wit_post 2 []) (FK CkCall) false 0 wit_origin wit_to 50000 1000 wit_world in
  c_err r = 0 /\ w_etxs (c_world r) = [mkEtx wit_to wit_origin 1000 0 EtxDefaultType 29000] /\
  getb wit_origin (w_bal (c_world r)) = e21 - 1000.
Proof. vm_compute. auto. Qed.

(* ... and to an ineligible one: the debit is reverted by Call *)
Example create_etx_call_failure_nonvacuous :
  let r := call 3 (wit_ctx wit_post 0 []) (FK CkCall) false 0 wit_origin wit_to 50000 1000 wit_world in
  c_err r = 2 /\ c_world r = wit_world.
Proof. vm_compute. auto. Qed.

(* F2 with an empty stack below: the POP after the ETX underflows, the frame faults, nothing is left *)
Example failed_call_nonvacuous :
  let r := call 5 (wit_ctx wit_post 0 [(wit_self, wit_prog_inelig false)]) (FK CkCall) false 0 wit_origin wit_self 10000000 0 wit_world in
  c_err r = 2 /\ c_world r = wit_world /\
  c_tr r = [EvOp 0 (mkRes 75345 None None)].
Proof. vm_compute. auto. Qed.

(* F2 with one word below: the POP eats it, the transaction succeeds and 75345 has vanished *)
Example no_status_word_loss_nonvacuous :
  let r := call 5 (wit_ctx wit_post 0 [(wit_self, wit_prog_inelig true)]) (FK CkCall) false 0 wit_origin wit_self 10000000 0 wit_world in
  c_err r = 0 /\ w_etxs (c_world r) = [] /\ sumb (w_bal (c_world r)) + 75345 = sumb (w_bal wit_world).
Proof. vm_compute. auto. Qed.

(* nested frames: parent sends, child sends and reverts, parent sends again: indices 0,1 *)
Example outbound_set_nonvacuous :
  let send := [IPush 0; IPush 0; IPush 0; IPush 0; IPush 2; IPush 1; IPush 21000; IPush 12345; IPush wit_to; IPush 0; IEtx false; IPop] in
  let child := 0x0003b2b2b2b2b2b2b2b2b2b2b2b2b2b2b2b2b2b2 in
  let parent := send ++ [IPush 0; IPush 0; IPush 0; IPush 0; IPush 0; IPush child; IPush 500000; ICallK CkCall; IPop] ++ send ++ [IStop] in
  let c := wit_ctx wit_post 2 [(wit_self, parent); (child, send ++ [IPush 0; IPush 0; IRevert])] in
  let w := mkW [(wit_origin, e21); (wit_self, e21); (child, e21)] [] in
  let r := call 6 c (FK CkCall) false 0 wit_origin wit_self 10000000 0 w in
  c_err r = 0 /\
  map e_index (w_etxs (c_world r)) = [0; 1] /\ map e_sender (w_etxs (c_world r)) = [wit_self; wit_self] /\
  getb child (w_bal (c_world r)) = e21 /\ getb wit_self (w_bal (c_world r)) = e21 - 2 * 75345 /\
  emitted_all (c_tr r) = w_etxs (c_world r).
Proof. vm_compute. repeat split; reflexivity. Qed.

(* the same through CALLCODE and DELEGATECALL: the child's code runs as the parent, so the child's send is the
   PARENT's send (sender and debit); it disappears together with its debit when the child frame reverts *)
Definition ex_send : list instr :=
  [IPush 0; IPush 0; IPush 0; IPush 0; IPush 2; IPush 1; IPush 21000; IPush 12345; IPush wit_to; IPush 0; IEtx false; IPop].
Definition ex_child : N := 0x0003b2b2b2b2b2b2b2b2b2b2b2b2b2b2b2b2b2b2.
Definition ex_callk (k : ckind) : list instr :=
  [IPush 0; IPush 0; IPush 0; IPush 0] ++ (match k with CkCall | CkCallCode => [IPush 0] | _ => [] end) ++
  [IPush ex_child; IPush 500000; ICallK k; IPop].
Definition ex_run (k : ckind) (child_end : list instr) : cres :=
  let parent := ex_send ++ ex_callk k ++ ex_send ++ [IStop] in
  let c := wit_ctx wit_post 2 [(wit_self, parent); (ex_child, ex_send ++ child_end)] in
  call 6 c (FK CkCall) false 0 wit_origin wit_self 10000000 0 (mkW [(wit_origin, e21); (wit_self, e21); (ex_child, e21)] []).

Example outbound_set_reverted_callcode_delegatecall_nonvacuous :
  forall k, k = CkCallCode \/ k = CkDelegate ->
  let r := ex_run k [IPush 0; IPush 0; IRevert] in
  c_err r = 0 /\
  map e_index (w_etxs (c_world r)) = [0; 1] /\ map e_sender (w_etxs (c_world r)) = [wit_self; wit_self] /\
  getb ex_child (w_bal (c_world r)) = e21 /\ getb wit_self (w_bal (c_world r)) = e21 - 2 * 75345 /\
  emitted_all (c_tr r) = w_etxs (c_world r).
Proof. intros k [H|H]; subst k; vm_compute; repeat split; reflexivity. Qed.

Example outbound_set_successful_callcode_delegatecall_nonvacuous :
  forall k, k = CkCallCode \/ k = CkDelegate ->
  let r := ex_run k [IStop] in
  c_err r = 0 /\
  map e_index (w_etxs (c_world r)) = [0; 1; 2] /\ map e_sender (w_etxs (c_world r)) = [wit_self; wit_self; wit_self] /\
  getb ex_child (w_bal (c_world r)) = e21 /\ getb wit_self (w_bal (c_world r)) = e21 - 3 * 75345.
Proof. intros k [H|H]; subst k; vm_compute; repeat split; reflexivity. Qed.

(* through CALL the child is its own sender *)
Example outbound_set_successful_call_nonvacuous :
  let r := ex_run CkCall [IStop] in
  c_err r = 0 /\ map e_sender (w_etxs (c_world r)) = [wit_self; ex_child; wit_self] /\
  getb ex_child (w_bal (c_world r)) = e21 - 75345 /\ getb wit_self (w_bal (c_world r)) = e21 - 2 * 75345.
Proof. vm_compute. repeat split; reflexivity. Qed.

(* through STATICCALL the child's ETX is write-protected: the child faults, the parent's two sends remain *)
Example static_frame_nonvacuous :
  let r := ex_run CkStatic [IStop] in
  c_err r = 0 /\ map e_index (w_etxs (c_world r)) = [0; 1] /\ map e_sender (w_etxs (c_world r)) = [wit_self; wit_self] /\
  c_tr r = [EvOp 0 (mkRes 75345 (Some 1) (Some (mkEtx wit_to wit_self 12345 0 EtxDefaultType 21000)));
            EvCall false [];
            EvOp 0 (mkRes 75345 (Some 1) (Some (mkEtx wit_to wit_self 12345 1 EtxDefaultType 21000)))].
Proof. vm_compute. repeat split; reflexivity. Qed.

(* a constructor (CREATE / CREATE2) sends from the new account, out of its endowment; if it reverts, the
   endowment, the debit and the ETX are all undone and the parent's next send takes index 0 *)
Definition ex_new : N := 0x0009c9c9c9c9c9c9c9c9c9c9c9c9c9c9c9c9c9c9.
Definition ex_create_run (two : bool) (ctor_end : list instr) : cres :=
  let parent := (if two then [IPush 7] else []) ++
                [IPush 0; IPush 0; IPush 100000; ICreate two (ex_send ++ ctor_end) ex_new 0; IPop] ++ ex_send ++ [IStop] in
  let c := wit_ctx wit_post 2 [(wit_self, parent)] in
  call 6 c (FK CkCall) false 0 wit_origin wit_self 10000000 0 (mkW [(wit_origin, e21); (wit_self, e21)] []).

Example constructor_send_nonvacuous : forall two,
  let r := ex_create_run two [IStop] in
  c_err r = 0 /\ map e_index (w_etxs (c_world r)) = [0; 1] /\ map e_sender (w_etxs (c_world r)) = [ex_new; wit_self] /\
  getb ex_new (w_bal (c_world r)) = 100000 - 75345 /\ getb wit_self (w_bal (c_world r)) = e21 - 100000 - 75345.
Proof. intros [|]; vm_compute; repeat split; reflexivity. Qed.

Example constructor_revert_nonvacuous : forall two,
  let r := ex_create_run two [IPush 0; IPush 0; IRevert] in
  c_err r = 0 /\ map e_index (w_etxs (c_world r)) = [0] /\ map e_sender (w_etxs (c_world r)) = [wit_self] /\
  getb ex_new (w_bal (c_world r)) = 0 /\ getb wit_self (w_bal (c_world r)) = e21 - 75345.
Proof. intros [|]; vm_compute; repeat split; reflexivity. Qed.

(* a constructor that returns code it CAN pay for: the deposit is charged (CreateDataGas per byte) and everything stays *)
Example constructor_code_deposit_nonvacuous :
  let ctor := ex_send ++ [IPush 100; IPush 0; IReturn] in
  let r := call 5 (wit_ctx wit_post 2 []) (FCreate ctor ex_new 0) false 0 wit_self 0 2000000 1000000 wit_world in
  let r0 := call 5 (wit_ctx wit_post 2 []) (FCreate (ex_send ++ [IStop]) ex_new 0) false 0 wit_self 0 2000000 1000000 wit_world in
  c_err r = 0 /\ map e_sender (w_etxs (c_world r)) = [ex_new] /\ c_gas r0 - c_gas r = 100 * CreateDataGas + 3 + 3 + 12.
Proof. vm_compute. repeat split; reflexivity. Qed.

(* ... and one whose code exceeds the size limit: reverted like any other failure *)
Example constructor_code_too_large_nonvacuous :
  let ctor := ex_send ++ [IPush (MaxCodeSize + 1); IPush 0; IReturn] in
  let r := call 5 (wit_ctx wit_post 2 []) (FCreate ctor ex_new 0) false 0 wit_self 0 20000000 1000000 wit_world in
  c_err r = 2 /\ c_world r = wit_world /\ c_gas r = 0.
Proof. vm_compute. repeat split; reflexivity. Qed.

(* ---------------- the per-transaction outbound record and the block's outbound list ----------------
   (core/state_transition.go:TransitionDb -- the dump of EVM.ETXCache into ExecutionResult.Etxs;
    core/state_processor.go:applyTransaction -- receipt.OutboundEtxs; StateProcessor.Process -- ONE EVM per
    block, emittedEtxs = the receipts' outbound sets appended in order)
   "The outbound set committed by a block is exactly the set recorded by its successful, non-reverted
    operations, in execution order."  A transaction is (succeeded, what its execution appended to the cache);
   [tx_sent t] = what it sent = that list if it succeeded, nothing otherwise. *)

(* every receipt records exactly what its own transaction sent -- nothing of an earlier transaction (the
   cache is empty again after every hand-over), nothing for a failed one *)
Theorem receipts_record_their_own_transaction : forall txs, fst (process [] txs) = map tx_sent txs.
Proof. intros. rewrite process_empty_cache. reflexivity. Qed.
Print Assumptions receipts_record_their_own_transaction.

(* the block's outbound list is the concatenation, in execution order, of the receipts' outbound sets = of what
   the successful transactions sent *)
Theorem block_outbound_is_concatenation : forall txs,
  snd (process [] txs) = List.concat (fst (process [] txs)) /\
  snd (process [] txs) = List.concat (map tx_sent txs).
Proof. intros. rewrite process_empty_cache. split; reflexivity. Qed.
Print Assumptions block_outbound_is_concatenation.

(* validator (one EVM per block, StateProcessor.Process) and worker (one EVM per transaction,
   core.ApplyTransaction) compute the same receipts and the same outbound list *)
Theorem shared_evm_equals_fresh_evm : forall txs, process [] txs = process_fresh txs.
Proof.
  intros. rewrite process_empty_cache. unfold process_fresh. cbv zeta. f_equal. f_equal.
  apply map_ext. intros [[|] em]; reflexivity.
Qed.
Print Assumptions shared_evm_equals_fresh_evm.

(* RETENTION, at the level of Go slices (Lib/C05_Slice.v: backing arrays, append in place while there is capacity,
   re-slicing by revertToSnapshot; any growth policy): with TransitionDb's make + copy, what every receipt's
   OutboundEtxs reads AFTER THE LAST transaction of the block -- all of them executed on the one shared cache,
   appending to and re-slicing it at will -- is what its transaction sent, and the list accumulated along the way
   is the value-level one *)
Theorem recorded_outbound_is_retained : forall grow txs hf rs bl,
  hprocess grow true [[]] (mkSl 0 0) txs = (hf, rs, bl) ->
  map (read_receipt hf) rs = fst (process [] (map abs_tx txs)) /\
  bl = snd (process [] (map abs_tx txs)).
Proof.
  intros grow txs hf rs bl E. rewrite process_empty_cache. cbn [fst snd].
  assert (Ok : sl_ok (A := etx) [[]] (mkSl 0 0)) by (split; cbn; auto).
  destruct (hprocess_copy_inv grow txs [[]] (mkSl 0 0) Ok eq_refl hf rs bl E) as (A & B & _).
  split; assumption.
Qed.
Print Assumptions recorded_outbound_is_retained.

(* ... and it rests on that copy: handing out the cache slice itself and re-slicing it to [:0] (the blind change
   seeded/C05_3) makes the receipt of the first of two sending transactions read the second one's ETX,
   although the block's list -- copied out in time -- is still right *)
Theorem handover_without_copy_refuted : exists grow txs,
  match hprocess grow false [[]] (mkSl 0 0) txs with
  | (hf, rs, bl) => map (read_receipt hf) rs <> fst (process [] (map abs_tx txs))
  end.
Proof. exact hprocess_alias_refuted. Qed.
Print Assumptions handover_without_copy_refuted.

(* end to end over the EVM model: a block of top-level message calls, each run on the world its predecessor
   left with the cache reset: receipt i = the ETXs recorded by the operations of non-reverted frames of
   transaction i if it succeeded (nothing otherwise), the block's list is their concatenation, and the indices
   restart at 0 in every receipt (positions are indices) *)
Theorem block_of_calls_commits_successful_ops : forall fuel c txs w, w_etxs w = [] ->
  fst (process_calls fuel c txs w) = block_sent fuel c txs w /\
  snd (process_calls fuel c txs w) = List.concat (block_sent fuel c txs w) /\
  Forall indices_ok (fst (process_calls fuel c txs w)).
Proof.
  intros fuel c. induction txs as [|t rest IH]; intros w Hw.
  - cbn. repeat split; constructor.
  - cbn [process_calls block_sent].
    set (r := mtx_call fuel c t w).
    assert (Hr : (if c_err r =? 0 then w_etxs (c_world r) else []) = (if c_err r =? 0 then emitted_all (c_tr r) else [])).
    { destruct (c_err r =? 0) eqn:E; [|reflexivity].
      subst r. unfold mtx_call in *. rewrite outbound_set_is_successful_ops, Hw. unfold kept. rewrite E. reflexivity. }
    assert (Hi : indices_ok (if c_err r =? 0 then w_etxs (c_world r) else [])).
    { destruct (c_err r =? 0); [|exact (seq_from_nil 0)].
      subst r. unfold mtx_call. apply outbound_indices_are_positions. rewrite Hw. exact (seq_from_nil 0). }
    destruct (IH (mkW (w_bal (c_world r)) []) eq_refl) as (I1 & I2 & I3).
    destruct (process_calls fuel c rest (mkW (w_bal (c_world r)) [])) as [rs bl]. cbn [fst snd] in *.
    rewrite Hr in *. subst rs bl. repeat split; try reflexivity.
    constructor; assumption.
Qed.
Print Assumptions block_of_calls_commits_successful_ops.

(* side condition on generated data: the statements of TransitionDb / applyTransaction / EVM.Reset that touch the
   cache and the outbound record are the ones the hand-over model was written against (make + copy, new cache) *)
Theorem handover_source_as_modelled : handover_as_modelled = true.
Proof. vm_compute. reflexivity. Qed.
Print Assumptions handover_source_as_modelled.

Example block_outbound_nonvacuous :
  let e1 := mkEtx 1 10 1111 0 0 21000 in let e2 := mkEtx 2 20 2222 0 0 21000 in let e3 := mkEtx 3 20 5 1 0 21000 in
  process [] [(true, [e1]); (false, []); (true, [e2; e3])] = ([[e1]; []; [e2; e3]], [e1; e2; e3]).
Proof. vm_compute. reflexivity. Qed.

(* three transactions on one cache at slice level: 3 ETXs (one of them in a frame that is reverted), then 1, then 2:
   with the copy every receipt still reads its own ETXs at the end; without it the first two read the third's *)
Example retention_nonvacuous :
  let e := fun i => mkEtx i 10 (100 + i) 0 0 21000 in
  let txs := [(true, [CPush (e 1); CPush (e 9); CTrunc 1; CPush (e 2); CPush (e 3)]); (true, [CPush (e 4)]); (true, [CPush (e 5); CPush (e 6)])] in
  (match hprocess (fun n => n) true [[]] (mkSl 0 0) txs with
   | (hf, rs, bl) => map (read_receipt hf) rs = [[e 1; e 2; e 3]; [e 4]; [e 5; e 6]] /\ bl = [e 1; e 2; e 3; e 4; e 5; e 6] end) /\
  (match hprocess (fun n => n) false [[]] (mkSl 0 0) txs with
   | (hf, rs, bl) => map (read_receipt hf) rs = [[e 5; e 6; e 3]; [e 5]; [e 5; e 6]] /\ bl = [e 1; e 2; e 3; e 4; e 5; e 6] end).
Proof. vm_compute. repeat split; reflexivity. Qed.

(* a block of two model transactions, each calling the sending contract of the examples above: indices restart *)
Example block_of_calls_nonvacuous :
  let c := wit_ctx wit_post 2 [(wit_self, ex_send ++ [IStop])] in
  let t := mkMtx wit_origin wit_self 1000000 0 in
  let rs := fst (process_calls 5 c [t; t] (mkW [(wit_origin, e21); (wit_self, e21)] [])) in
  map (map e_index) rs = [[0]; [0]] /\ map (map e_sender) rs = [[wit_self]; [wit_self]].
Proof. vm_compute. repeat split; reflexivity. Qed.


(* ---------------- claim of a locked coinbase (core/vm/contracts.go:ClaimCoinbaseLockup under core/vm/evm.go:Call) ----------------
   [claim_aon owner gas led etxs miner to lb epoch gl res] (Proofs/C05_Claim.v):
     success: the record under (owner, miner, lb, epoch) is consumed and nothing else of the ledger changes, the ETX gas limit
              is deducted from the gas, exactly one ETX of type CoinbaseLockup carrying the record's balance from the owner to [to]
              is recorded under the fresh index len(etxs), one undo entry (key, record) is recorded
     failure: ledger, outbound list and undo records are unchanged.
   FULL STATEMENT (refuted on the code as it is):
     forall c height owner gas led etxs miner to lb epoch gl,
       claim_aon owner gas led etxs miner to lb epoch gl (call_claim c height owner gas led etxs miner to lb epoch gl).
   rawdb.DeleteCoinbaseLockup(evm.Batch, ...) precedes the "index > MaxUint16" check and evm.revertToSnapshot does not
   restore evm.Batch. *)
Theorem send_all_or_nothing_claim_call_refuted :
  exists c height owner gas led etxs miner to lb epoch gl,
    ~ claim_aon owner gas led etxs miner to lb epoch gl (call_claim c height owner gas led etxs miner to lb epoch gl).
Proof. exact claim_aon_refuted. Qed.
Print Assumptions send_all_or_nothing_claim_call_refuted.

(* the violating inputs, exactly: every due claim made with more than 65535 cached ETXs, in EVERY fork regime, reports failure,
   the record is gone, no ETX and no undo entry exist *)
Theorem claim_index_overflow_destroys_the_lockup : forall c height owner gas led etxs miner to lb epoch gl,
  claim_due c height owner gas led miner to lb epoch gl = true -> MaxUint16 < lenN etxs ->
  let res := call_claim c height owner gas led etxs miner to lb epoch gl in
  fst (fst (fst (fst res))) = false /\
  lget (owner, miner, lb, epoch) led <> None /\ lget (owner, miner, lb, epoch) (snd (fst (fst res))) = None /\
  snd (fst res) = etxs /\ snd res = [].
Proof.
  intros c height owner gas led etxs miner to lb epoch gl D I. cbn zeta.
  rewrite (call_claim_overflow _ _ _ _ _ _ _ _ _ _ _ D I). cbn [fst snd]. repeat split; auto.
  - rewrite (claim_due_lget _ _ _ _ _ _ _ _ _ _ D). discriminate.
  - apply lget_ldel_same.
Qed.
Print Assumptions claim_index_overflow_destroys_the_lockup.

(* PARTIAL: the full statement for every input with at most 65535 cached ETXs (all fork regimes, all ledgers, all requests);
   missing from the full statement: exactly the inputs of the previous theorem *)
Theorem send_all_or_nothing_claim_call_partial : forall c height owner gas led etxs miner to lb epoch gl,
  lenN etxs <= MaxUint16 ->
  claim_aon owner gas led etxs miner to lb epoch gl (call_claim c height owner gas led etxs miner to lb epoch gl).
Proof.
  intros c height owner gas led etxs miner to lb epoch gl Hidx. rewrite call_claim_spec.
  destruct (claim_due c height owner gas led miner to lb epoch gl) eqn:D; [|right; auto].
  apply N.ltb_ge in Hidx. rewrite Hidx.
  assert (Hg : gl <= gas).
  { unfold claim_due in D. destruct (gl <=? gas) eqn:G; [apply N.leb_le; exact G|discriminate D]. }
  left. repeat split; auto. exists (lread (owner, miner, lb, epoch) led). split; [exact (claim_due_lget _ _ _ _ _ _ _ _ _ _ D)|].
  repeat split; auto. eexists. split; [reflexivity|]. cbn. repeat split; reflexivity.
Qed.
Print Assumptions send_all_or_nothing_claim_call_partial.

(* closed form of the claim under Call for ALL inputs: due (guards in source order) and room in the cache => the success
   tuple; due and no room => record deleted, failure; not due => failure, nothing changed *)
Theorem claim_call_closed_form : forall c height owner gas led etxs miner to lb epoch gl,
  let res := call_claim c height owner gas led etxs miner to lb epoch gl in
  if claim_due c height owner gas led miner to lb epoch gl then
    exists r, lget (owner, miner, lb, epoch) led = Some r /\
    if MaxUint16 <? lenN etxs
    then res = (false, gas - gl, ldel (owner, miner, lb, epoch) led, etxs, [])
    else res = (true, gas - gl, ldel (owner, miner, lb, epoch) led,
                etxs ++ [mkEtx to owner (l_bal r) (lenN etxs) EtxCoinbaseLockupType gl], [((owner, miner, lb, epoch), r)])
  else fst (fst (fst (fst res))) = false /\ snd (fst (fst res)) = led /\ snd (fst res) = etxs /\ snd res = [].
Proof.
  intros c height owner gas led etxs miner to lb epoch gl. cbn zeta. rewrite call_claim_spec.
  destruct (claim_due c height owner gas led miner to lb epoch gl) eqn:D; [|cbn [fst snd]; auto].
  exists (lread (owner, miner, lb, epoch) led). split; [exact (claim_due_lget _ _ _ _ _ _ _ _ _ _ D)|].
  destruct (MaxUint16 <? lenN etxs); reflexivity.
Qed.
Print Assumptions claim_call_closed_form.

Theorem claim_records_iff_reports_success : forall c height owner gas led etxs miner to lb epoch gl,
  let res := call_claim c height owner gas led etxs miner to lb epoch gl in
  (fst (fst (fst (fst res))) = true -> exists e, snd (fst res) = etxs ++ [e]) /\
  (fst (fst (fst (fst res))) = false -> snd (fst res) = etxs).
Proof.
  intros c height owner gas led etxs miner to lb epoch gl. cbn zeta. rewrite call_claim_spec.
  destruct (claim_due c height owner gas led miner to lb epoch gl); [destruct (MaxUint16 <? lenN etxs)|];
    cbn [fst snd]; split; intros H; try discriminate H; eauto.
Qed.
Print Assumptions claim_records_iff_reports_success.

Theorem claim_changes_no_other_record : forall c height owner gas led etxs miner to lb epoch gl k',
  k' <> (owner, miner, lb, epoch) ->
  lget k' (snd (fst (fst (call_claim c height owner gas led etxs miner to lb epoch gl)))) = lget k' led.
Proof.
  intros c height owner gas led etxs miner to lb epoch gl k' Hne. rewrite call_claim_spec.
  destruct (claim_due c height owner gas led miner to lb epoch gl); [destruct (MaxUint16 <? lenN etxs)|];
    cbn [fst snd]; try apply lget_ldel_other; auto.
Qed.
Print Assumptions claim_changes_no_other_record.

(* a locked balance leaves the chain at most once: after a paying claim, the same key pays nothing on the ledger it left,
   whatever the later context, gas, destination or cache *)
Theorem locked_coinbase_is_claimed_at_most_once : forall c c2 height height2 owner gas gas2 led etxs etxs2 miner to to2 lb epoch gl gl2,
  let res := call_claim c height owner gas led etxs miner to lb epoch gl in
  fst (fst (fst (fst res))) = true ->
  let res2 := call_claim c2 height2 owner gas2 (snd (fst (fst res))) etxs2 miner to2 lb epoch gl2 in
  fst (fst (fst (fst res2))) = false /\ snd (fst res2) = etxs2 /\ snd (fst (fst res2)) = snd (fst (fst res)).
Proof.
  intros c c2 height height2 owner gas gas2 led etxs etxs2 miner to to2 lb epoch gl gl2. cbn zeta. rewrite call_claim_spec.
  (* a paying claim leaves the ledger without its key ... *)
  destruct (claim_due c height owner gas led miner to lb epoch gl); [destruct (MaxUint16 <? lenN etxs)|];
    cbn [fst snd]; try discriminate. intros _.
  (* ... on which no claim of that key is due *)
  rewrite call_claim_spec. unfold claim_due. rewrite lget_ldel_same, andb_false_r. cbn [fst snd]. auto.
Qed.
Print Assumptions locked_coinbase_is_claimed_at_most_once.

(* side condition on generated data: RunLockupContract's dispatch order; in ClaimCoinbaseLockup the address checks, the read of
   the record, the deletion, THEN the index check, the append and the undo entry; epoch length and ETX type constants *)
Theorem lockup_source_as_modelled : lockup_as_modelled = true.
Proof. vm_compute. reflexivity. Qed.
Print Assumptions lockup_source_as_modelled.

Example claim_nonvacuous :
  let c := wit_ctx (SelfDestructRefundForkBlock + 5) 0 [] in
  claim_due c 200000 wit_self 100000 wit_ledger wit_miner wit_claim_to 1 2 30000 = true /\
  call_claim c 200000 wit_self 100000 wit_ledger (prefilled 2) wit_miner wit_claim_to 1 2 30000 =
  (true, 70000, [], prefilled 2 ++ [mkEtx wit_claim_to wit_self 7000 2 EtxCoinbaseLockupType 30000], [((wit_self, wit_miner, 1, 2), mkLRec 7000 100000 3)]) /\
  (* one block before the tranche unlocks: nothing happens *)
  call_claim c 99999 wit_self 100000 wit_ledger [] wit_miner wit_claim_to 1 2 30000 = (false, 70000, wit_ledger, [], []) /\
  (* the overflow case of the refutation *)
  (let res := call_claim c 200000 wit_self 100000 wit_ledger (prefilled 65536) wit_miner wit_claim_to 1 2 30000 in
   fst (fst (fst (fst res))) = false /\ snd (fst (fst res)) = [] /\ lenN (snd (fst res)) = 65536 /\ snd res = []).
Proof.
  cbv zeta. rewrite claim_overflow_witness. cbn [fst snd]. rewrite lenN_prefilled.
  split; [rewrite wit_claim_due; reflexivity|]. split; [exact claim_success_witness|].
  split; [rewrite call_claim_spec, wit_claim_due; reflexivity|]. auto.
Qed.
