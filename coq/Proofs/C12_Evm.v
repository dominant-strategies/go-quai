(* C12 — EVM layer (ETXCache, CoinbaseDeletedHashes, CoinbasesDeleted, lockup deletions staged in
   EVM.Batch): lemmas about Model/C12.v [eexec], [evm_revert]; [undone] .. [failed_frame_lockups_fixed] are about the
   proposed repair of finding F9 ([fixd] = true), which restores the readable lockup records. *)
From Coq Require Import List NArith.
From GQ Require Import Lib.Key Lib.SMap Lib.Lists Model.C12.
Import ListNotations.

Fixpoint eframe_ind' (P : eframe -> Prop)
    (HClaim : forall k etx h, P (EClaim k etx h)) (HEmit : forall etx, P (EEmit etx))
    (HCall : forall body fails, Forall P body -> P (ECall body fails)) (f : eframe) : P f :=
  match f with
  | EClaim k etx h => HClaim k etx h
  | EEmit etx => HEmit etx
  | ECall body fails =>
      HCall body fails (Forall_all P (eframe_ind' P HClaim HEmit HCall) body)
  end.

(* the lists only grow inside a frame; a failing frame cuts them back *)
Definition grows (a b : evmst) : Prop :=
  (exists x, e_etxs b = e_etxs a ++ x) /\ (exists y, e_hashes b = e_hashes a ++ y) /\ e_db b = e_db a.

Lemma grows_refl a : grows a a.
Proof. repeat split; try (exists []; rewrite app_nil_r; reflexivity). Qed.

Lemma grows_trans a b c : grows a b -> grows b c -> grows a c.
Proof.
  intros ([x X] & [y Y] & D) ([x' X'] & [y' Y'] & D'). repeat split.
  - exists (x ++ x'). rewrite X', X, app_assoc. reflexivity.
  - exists (y ++ y'). rewrite Y', Y, app_assoc. reflexivity.
  - congruence.
Qed.

Lemma eexec_grows fixd f : forall st, grows st (eexec fixd f st).
Proof.
  induction f as [k etx h|etx|body fails IHb] using eframe_ind'; intros st; cbn [eexec].
  - destruct (lk_view st k); [|apply grows_refl]. repeat split; cbn; eauto.
  - repeat split; cbn; eauto. exists []. rewrite app_nil_r. reflexivity.
  - pose proof (fold_left_preorder grows _ body grows_refl grows_trans IHb st) as ([x X] & [y Y] & D).
    destruct fails; [|repeat split; eauto].
    unfold evm_revert. repeat split; cbn.
    + exists []. rewrite X, firstn_app_length, app_nil_r. reflexivity.
    + exists []. rewrite Y, firstn_app_length, app_nil_r. reflexivity.
    + exact D.
Qed.

Lemma failed_call_lists fixd body st :
  let st' := eexec fixd (ECall body true) st in
  e_etxs st' = e_etxs st /\ e_hashes st' = e_hashes st /\ e_deleted st' = e_deleted st /\ e_db st' = e_db st.
Proof.
  destruct (eexec_grows fixd (ECall body false) st) as ([x X] & [y Y] & D). cbn [eexec] in *.
  unfold evm_revert. cbn. rewrite X, Y, !firstn_app_length. auto.
Qed.

Fixpoint no_claim (f : eframe) : bool :=
  match f with
  | EClaim _ _ _ => false
  | EEmit _ => true
  | ECall body _ => forallb no_claim body
  end.

Lemma no_claim_batch f : forall st, no_claim f = true -> e_batch (eexec false f st) = e_batch st.
Proof.
  induction f as [k etx h|etx|body fails IHb] using eframe_ind'; intros st H; cbn [eexec no_claim] in *.
  - discriminate.
  - reflexivity.
  - rewrite forallb_forall in H. rewrite Forall_forall in IHb.
    assert (e_batch (fold_left (fun a g => eexec false g a) body st) = e_batch st) as E.
    { apply (fold_left_inv (fun a => e_batch a = e_batch st)); [|reflexivity].
      intros a g Hg Ea. rewrite (IHb g Hg a (H g Hg)). exact Ea. }
    destruct fails; exact E.
Qed.

Lemma lk_view_put_other st k k0 x :
  k0 <> k -> lk_view (mkEvm (e_etxs st) (e_hashes st) (e_deleted st) (put k x (e_batch st)) (e_db st)) k0 = lk_view st k0.
Proof. intros N. unfold lk_view. cbn. rewrite get_put_other by exact N. reflexivity. Qed.

(* a consistent EVM state: what the undo map holds has been claimed, and is not readable any more *)
Definition good (st : evmst) : Prop :=
  sorted (e_deleted st) /\ (forall k v, get k (e_deleted st) = Some v -> lk_view st k = None).

(* what UndoCoinbasesDeleted would make readable at [k] *)
Definition undone (st : evmst) (k : key) : option (list N) :=
  match get k (e_deleted st) with Some v => Some v | None => lk_view st k end.

Definition erel (a b : evmst) : Prop :=
  forall k, undone b k = undone a k /\ (get k (e_deleted b) = None -> get k (e_deleted a) = None).

Definition Qrel (a b : evmst) : Prop := good a -> erel a b /\ good b.

Lemma Qrel_refl a : Qrel a a.
Proof. intros G. split; [intros k; auto|exact G]. Qed.

Lemma Qrel_trans a b c : Qrel a b -> Qrel b c -> Qrel a c.
Proof.
  intros H1 H2 G. destruct (H1 G) as [E1 G1]. destruct (H2 G1) as [E2 G2]. split; [|exact G2].
  intros k. destruct (E1 k) as [U1 D1], (E2 k) as [U2 D2]. split; [congruence|auto].
Qed.

Lemma restore_get old new k : sorted new -> forall b,
  get k (evm_restore old new b) =
  match get k new with
  | Some v => match get k old with None => Some (Some v) | Some _ => get k b end
  | None => get k b
  end.
Proof.
  induction new as [|[k1 v1] t IH]; intros S b; [reflexivity|].
  destruct S as [L S]. unfold evm_restore in *. cbn [fold_left fst snd get]. rewrite IH by exact S.
  destruct (kcmp k k1) eqn:E.
  - (* the head is k's entry; the keys of the tail are larger *)
    apply kcmp_eq in E; subst k1. rewrite (get_lb_none k t L).
    destruct (get k old); [reflexivity|]. apply get_put_same.
  - assert (get k t = None) as Gt.
    { apply get_lb_none. eapply lb_trans; [|exact L]. apply kltb_lt, E. }
    rewrite Gt. destruct (get k1 old); [reflexivity|].
    rewrite get_put. unfold keqb. rewrite E. reflexivity.
  - assert (forall x, get k (put k1 x b) = get k b) as P
      by (intros x; rewrite get_put; unfold keqb; rewrite E; reflexivity).
    destruct (get k t) as [v|]; [destruct (get k old)|]; destruct (get k1 old); auto.
Qed.

Lemma revert_view st st' k : good st -> erel st st' -> good st' ->
  lk_view (evm_revert true st st') k = lk_view st k.
Proof.
  intros [_ C] E [S' C']. destruct (E k) as [U D]. unfold undone in U.
  unfold lk_view at 1. unfold evm_revert. cbn [e_batch e_db]. rewrite restore_get by exact S'.
  fold (lk_view st' k).
  destruct (get k (e_deleted st')) as [v|] eqn:G'; [destruct (get k (e_deleted st)) as [w|] eqn:G|].
  - (* claimed before the snapshot: unreadable then and now *) rewrite (C k w G). exact (C' k v G').
  - (* claimed since: put back *) exact U.
  - (* not in the undo map now, so not at the snapshot either: never claimed *) rewrite (D eq_refl) in U. exact U.
Qed.

Lemma eexec_Qrel f : forall st, Qrel st (eexec true f st).
Proof.
  induction f as [k etx h|etx|body fails IHb] using eframe_ind'; intros st; cbn [eexec].
  - (* a claim moves [v] from what is readable to the undo map; every other key reads as before *)
    destruct (lk_view st k) as [v|] eqn:V; [|apply Qrel_refl].
    set (st' := mkEvm _ _ _ _ _). intros [S C].
    assert (L : forall k0, lk_view st' k0 = if keqb k0 k then None else lk_view st k0).
    { intros k0. unfold lk_view. cbn [st' e_batch e_db]. rewrite get_put. destruct (keqb k0 k); reflexivity. }
    split; [|split].
    + intros k0. unfold undone. cbn [st' e_deleted]. rewrite L, get_put.
      destruct (keqb k0 k) eqn:E; [|auto]. apply keqb_eq in E. subst k0.
      destruct (get k (e_deleted st)) as [w|] eqn:G; [rewrite (C k w G) in V; discriminate|].
      split; [symmetry; exact V|discriminate].
    + apply put_sorted. exact S.
    + intros k0 v0. cbn [st' e_deleted]. rewrite L, get_put. destruct (keqb k0 k); [reflexivity|apply C].
  - (* a send touches neither the undo map nor the batch *) exact (Qrel_refl st).
  - pose proof (fold_left_preorder Qrel _ body Qrel_refl Qrel_trans IHb st) as Hb.
    destruct fails; [|exact Hb].
    intros G. destruct (Hb G) as [E G']. pose proof (fun k => revert_view st _ k G E G') as V.
    split; [|split].
    + intros k. unfold undone. rewrite V. auto.
    + exact (proj1 G).
    + intros k v Gk. rewrite V. apply (proj2 G k v Gk).
Qed.

Lemma failed_frame_lockups_fixed body st k :
  good st -> lk_view (eexec true (ECall body true) st) k = lk_view st k.
Proof. intros G. destruct (eexec_Qrel (ECall body false) st G) as [E G']. exact (revert_view st _ k G E G'). Qed.

Lemma good_start db : good (mkEvm [] [] [] [] db).
Proof. split; [exact I|]. intros k v H. discriminate H. Qed.

(* the sends of the frames that, with all the frames around them, ended well, in program order *)
Fixpoint kept (f : eframe) : list N :=
  match f with
  | EClaim _ _ _ => []
  | EEmit e => [e]
  | ECall body fails => if fails then [] else flat_map kept body
  end.

Lemma eexec_kept fixd f : forall st, no_claim f = true -> e_etxs (eexec fixd f st) = e_etxs st ++ kept f.
Proof.
  induction f as [k etx h|etx|body fails IHb] using eframe_ind'; intros st H; cbn [eexec no_claim kept] in *.
  - discriminate.
  - reflexivity.
  - destruct fails.
    + (* a failing frame leaves the cache as it found it *)
      rewrite app_nil_r. apply (failed_call_lists fixd body st).
    + apply (fold_left_appends (fun a g => eexec fixd g a) e_etxs kept). intros s g Hg.
      exact (proj1 (Forall_forall _ _) IHb g Hg s (proj1 (forallb_forall _ _) H g Hg)).
Qed.
