(* A small expression language for the guard conditions that the C04 generator
   copies out of core/state_processor.go (Process): unsigned arithmetic and
   boolean connectives over a handful of named quantities.  Definitions, and the
   soundness of the syntactic equality test on expressions. *)
From Coq Require Import NArith.
Local Open Scope N_scope.

(* arithmetic variables *)
Definition V_NUM : N := 0.       (* block.NumberU64(common.ZONE_CTX) *)
Definition V_COUNT : N := 1.     (* etxCount *)
Definition V_GAS : N := 2.       (* totalEtxGas *)
Definition V_GASLIMIT : N := 3.  (* header.GasLimit() *)
(* boolean variables *)
Definition B_AVAIL : N := 0.     (* etxAvailable *)

Inductive aexp :=
| AVar (v : N)
| AConst (c : N)
| ADiv (a b : aexp)
| AMul (a b : aexp)
| AAdd (a b : aexp)
| ASub (a b : aexp).

Inductive bexp :=
| BVar (v : N)
| BLe (a b : aexp)
| BLt (a b : aexp)
| BGe (a b : aexp)
| BGt (a b : aexp)
| BEq (a b : aexp)
| BAnd (x y : bexp)
| BOr (x y : bexp)
| BNot (x : bexp).

Fixpoint aeval (ea : N -> N) (a : aexp) : N :=
  match a with
  | AVar v => ea v
  | AConst c => c
  | ADiv x y => aeval ea x / aeval ea y
  | AMul x y => aeval ea x * aeval ea y
  | AAdd x y => aeval ea x + aeval ea y
  | ASub x y => aeval ea x - aeval ea y
  end.

Fixpoint beval (ea : N -> N) (eb : N -> bool) (b : bexp) : bool :=
  match b with
  | BVar v => eb v
  | BLe x y => aeval ea x <=? aeval ea y
  | BLt x y => aeval ea x <? aeval ea y
  | BGe x y => aeval ea y <=? aeval ea x
  | BGt x y => aeval ea y <? aeval ea x
  | BEq x y => aeval ea x =? aeval ea y
  | BAnd x y => beval ea eb x && beval ea eb y
  | BOr x y => beval ea eb x || beval ea eb y
  | BNot x => negb (beval ea eb x)
  end.

Fixpoint aexp_eqb (a b : aexp) : bool :=
  match a, b with
  | AVar x, AVar y => x =? y
  | AConst x, AConst y => x =? y
  | ADiv a1 a2, ADiv b1 b2 => aexp_eqb a1 b1 && aexp_eqb a2 b2
  | AMul a1 a2, AMul b1 b2 => aexp_eqb a1 b1 && aexp_eqb a2 b2
  | AAdd a1 a2, AAdd b1 b2 => aexp_eqb a1 b1 && aexp_eqb a2 b2
  | ASub a1 a2, ASub b1 b2 => aexp_eqb a1 b1 && aexp_eqb a2 b2
  | _, _ => false
  end.

Fixpoint bexp_eqb (a b : bexp) : bool :=
  match a, b with
  | BVar x, BVar y => x =? y
  | BLe a1 a2, BLe b1 b2 => aexp_eqb a1 b1 && aexp_eqb a2 b2
  | BLt a1 a2, BLt b1 b2 => aexp_eqb a1 b1 && aexp_eqb a2 b2
  | BGe a1 a2, BGe b1 b2 => aexp_eqb a1 b1 && aexp_eqb a2 b2
  | BGt a1 a2, BGt b1 b2 => aexp_eqb a1 b1 && aexp_eqb a2 b2
  | BEq a1 a2, BEq b1 b2 => aexp_eqb a1 b1 && aexp_eqb a2 b2
  | BAnd a1 a2, BAnd b1 b2 => bexp_eqb a1 b1 && bexp_eqb a2 b2
  | BOr a1 a2, BOr b1 b2 => bexp_eqb a1 b1 && bexp_eqb a2 b2
  | BNot a1, BNot b1 => bexp_eqb a1 b1
  | _, _ => false
  end.

Lemma aexp_eqb_eq a : forall b, aexp_eqb a b = true -> a = b.
Proof.
  induction a; intros [] H; cbn in H; try discriminate;
    try (apply N.eqb_eq in H; subst; reflexivity);
    apply andb_prop in H as [H1 H2]; f_equal; auto.
Qed.

Lemma bexp_eqb_eq a : forall b, bexp_eqb a b = true -> a = b.
Proof.
  induction a; intros [] H; cbn in H; try discriminate;
    try (apply N.eqb_eq in H; subst; reflexivity);
    try (apply andb_prop in H as [H1 H2]; f_equal; auto using aexp_eqb_eq);
    f_equal; auto.
Qed.
