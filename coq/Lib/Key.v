(* Byte strings as lists of N (each element < 256 when well formed) with the
   lexicographic order of Go's bytes.Compare. *)
From Coq Require Import List NArith Lia Bool.
Import ListNotations.
Local Open Scope N_scope.

Definition key := list N.

Fixpoint kcmp (a b : key) : comparison :=
  match a, b with
  | [], [] => Eq
  | [], _ :: _ => Lt
  | _ :: _, [] => Gt
  | x :: a', y :: b' =>
      match N.compare x y with
      | Eq => kcmp a' b'
      | c => c
      end
  end.

Definition keqb (a b : key) : bool := match kcmp a b with Eq => true | _ => false end.
Definition kltb (a b : key) : bool := match kcmp a b with Lt => true | _ => false end.
Definition kleb (a b : key) : bool := match kcmp a b with Gt => false | _ => true end.

Fixpoint has_prefix (p k : key) : bool :=
  match p, k with
  | [], _ => true
  | _ :: _, [] => false
  | x :: p', y :: k' => N.eqb x y && has_prefix p' k'
  end.

Definition wf_bytes (k : key) : Prop := Forall (fun b => b < 256) k.
Definition wf_bytesb (k : key) : bool := forallb (fun b => b <? 256) k.

Lemma wf_bytesb_iff b : wf_bytesb b = true <-> wf_bytes b.
Proof.
  unfold wf_bytesb, wf_bytes. rewrite forallb_forall, Forall_forall.
  split; intros H x Hx; apply N.ltb_lt, H, Hx.
Qed.

Lemma kcmp_refl a : kcmp a a = Eq.
Proof. induction a as [|x a IH]; cbn; [reflexivity|]. rewrite N.compare_refl. exact IH. Qed.

Lemma kcmp_eq a b : kcmp a b = Eq <-> a = b.
Proof.
  split.
  - revert b; induction a as [|x a IH]; intros [|y b] H; cbn in H; try discriminate; [reflexivity|].
    destruct (N.compare x y) eqn:E; try discriminate.
    apply N.compare_eq in E. subst. f_equal. apply IH. exact H.
  - intros ->. apply kcmp_refl.
Qed.

Lemma kcmp_antisym a b : kcmp b a = CompOpp (kcmp a b).
Proof.
  revert b; induction a as [|x a IH]; intros [|y b]; cbn; try reflexivity.
  rewrite (N.compare_antisym x y). destruct (N.compare x y); cbn; auto.
Qed.

Lemma kcmp_lt_trans a b c : kcmp a b = Lt -> kcmp b c = Lt -> kcmp a c = Lt.
Proof.
  revert b c; induction a as [|x a IH]; intros [|y b] [|z c] H1 H2; cbn in *; try discriminate; try reflexivity.
  destruct (N.compare x y) eqn:E1; try discriminate.
  - apply N.compare_eq in E1; subst y.
    destruct (N.compare x z) eqn:E2; try discriminate; try reflexivity.
    eapply IH; eauto.
  - destruct (N.compare y z) eqn:E2; try discriminate.
    + apply N.compare_eq in E2; subst z. rewrite E1. reflexivity.
    + rewrite N.compare_lt_iff in E1, E2. assert (x < z) by lia.
      rewrite <- N.compare_lt_iff in H. rewrite H. reflexivity.
Qed.

Lemma kcmp_gt_lt a b : kcmp a b = Gt <-> kcmp b a = Lt.
Proof. rewrite (kcmp_antisym a b). destruct (kcmp a b); cbn; split; congruence. Qed.

Lemma keqb_eq a b : keqb a b = true <-> a = b.
Proof. unfold keqb. rewrite <- kcmp_eq. destruct (kcmp a b); split; congruence. Qed.

Lemma keqb_refl a : keqb a a = true.
Proof. apply keqb_eq; reflexivity. Qed.

Lemma keqb_neq a b : keqb a b = false <-> a <> b.
Proof. rewrite <- keqb_eq. destruct (keqb a b); split; congruence. Qed.

Lemma keqb_sym a b : keqb a b = keqb b a.
Proof.
  destruct (keqb b a) eqn:E.
  - apply keqb_eq in E. subst. apply keqb_refl.
  - apply keqb_neq. apply keqb_neq in E. congruence.
Qed.

Lemma keqb_cons a b x y : keqb (a :: x) (b :: y) = N.eqb a b && keqb x y.
Proof. unfold keqb. cbn [kcmp]. rewrite N.eqb_compare. destruct (a ?= b); reflexivity. Qed.

Lemma keqb_nil_cons a x : keqb [] (a :: x) = false.
Proof. reflexivity. Qed.

Lemma keqb_cons_nil a x : keqb (a :: x) [] = false.
Proof. reflexivity. Qed.

Lemma kltb_lt a b : kltb a b = true <-> kcmp a b = Lt.
Proof. unfold kltb. destruct (kcmp a b); split; congruence. Qed.

Lemma kltb_irrefl a : kltb a a = false.
Proof. unfold kltb. rewrite kcmp_refl. reflexivity. Qed.

Lemma kltb_trans a b c : kltb a b = true -> kltb b c = true -> kltb a c = true.
Proof. intros H1 H2. apply kltb_lt in H1, H2. apply kltb_lt. exact (kcmp_lt_trans a b c H1 H2). Qed.

Lemma kltb_neq a b : kltb a b = true -> a <> b.
Proof. intros H ->. rewrite kltb_irrefl in H. discriminate. Qed.

Lemma kltb_total a b : kltb a b = true \/ a = b \/ kltb b a = true.
Proof.
  destruct (kcmp a b) eqn:E.
  - right; left. apply kcmp_eq, E.
  - left. apply kltb_lt, E.
  - right; right. apply kltb_lt, kcmp_gt_lt, E.
Qed.

Lemma kleb_spec a b : kleb a b = true <-> kltb a b = true \/ a = b.
Proof.
  unfold kleb, kltb. destruct (kcmp a b) eqn:E.
  - apply kcmp_eq in E. split; auto.
  - split; auto.
  - split; [discriminate|]. intros [H|H]; [discriminate|]. subst. rewrite kcmp_refl in E. discriminate.
Qed.

Lemma has_prefix_app p k : has_prefix p (p ++ k) = true.
Proof. induction p as [|x p IH]; cbn; [reflexivity|]. rewrite N.eqb_refl. exact IH. Qed.

Lemma has_prefix_spec p k : has_prefix p k = true <-> exists s, k = p ++ s.
Proof.
  split.
  - revert k; induction p as [|x p IH]; intros k H; cbn in *.
    + exists k; reflexivity.
    + destruct k as [|y k]; [discriminate|]. apply andb_prop in H as [H1 H2].
      apply N.eqb_eq in H1; subst y. destruct (IH _ H2) as [s ->]. exists s; reflexivity.
  - intros [s ->]. apply has_prefix_app.
Qed.

Lemma kcmp_app p a b : kcmp (p ++ a) (p ++ b) = kcmp a b.
Proof. induction p as [|x p IH]; cbn; [reflexivity|]. rewrite N.compare_refl. exact IH. Qed.

Lemma keqb_app p a b : keqb (p ++ a) (p ++ b) = keqb a b.
Proof. unfold keqb. rewrite kcmp_app. reflexivity. Qed.

Lemma kltb_app p a b : kltb (p ++ a) (p ++ b) = kltb a b.
Proof. unfold kltb. rewrite kcmp_app. reflexivity. Qed.

Lemma kleb_app p a b : kleb (p ++ a) (p ++ b) = kleb a b.
Proof. unfold kleb. rewrite kcmp_app. reflexivity. Qed.
