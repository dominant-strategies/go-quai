(* C11 — lemmas about the crash model (Model/C11.v).
   Specification: [content] (what the flat key space must contain for a chain), [Good] (a database
   the node can restart and continue from), validity of blocks/scripts, and what the static theorems
   ask of the generated call order ([static_fwd_classes], [rollback_atomic], [static_single_commit]).
   Proofs: a top-level write either is harmless (the image [shows] what the database showed) or is one of
   three committing writes (block batch, head put, rollback batch), each described once over
   [shows]. The crash points of a step, then of a script, follow by cutting its write list; on Good
   states [exec] replays that list. *)
From Coq Require Import List NArith Bool PeanoNat.
From GQ Require Import Lib.Lists Model.C11 Generated.C11Gen.
Import ListNotations.
Local Open Scope N_scope.

Lemma key_eqb_spec a b : reflect (a = b) (key_eqb a b).
Proof.
  destruct a as [|x|x|x i|x|x i|x], b as [|y|y|y j|y|y j|y]; cbn [key_eqb]; try (right; discriminate);
    try destruct (N.eqb_spec x y) as [->|]; try destruct (N.eqb_spec i j) as [->|];
    try (left; reflexivity); right; congruence.
Qed.

Lemma upd_same d k o : upd d k o k = o.
Proof. unfold upd. destruct (key_eqb_spec k k); [reflexivity|contradiction]. Qed.

Lemma upd_other d k o k' : k' <> k -> upd d k o k' = d k'.
Proof. intros H. unfold upd. destruct (key_eqb_spec k' k); [contradiction|reflexivity]. Qed.

Lemma apply_sops_app l1 l2 d : apply_sops (l1 ++ l2) d = apply_sops l2 (apply_sops l1 d).
Proof. apply fold_left_app. Qed.

Lemma has_key_app f l1 l2 : has_key f (l1 ++ l2) = has_key f l1 || has_key f l2.
Proof. apply existsb_app. Qed.

Lemma has_key_cons f o l : has_key f (o :: l) = f (sop_key o) || has_key f l.
Proof. reflexivity. Qed.

Lemma apply_sops_frame f l : forall d k, has_key f l = false -> f k = true -> apply_sops l d k = d k.
Proof.
  induction l as [|o l IH]; intros d k H Hk; [reflexivity|].
  rewrite has_key_cons in H. apply orb_false_elim in H as [Ho Hl].
  change (apply_sops (o :: l) d) with (apply_sops l (apply_sop d o)). rewrite IH by assumption.
  destruct o; apply upd_other; intros ->; cbn [sop_key] in Ho; congruence.
Qed.

Lemma apply_all_app a b d : apply_all (a ++ b) d = apply_all b (apply_all a d).
Proof. apply fold_left_app. Qed.

Lemma crash_app k a b d :
  crash k (a ++ b) d =
  if (k <=? length a)%nat then crash k a d else crash (k - length a) b (apply_all a d).
Proof.
  unfold crash. rewrite firstn_app, apply_all_app.
  destruct (Nat.leb_spec k (length a)) as [E|E].
  - apply Nat.sub_0_le in E. rewrite E. reflexivity.
  - rewrite (firstn_all2 a (Nat.lt_le_incl _ _ E)). reflexivity.
Qed.

Lemma crash_all k ws d : (length ws <= k)%nat -> crash k ws d = apply_all ws d.
Proof. intros H. unfold crash. rewrite firstn_all2 by exact H. reflexivity. Qed.

Lemma crash_0 ws d : crash 0 ws d = d.
Proof. reflexivity. Qed.

Lemma crash_firstn n k ws d : (k <= n)%nat -> crash k (firstn n ws) d = crash k ws d.
Proof. intros H. unfold crash. rewrite firstn_firstn, Nat.min_l by exact H. reflexivity. Qed.

Definition fmap := N -> option N.

Fixpoint lookup_last (u : N) (l : list (N * N)) : option N :=
  match l with
  | [] => None
  | p :: l' =>
      match lookup_last u l' with
      | Some w => Some w
      | None => if fst p =? u then Some (snd p) else None
      end
  end.

Definition apply_block (f : fmap) (b : block) : fmap :=
  fun u => if memk u (bspent b) then None
           else match lookup_last u (bcreated b) with Some v => Some v | None => f u end.

(* the rollback loop's undo ([undo_ops]): the inverse of [apply_block] on valid blocks only ([undo_apply]) *)
Definition undo_block (f : fmap) (b : block) : fmap :=
  fun u => if memk u (bcreated b) then None
           else match lookup_last u (bspent b) with Some v => Some v | None => f u end.

Definition content (bs : list block) : fmap := fold_left apply_block bs (fun _ => None).

Lemma content_snoc bs b : content (bs ++ [b]) = apply_block (content bs) b.
Proof. unfold content. rewrite fold_left_app. reflexivity. Qed.

Lemma lookup_last_spec u l :
  match lookup_last u l with Some v => In (u, v) l | None => memk u l = false end.
Proof.
  induction l as [|p l IH]; cbn [lookup_last memk existsb]; [reflexivity|].
  destruct (lookup_last u l).
  - right. exact IH.
  - destruct (N.eqb_spec (fst p) u) as [<-|]; [|exact IH]. left. apply surjective_pairing.
Qed.

Lemma memk_in u l : memk u l = true -> exists v, In (u, v) l.
Proof.
  unfold memk. intros H. apply existsb_exists in H as [[a v] [Hin E]].
  apply N.eqb_eq in E as <-. exists v. exact Hin.
Qed.

Lemma in_memk u v l : In (u, v) l -> memk u l = true.
Proof. intros H. unfold memk. apply existsb_exists. exists (u, v). split; [exact H|apply N.eqb_refl]. Qed.

Definition is_flat (k : key) : bool := match k with KFlat _ => true | _ => false end.

Lemma put_ops_flat l : forall d u,
  apply_sops (put_ops l) d (KFlat u) = match lookup_last u l with Some v => Some v | None => d (KFlat u) end.
Proof.
  induction l as [|p l IH]; intros d u; [reflexivity|].
  change (apply_sops (put_ops (p :: l)) d) with (apply_sops (put_ops l) (upd d (KFlat (fst p)) (Some (snd p)))).
  rewrite IH. cbn [lookup_last]. destruct (lookup_last u l); [reflexivity|].
  unfold upd. cbn [key_eqb]. rewrite N.eqb_sym. destruct (fst p =? u); reflexivity.
Qed.

Lemma del_ops_flat l : forall d u,
  apply_sops (del_ops l) d (KFlat u) = if memk u l then None else d (KFlat u).
Proof.
  induction l as [|p l IH]; intros d u; [reflexivity|].
  change (apply_sops (del_ops (p :: l)) d) with (apply_sops (del_ops l) (upd d (KFlat (fst p)) None)).
  rewrite IH. change (memk u (p :: l)) with ((fst p =? u) || memk u l).
  destruct (memk u l); [rewrite orb_true_r; reflexivity|].
  unfold upd. cbn [key_eqb]. rewrite orb_false_r, N.eqb_sym. destruct (fst p =? u); reflexivity.
Qed.

Lemma has_key_flat_ops f l1 l2 :
  (forall u, f (KFlat u) = false) -> has_key f (put_ops l1 ++ del_ops l2) = false.
Proof.
  intros Hf. apply not_true_is_false. intros E. apply existsb_exists in E as [o [Ho Hk]].
  apply in_app_or in Ho as [Ho|Ho]; apply in_map_iff in Ho as [p [<- _]]; cbn [sop_key] in Hk; congruence.
Qed.

Lemma flat_ops_flat l1 l2 d u :
  apply_sops (put_ops l1 ++ del_ops l2) d (KFlat u) =
  if memk u l2 then None else match lookup_last u l1 with Some v => Some v | None => d (KFlat u) end.
Proof. rewrite apply_sops_app, del_ops_flat, put_ops_flat. reflexivity. Qed.

Lemma flat_ops_other l1 l2 d k : is_flat k = false -> apply_sops (put_ops l1 ++ del_ops l2) d k = d k.
Proof.
  intros Hk. apply (apply_sops_frame (fun k => negb (is_flat k))); [|rewrite Hk; reflexivity].
  apply has_key_flat_ops. reflexivity.
Qed.

Lemma eff_ops_flat d b u :
  apply_sops (eff_ops b) d (KFlat u) = apply_block (fun x => d (KFlat x)) b u.
Proof. apply flat_ops_flat. Qed.

Lemma undo_ops_flat d b u :
  apply_sops (undo_ops b) d (KFlat u) = undo_block (fun x => d (KFlat x)) b u.
Proof. apply flat_ops_flat. Qed.

Lemma eff_ops_other d b k : is_flat k = false -> apply_sops (eff_ops b) d k = d k.
Proof. apply flat_ops_other. Qed.

Lemma undo_ops_other d b k : is_flat k = false -> apply_sops (undo_ops b) d k = d k.
Proof. apply flat_ops_other. Qed.

(* a block may spend what it creates itself: Process looks into the pending batch ([inputs_present]) *)
Definition valid_eff (f : fmap) (b : block) : Prop :=
  (forall u v, In (u, v) (bspent b) -> f u = Some v \/ memk u (bcreated b) = true)
  /\ (forall u v, In (u, v) (bcreated b) -> f u = None).

Lemma undo_apply f b : valid_eff f b -> forall u, undo_block (apply_block f b) b u = f u.
Proof.
  intros [V1 V2] u. unfold undo_block.
  destruct (memk u (bcreated b)) eqn:Ec.
  - apply memk_in in Ec as [v Hv]. symmetry. eapply V2; eauto.
  - pose proof (lookup_last_spec u (bspent b)) as Es. destruct (lookup_last u (bspent b)).
    + destruct (V1 _ _ Es) as [H|H]; [symmetry; exact H|congruence].
    + unfold apply_block. rewrite Es.
      pose proof (lookup_last_spec u (bcreated b)) as El. destruct (lookup_last u (bcreated b)); [|reflexivity].
      apply in_memk in El. congruence.
Qed.

Definition last_id (bs : list block) : N := last (map bid bs) 0.

Lemma last_id_snoc bs b : last_id (bs ++ [b]) = bid b.
Proof. unfold last_id. rewrite map_app. apply last_last. Qed.

(* what a restarted node reads off d; h need not be the tip of c ([AfterBatch false]) *)
Definition shows (d : db) (h : N) (c : list block) : Prop :=
  head_id d = h
  /\ (forall u, d (KFlat u) = content c u)
  /\ (forall b, In b c -> present d (bid b) = true).

Lemma shows_head {d h c} : shows d h c -> head_id d = h.
Proof. intros S. apply S. Qed.

Lemma shows_flat {d h c} : shows d h c -> forall u, d (KFlat u) = content c u.
Proof. intros S. apply S. Qed.

Lemma shows_state {d h c} : shows d h c -> forall b, In b c -> present d (bid b) = true.
Proof. intros S. apply S. Qed.

(* what a restarted node needs, [shows d (last_id bs) bs] written out: the reported head is the tip
   of a chain whose effects are exactly the flat key space and whose blocks all have their state *)
Definition Good (d : db) (bs : list block) : Prop :=
  head_id d = last_id bs
  /\ (forall u, d (KFlat u) = content bs u)
  /\ (forall b, In b bs -> present d (bid b) = true).

Definition valid_next (bs : list block) (b : block) : Prop :=
  bparent b = last_id bs /\ valid_eff (content bs) b.

Lemma good_state_ok d bs : Good d bs -> state_ok d = true.
Proof.
  intros G. unfold state_ok. rewrite (shows_head G).
  destruct bs as [|b bs _] using rev_ind; [reflexivity|].
  rewrite last_id_snoc. apply (shows_state G), in_or_app. right. left. reflexivity.
Qed.

Lemma good_init : Good init [].
Proof. split; [reflexivity|]. split; [reflexivity|intros b []]. Qed.

(* a put outside head/flat can only add to [present]; a canonical hash is never read back *)
Definition harmless_sop (o : sop) : bool :=
  match o with
  | SPut k _ => negb (is_head k) && negb (is_flat k)
  | SDel k => is_canon k
  end.
Definition wop_ops (w : wop) : list sop := match w with W1 o => [o] | WBatch l => l end.
Definition harmless (w : wop) : bool := forallb harmless_sop (wop_ops w).

Lemma apply_wop_ops d w : apply_wop d w = apply_sops (wop_ops w) d.
Proof. destruct w; reflexivity. Qed.

Lemma present_mono d d' id :
  (forall k, isSome (d k) = true -> isSome (d' k) = true) -> present d id = true -> present d' id = true.
Proof.
  intros H. unfold present. destruct (id =? 0); [reflexivity|]. cbn [orb].
  intros P. apply andb_prop in P as [P12 P3]. apply andb_prop in P12 as [P1 P2].
  rewrite (H _ P1), (H _ P2), (H _ P3). reflexivity.
Qed.

Lemma harmless_sop_shows d o h c : harmless_sop o = true -> shows d h c -> shows (apply_sop d o) h c.
Proof.
  destruct o as [k v|k]; cbn [harmless_sop apply_sop]; intros H S.
  - destruct S as [S1 [S2 S3]]. split; [|split].
    + destruct k; try discriminate H; exact S1.
    + intros u. destruct k; try discriminate H; apply S2.
    + intros b Hb. apply (present_mono d); [|apply S3, Hb].
      intros k'. unfold upd. destruct (key_eqb k' k); [reflexivity|trivial].
  - (* at a head, flat, trie or meta key the delete of a canonical hash computes away *)
    destruct k; try discriminate H. exact S.
Qed.

Lemma harmless_shows ws d h c : forallb harmless ws = true -> shows d h c -> shows (apply_all ws d) h c.
Proof.
  intros H. apply (fold_left_inv (fun d => shows d h c) apply_wop). intros d0 w Hw. rewrite apply_wop_ops.
  apply (fold_left_inv (fun d => shows d h c) apply_sop). intros d1 o Ho.
  apply harmless_sop_shows. rewrite forallb_forall in H. exact (proj1 (forallb_forall _ _) (H w Hw) o Ho).
Qed.

Lemma harmless_crash_shows ws k d h c : forallb harmless ws = true -> shows d h c -> shows (crash k ws d) h c.
Proof.
  intros H. apply harmless_shows. rewrite forallb_forall in *. intros w Hw. apply H, (firstn_In k), Hw.
Qed.

Lemma fwd_fail_harmless b : forallb harmless (fwd_fail b) = true.
Proof. reflexivity. Qed.

Lemma block_batch_spec hib b d k :
  apply_sops (block_batch hib b) d k =
  if is_head k && hib then Some (bid b)
  else if key_eqb k (KMeta (bid b)) then Some 1
  else apply_sops (eff_ops b) d k.
Proof. unfold block_batch. rewrite !apply_sops_app. destruct hib, k; reflexivity. Qed.

(* the state reached by the block batch, [shows d (if hib then bid b else last_id bs) (bs ++ [b])]
   written out *)
Definition AfterBatch (hib : bool) (d : db) (bs : list block) (b : block) : Prop :=
  head_id d = (if hib then bid b else last_id bs)
  /\ (forall u, d (KFlat u) = content (bs ++ [b]) u)
  /\ (forall x, In x (bs ++ [b]) -> present d (bid x) = true).

Lemma shows_block_batch hib d h c b :
  shows d h c ->
  isSome (d (KTrie (bid b) 0)) = true -> isSome (d (KTrie (bid b) 1)) = true ->
  shows (apply_wop d (WBatch (block_batch hib b))) (if hib then bid b else h) (c ++ [b]).
Proof.
  intros [S1 [S2 S3]] T0 T1. cbn [apply_wop]. split; [|split].
  - unfold head_id. rewrite block_batch_spec. destruct hib; [reflexivity|].
    cbn [is_head andb key_eqb]. rewrite eff_ops_other by reflexivity. exact S1.
  - intros u. rewrite block_batch_spec, eff_ops_flat, content_snoc. unfold apply_block.
    rewrite S2. reflexivity.
  - intros x Hx. unfold present. destruct (bid x =? 0) eqn:E0; [reflexivity|].
    rewrite !block_batch_spec, !eff_ops_other by reflexivity. cbn [is_head andb key_eqb orb].
    apply in_app_or in Hx as [Hx|[<-|[]]].
    + specialize (S3 x Hx). unfold present in S3. rewrite E0 in S3.
      apply andb_prop in S3 as [P12 P3]. rewrite P12. destruct (bid x =? bid b); [reflexivity|exact P3].
    + rewrite T0, T1, N.eqb_refl. reflexivity.
Qed.

Lemma shows_head_put d h c x : shows d h c -> shows (apply_wop d (W1 (SPut KHead x))) x c.
Proof.
  (* at a flat, trie or meta key the put to [KHead] computes away *)
  intros [_ S]. split; [reflexivity|exact S].
Qed.

Lemma rollback_batch_spec b pid pnum d k :
  apply_all (back_writes b pid pnum) d k =
  if key_eqb k (KCanon pnum) then Some pid
  else if is_head k then Some pid
  else apply_sops (undo_ops b) (upd d (KCanon (bnum b)) None) k.
Proof.
  change (apply_all (back_writes b pid pnum) d)
    with (apply_sops (undo_ops b ++ [SPut KHead pid; SPut (KCanon pnum) pid]) (upd d (KCanon (bnum b)) None)).
  rewrite apply_sops_app. destruct k; reflexivity.
Qed.

Lemma shows_rollback d h c b pid pnum :
  shows d h (c ++ [b]) -> valid_eff (content c) b ->
  shows (apply_all (back_writes b pid pnum) d) pid c.
Proof.
  intros [_ [S2 S3]] V. split; [|split].
  - unfold head_id. rewrite rollback_batch_spec. reflexivity.
  - intros u. rewrite rollback_batch_spec. cbn [key_eqb is_head]. rewrite undo_ops_flat.
    rewrite <- (undo_apply (content c) b V u). unfold undo_block, upd. cbn [key_eqb].
    rewrite S2, content_snoc. reflexivity.
  - intros x Hx. specialize (S3 x (in_or_app _ _ _ (or_introl Hx))). unfold present in *.
    rewrite !rollback_batch_spec. cbn [key_eqb is_head]. rewrite !undo_ops_other by reflexivity. exact S3.
Qed.

Lemma shows_tip d bs b : shows d (bid b) (bs ++ [b]) -> Good d (bs ++ [b]).
Proof. unfold Good. rewrite last_id_snoc. trivial. Qed.

(* [fwd_writes]: writes 1 to 4 are harmless and bring the tries of b, 5 is the block batch, 6 the
   head put *)
Lemma fwd_crash_before hib d bs b k :
  Good d bs -> (k < 5)%nat -> Good (crash k (fwd_writes hib b) d) bs.
Proof.
  intros G Hk. rewrite <- (crash_firstn 4) by exact (le_S_n _ _ Hk).
  apply harmless_crash_shows; [reflexivity|exact G].
Qed.

Lemma fwd_crash_window hib d bs b :
  Good d bs -> AfterBatch hib (crash 5 (fwd_writes hib b) d) bs b.
Proof.
  intros G.
  change (crash 5 (fwd_writes hib b) d)
    with (apply_wop (crash 4 (fwd_writes hib b) d) (WBatch (block_batch hib b))).
  apply shows_block_batch; [apply fwd_crash_before; [exact G|apply le_n]| |].
  (* writes 3 and 4 have put the two tries of b *)
  - cbn. rewrite upd_other by discriminate. rewrite upd_same. reflexivity.
  - cbn. rewrite upd_same. reflexivity.
Qed.

Lemma fwd_complete hib d bs b :
  Good d bs -> Good (apply_all (fwd_writes hib b) d) (bs ++ [b]).
Proof. intros G. apply shows_tip, shows_head_put with (1 := fwd_crash_window hib d bs b G). Qed.

Lemma back_crash d bs b pnum k :
  Good d (bs ++ [b]) -> valid_eff (content bs) b ->
  Good (crash k (back_writes b (last_id bs) pnum) d) (if (k =? 0)%nat then bs ++ [b] else bs).
Proof.
  intros G V. destruct k as [|k]; [exact G|].
  rewrite crash_all by apply le_n_S, Nat.le_0_l. exact (shows_rollback _ _ _ _ _ _ G V).
Qed.

Definition chain_after (bs : list block) (s : step) : list block :=
  match s with
  | SStore _ => bs
  | SFwd b => bs ++ [b]
  | SBack _ _ _ => removelast bs
  end.

Definition step_ok (bs : list block) (s : step) : Prop :=
  match s with
  | SStore _ => True
  | SFwd b => valid_next bs b
  | SBack b pid _ => exists bs0, bs = bs0 ++ [b] /\ valid_eff (content bs0) b /\ pid = last_id bs0
  end.

Fixpoint script_ok (bs : list block) (ss : list step) : Prop :=
  match ss with
  | [] => True
  | s :: ss' => step_ok bs s /\ script_ok (chain_after bs s) ss'
  end.

Fixpoint chain_end (bs : list block) (ss : list step) : list block :=
  match ss with
  | [] => bs
  | s :: ss' => chain_end (chain_after bs s) ss'
  end.

Fixpoint chains (bs : list block) (ss : list step) : list (list block) :=
  bs :: match ss with [] => [] | s :: ss' => chains (chain_after bs s) ss' end.

(* the only crash points that are not safe: in a forward step, after its block batch (write 5) and
   before the head put, when the head hash is not in the batch *)
Definition in_window (hib : bool) (s : step) (k : nat) : bool :=
  match s with SFwd _ => negb hib && (k =? 5)%nat | _ => false end.

Fixpoint windowb (hib : bool) (ss : list step) (k : nat) : bool :=
  match ss with
  | [] => false
  | s :: ss' =>
      let n := length (step_writes hib s) in
      if (k <=? n)%nat then in_window hib s k else windowb hib ss' (k - n)
  end.

Lemma chains_head bs ss : In bs (chains bs ss).
Proof. destruct ss; left; reflexivity. Qed.

Lemma script_writes_cons hib s ss : script_writes hib (s :: ss) = step_writes hib s ++ script_writes hib ss.
Proof. reflexivity. Qed.

Lemma step_complete hib d bs s :
  Good d bs -> step_ok bs s -> Good (apply_all (step_writes hib s) d) (chain_after bs s).
Proof.
  intros G Hs. destruct s as [b|b|b pid pnum]; cbn [step_writes chain_after].
  - apply harmless_shows; [reflexivity|exact G].
  - apply fwd_complete, G.
  - destruct Hs as [bs0 [-> [V ->]]]. rewrite removelast_last. exact (shows_rollback _ _ _ _ _ _ G V).
Qed.

Lemma step_crash hib d bs s k :
  Good d bs -> step_ok bs s -> in_window hib s k = false ->
  Good (crash k (step_writes hib s) d) bs \/ Good (crash k (step_writes hib s) d) (chain_after bs s).
Proof.
  intros G Hs Hw. destruct s as [b|b|b pid pnum]; cbn [step_writes chain_after].
  - left. apply harmless_crash_shows; [reflexivity|exact G].
  - destruct (Nat.lt_trichotomy k 5) as [H|[->|H]].
    + left. apply fwd_crash_before; assumption.
    + destruct hib; [|discriminate Hw]. right. apply shows_tip, (fwd_crash_window true), G.
    + right. rewrite crash_all by exact H. apply fwd_complete, G.
  - destruct Hs as [bs0 [-> [V ->]]]. rewrite removelast_last.
    pose proof (back_crash d bs0 b pnum k G V) as B.
    destruct (k =? 0)%nat; [left|right]; exact B.
Qed.

Lemma script_complete hib ss : forall d bs,
  Good d bs -> script_ok bs ss -> Good (apply_all (script_writes hib ss) d) (chain_end bs ss).
Proof.
  induction ss as [|s ss IH]; intros d bs G Hok; [exact G|].
  destruct Hok as [Hs Hss]. rewrite script_writes_cons, apply_all_app. apply IH; [|exact Hss].
  apply step_complete; assumption.
Qed.

Lemma script_crash hib ss : forall d bs k,
  Good d bs -> script_ok bs ss -> windowb hib ss k = false ->
  exists bs', In bs' (chains bs ss) /\ Good (crash k (script_writes hib ss) d) bs'.
Proof.
  induction ss as [|s ss IH]; intros d bs k G Hok Hw.
  - exists bs. split; [apply chains_head|]. rewrite crash_all by apply Nat.le_0_l. exact G.
  - destruct Hok as [Hs Hss]. rewrite script_writes_cons, crash_app. cbn [windowb] in Hw.
    destruct (k <=? length (step_writes hib s))%nat eqn:E.
    + destruct (step_crash hib d bs s k G Hs Hw) as [H|H].
      * exists bs. split; [apply chains_head|exact H].
      * exists (chain_after bs s). split; [right; apply chains_head|exact H].
    + destruct (IH (apply_all (step_writes hib s) d) (chain_after bs s) (k - length (step_writes hib s))%nat)
        as [bs' [Hin Hg]]; [apply step_complete; assumption|exact Hss|exact Hw|].
      exists bs'. split; [right; exact Hin|exact Hg].
Qed.

Lemma windowb_fixed ss : forall k, windowb true ss k = false.
Proof.
  induction ss as [|s ss IH]; intros k; [reflexivity|]. cbn [windowb].
  destruct (k <=? length (step_writes true s))%nat; [|apply IH]. destruct s; reflexivity.
Qed.

Lemma check_good d bs b : Good d bs -> valid_next bs b -> check (apply_all (fwd_pre b) d) b = true.
Proof.
  intros G [Hp [V1 _]].
  pose proof (harmless_shows (fwd_pre b) _ _ _ eq_refl G) as G'.
  unfold check. apply andb_true_intro. split.
  - rewrite Hp, <- (shows_head G'). exact (good_state_ok _ bs G').
  - unfold inputs_present. apply forallb_forall. intros [u v] Hin. cbn [fst].
    destruct (V1 u v Hin) as [H|H]; [|rewrite H; apply orb_true_r].
    rewrite (shows_flat G'), H. reflexivity.
Qed.

Lemma exec_step_apply hib d bs s :
  Good d bs -> step_ok bs s -> exec_step hib d s = apply_all (step_writes hib s) d.
Proof.
  intros G Hs. destruct s as [b|b|b pid pnum]; [reflexivity| |reflexivity].
  cbn [exec_step step_writes]. rewrite (check_good d bs b G Hs). unfold fwd_writes. rewrite apply_all_app. reflexivity.
Qed.

Lemma exec_apply hib ss : forall d bs,
  Good d bs -> script_ok bs ss -> exec hib d ss = apply_all (script_writes hib ss) d.
Proof.
  induction ss as [|s ss IH]; intros d bs G Hok; [reflexivity|].
  destruct Hok as [Hs Hss]. rewrite script_writes_cons, apply_all_app.
  change (exec hib d (s :: ss)) with (exec hib (exec_step hib d s) ss).
  rewrite (exec_step_apply hib d bs s G Hs).
  apply (IH _ (chain_after bs s)); [apply step_complete; assumption|exact Hss].
Qed.

Lemma exec_good hib ss d bs :
  Good d bs -> script_ok bs ss -> Good (exec hib d ss) (chain_end bs ss).
Proof. intros G Hok. rewrite (exec_apply hib ss d bs G Hok). apply script_complete; assumption. Qed.

Definition append_script (b : block) : list step := [SStore b; SFwd b].

Lemma append_writes_len hib b : length (script_writes hib (append_script b)) = 11%nat.
Proof. reflexivity. Qed.

Lemma append_writes hib b : script_writes hib (append_script b) = store_writes b ++ fwd_writes hib b.
Proof. unfold script_writes, append_script. cbn [flat_map step_writes]. rewrite app_nil_r. reflexivity. Qed.

Lemma windowb_append b k : windowb false (append_script b) k = (k =? 10)%nat.
Proof. do 13 (destruct k as [|k]; [reflexivity|]). reflexivity. Qed.

Lemma append_script_ok bs b : valid_next bs b -> script_ok bs (append_script b).
Proof. intros V. cbn. auto. Qed.

Lemma append_complete hib d bs b :
  Good d bs -> Good (apply_all (script_writes hib (append_script b)) d) (bs ++ [b]).
Proof.
  intros G. rewrite append_writes, apply_all_app.
  apply fwd_complete, harmless_shows; [reflexivity|exact G].
Qed.

(* of the 11 writes, 5 are store writes and 4 more precede the block batch (the 10th) *)
Lemma append_crash_before hib d bs b k :
  Good d bs -> (k <= 9)%nat -> Good (crash k (script_writes hib (append_script b)) d) bs.
Proof.
  intros G Hk. rewrite append_writes, crash_app.
  destruct (k <=? length (store_writes b))%nat.
  - apply harmless_crash_shows; [reflexivity|exact G].
  - apply fwd_crash_before; [apply harmless_shows; [reflexivity|exact G]|].
    apply Nat.lt_succ_r, Nat.le_sub_le_add_r, Hk.
Qed.

Lemma append_crash_window hib d bs b :
  Good d bs -> AfterBatch hib (crash 10 (script_writes hib (append_script b)) d) bs b.
Proof.
  intros G. rewrite append_writes, crash_app.
  apply fwd_crash_window, harmless_shows; [reflexivity|exact G].
Qed.

Lemma check_missing_input d s u v :
  In (u, v) (bspent s) -> memk u (bcreated s) = false -> d (KFlat u) = None -> check d s = false.
Proof.
  intros Hin Hc Hd. unfold check, inputs_present. apply andb_false_intro2, not_true_is_false. intros E.
  rewrite forallb_forall in E. specialize (E (u, v) Hin). cbn [fst] in E. rewrite Hd, Hc in E. discriminate.
Qed.

(* SetCurrentHeader's error path: the canonical hash is written, the block rejected, the hash
   deleted again *)
Lemma fwd_rejected_shows hib d b h c :
  check (apply_all (fwd_pre b) d) b = false -> shows d h c -> shows (exec_step hib d (SFwd b)) h c.
Proof.
  intros H S. cbn [exec_step]. rewrite H.
  apply harmless_shows; [apply fwd_fail_harmless|]. apply harmless_shows; [reflexivity|exact S].
Qed.

Lemma missing_input_rejected hib d h c s u v :
  In (u, v) (bspent s) -> memk u (bcreated s) = false -> d (KFlat u) = None -> shows d h c ->
  check (apply_all (fwd_pre s) (apply_all (store_writes s) d)) s = false
  /\ shows (exec hib d (append_script s)) h c.
Proof.
  intros Hin Hc Hd S.
  (* the store and canonical writes leave the flat keys as they are, by computation *)
  pose proof (check_missing_input (apply_all (fwd_pre s) (apply_all (store_writes s) d)) s u v Hin Hc Hd) as Hchk.
  split; [exact Hchk|].
  apply (fwd_rejected_shows hib _ s h c Hchk), harmless_shows; [reflexivity|exact S].
Qed.

Lemma after_batch_spent hib d bs b u w : AfterBatch hib d bs b -> In (u, w) (bspent b) -> d (KFlat u) = None.
Proof.
  intros A Hb. rewrite (shows_flat A), content_snoc. unfold apply_block. rewrite (in_memk u w _ Hb). reflexivity.
Qed.

Lemma window_not_good d bs b u :
  AfterBatch false d bs b -> bid b <> last_id bs -> content (bs ++ [b]) u <> content bs u ->
  ~ (Good d bs \/ Good d (bs ++ [b])).
Proof.
  intros A Hid Hu [G|G].
  - apply Hu. rewrite <- (shows_flat A). apply (shows_flat G).
  - apply Hid. rewrite <- (last_id_snoc bs b), <- (shows_head G). exact (shows_head A).
Qed.

Lemma spend_one_valid bs i n c x u v :
  content bs u = Some v -> content bs c = None -> valid_next bs (mkB i (last_id bs) n [(c, x)] [(u, v)]).
Proof.
  intros Hu Hc. split; [reflexivity|].
  split; intros u' v' [E|[]]; injection E as <- <-; [left; exact Hu|exact Hc].
Qed.

(* the witness of F7: wb2 spends the entry wb1 created *)
Definition wb1 : block := mkB 1 0 1 [(1, 7)] [].
Definition wb2 : block := mkB 2 1 2 [(2, 8)] [(1, 7)].
Definition wd1 : db := apply_all (script_writes false (append_script wb1)) init.

Lemma wd1_good : Good wd1 [wb1].
Proof. exact (append_complete false init [] wb1 good_init). Qed.

Lemma wb2_valid : valid_next [wb1] wb2.
Proof. apply (spend_one_valid [wb1]); reflexivity. Qed.

Definition wb3 : block := mkB 3 1 2 [(3, 9)] [(1, 7)].      (* sibling of wb2 spending the same entry *)
Definition wd2 : db := apply_all (script_writes false (append_script wb2)) wd1.
Definition wreorg : list step := [SBack wb2 1 1; SFwd wb3].

Lemma wd2_good : Good wd2 [wb1; wb2].
Proof. exact (append_complete false wd1 [wb1] wb2 wd1_good). Qed.

Lemma wb3_valid : valid_next [wb1] wb3.
Proof. apply (spend_one_valid [wb1]); reflexivity. Qed.

Lemma wreorg_ok : script_ok [wb1; wb2] wreorg.
Proof.
  split.
  - exists [wb1]. split; [reflexivity|]. split; [apply wb2_valid|reflexivity].
  - split; [exact wb3_valid|exact I].
Qed.

Fixpoint flat_mapN {A} (f : N -> list A) (l : list N) : list A :=
  match l with [] => [] | x :: l' => f x ++ flat_mapN f l' end.

(* classes of the writes issued by StateProcessor.Apply, BodyDb.Append and a forward step of
   SetCurrentHeader (extension branch or roll-forward loop), in source order of the call sites
   (event codes: head of Generated/C11Gen.v); the error path's DeleteCanonicalHash (4) is left out *)
Definition apply_classes : list opclass :=
  flat_mapN (fun e => if e =? 31 then [CPutBlock] else if e =? 32 then [CBatchTrie] else []) apply_calls.
Definition append_classes : list opclass :=
  flat_mapN (fun e => if e =? 36 then apply_classes else if e =? 21 then [CBatchBlock head_in_batch] else []) append_calls.
Definition static_fwd_classes (calls : list N) : list opclass :=
  flat_mapN (fun e => if e =? 1 then [CPutCanon] else if e =? 2 then append_classes
                      else if e =? 3 then [CPutHead] else []) calls.

Definition countN (x : N) (l : list N) : nat := length (filter (N.eqb x) l).
Fixpoint index_of (x : N) (l : list N) : nat :=
  match l with [] => 0 | y :: l' => if x =? y then 0 else S (index_of x l') end.

(* rollback loop: one batch per iteration; head hash and canonical hashes go to that batch and
   precede its single Write; no direct head/canonical write inside the loop *)
Definition rollback_atomic : bool :=
  (countN 20 rollback_calls =? 1)%nat && (countN 21 rollback_calls =? 1)%nat
  && (countN 1 rollback_calls =? 0)%nat && (countN 3 rollback_calls =? 0)%nat && (countN 4 rollback_calls =? 0)%nat
  && (countN 13 rollback_calls =? 1)%nat && (countN 11 rollback_calls =? 1)%nat && (countN 14 rollback_calls =? 1)%nat
  && (index_of 20 rollback_calls <? index_of 14 rollback_calls)%nat
  && (index_of 13 rollback_calls <? index_of 21 rollback_calls)%nat
  && (index_of 11 rollback_calls <? index_of 21 rollback_calls)%nat
  && (index_of 14 rollback_calls <? index_of 21 rollback_calls)%nat
  && (index_of 22 rollback_calls <? index_of 21 rollback_calls)%nat
  && (index_of 21 rollback_calls <? index_of 42 rollback_calls)%nat.

(* the block batch in the source: no function it is handed to commits it or writes past it;
   BodyDb.Append calls NewBatch once and batch.Write once, after Apply, which calls neither *)
Definition static_single_commit : bool :=
  (borrowed_batch_flush_sites =? 0) && (borrowed_batch_bypass_sites =? 0)
  && (0 <? borrowed_batch_functions) && (0 <? borrowed_batch_write_sites)
  && (countN 20 append_calls =? 1)%nat && (countN 21 append_calls =? 1)%nat
  && (countN 21 apply_calls =? 0)%nat && (countN 20 apply_calls =? 0)%nat
  && (index_of 36 append_calls <? index_of 21 append_calls)%nat.

Lemma has_key_owned_put_ops l : has_key is_owned (put_ops l) = negb (match l with [] => true | _ => false end).
Proof. destruct l; reflexivity. Qed.

Lemma block_batch_has f hib b : f (KMeta (bid b)) = true -> has_key f (block_batch hib b) = true.
Proof.
  intros Hf. unfold block_batch. rewrite !has_key_app, (has_key_cons f). cbn [sop_key]. rewrite Hf. apply orb_true_r.
Qed.

Lemma block_batch_head_key hib b : has_key is_head (block_batch hib b) = hib.
Proof.
  unfold block_batch, eff_ops. rewrite has_key_app, has_key_flat_ops by reflexivity. destruct hib; reflexivity.
Qed.

Lemma class_block_batch hib b : class_of (WBatch (block_batch hib b)) = CBatchBlock hib.
Proof.
  cbn [class_of]. rewrite (block_batch_has is_meta), block_batch_head_key by reflexivity. reflexivity.
Qed.

Lemma fwd_classes hib b :
  map class_of (fwd_writes hib b) = [CPutCanon; CPutBlock; CBatchTrie; CBatchTrie; CBatchBlock hib; CPutHead].
Proof.
  unfold fwd_writes, fwd_pre, fwd_post. cbn [app map]. rewrite class_block_batch. reflexivity.
Qed.

Lemma back_writes_keys b pid pnum :
  exists l, back_writes b pid pnum = [WBatch l]
            /\ has_key is_meta l = false /\ has_key is_head l = true /\ has_key is_canon l = true.
Proof.
  eexists. split; [reflexivity|]. unfold undo_ops.
  repeat split; rewrite has_key_cons, has_key_app, has_key_flat_ops by reflexivity; reflexivity.
Qed.

Lemma back_classes b pid pnum : map class_of (back_writes b pid pnum) = [CBatchRollback].
Proof.
  destruct (back_writes_keys b pid pnum) as [l [-> [M [H C]]]]. cbn [map class_of]. rewrite M, H, C. reflexivity.
Qed.

Lemma count_flat_map {A B} (f : A -> list B) (p : B -> bool) (q : A -> bool) :
  (forall x, length (filter p (f x)) = if q x then 1 else 0)%nat ->
  forall l, length (filter p (flat_map f l)) = length (filter q l).
Proof.
  intros H. induction l as [|x l IH]; [reflexivity|].
  cbn [flat_map filter]. rewrite filter_app, app_length, IH, H. destruct (q x); reflexivity.
Qed.

Lemma owned_step hib s :
  (forall w, In w (step_writes hib s) -> touches_owned w = true ->
             is_block_batch w = true \/ is_rollback_batch w = true)
  /\ length (filter is_block_batch (step_writes hib s)) = (if is_fwd_step s then 1 else 0)%nat
  /\ length (filter is_rollback_batch (step_writes hib s)) = (if is_back_step s then 1 else 0)%nat.
Proof.
  destruct s as [b|b|b pid pnum]; cbn [step_writes is_fwd_step is_back_step].
  - split; [|split; reflexivity].
    intros w [<-|[<-|[<-|[<-|[<-|[]]]]]]; discriminate.
  - pose proof (block_batch_has is_meta hib b eq_refl) as M. split.
    + intros w [<-|[<-|[<-|[<-|[<-|[<-|[]]]]]]]; try discriminate. intros _. left. exact M.
    + unfold fwd_writes, fwd_pre, fwd_post. cbn [app filter is_block_batch is_rollback_batch].
      rewrite M. split; reflexivity.
  - destruct (back_writes_keys b pid pnum) as [l [-> [M [H C]]]].
    cbn [In filter is_block_batch is_rollback_batch]. rewrite M, H, C. split; [|split; reflexivity].
    intros w [<-|[]] _. right. cbn [is_rollback_batch]. rewrite M, H, C. reflexivity.
Qed.
