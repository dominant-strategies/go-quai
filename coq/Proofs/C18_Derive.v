(* C18 -- the insertion order of core/types/hashing.go:DeriveSha: every index exactly once, and for
   every list length up to 2^64 each key rlp(i) diverges upwards from its predecessor (ascending
   byte order, no key a prefix of the next: what StackTrie needs), hence the keys are strictly
   ascending (ascb, which is strict_inc). *)
From Coq Require Import List NArith Bool Arith Lia.
From GQ Require Import Lib.Key Lib.Lists Lib.C14_BigEndian Model.C18 Proofs.C18_Base.
Import ListNotations.
Local Open Scope N_scope.

Lemma nrange_in from cnt i : In i (nrange from cnt) <-> from <= i < from + N.of_nat cnt.
Proof.
  revert from. induction cnt as [|c IH]; intros from; cbn [nrange In].
  - lia.
  - rewrite IH. lia.
Qed.

Lemma nrange_nodup from cnt : NoDup (nrange from cnt).
Proof.
  revert from. induction cnt as [|c IH]; intros from; cbn [nrange]; constructor; auto.
  rewrite nrange_in. lia.
Qed.

Lemma derive_order_in n i : In i (derive_order n) <-> i < n.
Proof.
  unfold derive_order. rewrite !in_app_iff, !nrange_in.
  destruct (N.ltb_spec 0 n); cbn [In]; lia.
Qed.

Lemma derive_order_nodup n : NoDup (derive_order n).
Proof.
  unfold derive_order. apply NoDup_app_iff. split; [apply nrange_nodup|]. split.
  - apply NoDup_app_iff. split; [|split; [apply nrange_nodup|]].
    + destruct (0 <? n); constructor; auto. constructor.
    + intros x Hx Hy. apply nrange_in in Hy. destruct (0 <? n); cbn in Hx; [|auto].
      destruct Hx as [<-|[]]. lia.
  - intros x Hx Hy. apply nrange_in in Hx. apply in_app_iff in Hy.
    destruct Hy as [Hy|Hy].
    + destruct (0 <? n); cbn in Hy; [|auto]. destruct Hy as [<-|[]]. lia.
    + apply nrange_in in Hy. lia.
Qed.

(* [be_bytes] is Lib/C14_BigEndian's [be_fuel] by conversion; the eight rounds of rlp.AppendUint64 are
   enough below 256^8 *)
Lemma be_bytes_enc x : x < 256 ^ 8 -> be_bytes 8 x [] = be_enc x.
Proof. exact (be_fuel_enc 8 x). Qed.

Lemma be_dec_lt_div_lt a : forall b, length a = length b -> wf_bytes b ->
  be_dec a < be_dec b -> div_lt a b = true.
Proof.
  induction a as [|x a IH]; intros [|y b] Hl Hb Hlt; try discriminate Hl; [cbn in Hlt; lia|].
  injection Hl as Hl. inversion Hb as [|? ? _ Hb']; subst.
  rewrite !be_dec_cons, Hl in Hlt. pose proof (be_dec_bound b Hb') as Bb.
  destruct (N.eq_dec x y) as [->|Hn].
  - cbn [div_lt]. rewrite N.eqb_refl. apply IH; auto. lia.
  - apply div_lt_head. destruct (N.lt_ge_cases x y) as [|Hge]; [assumption|].
    assert ((y + 1) * 256 ^ N.of_nat (length b) <= x * 256 ^ N.of_nat (length b))
      by (apply N.mul_le_mono_r; lia).
    lia.
Qed.

Lemma rlp_uint_small i : 0 < i < 128 -> rlp_uint i = [i].
Proof.
  intros Hi. unfold rlp_uint. destruct (N.eqb_spec i 0); [lia|]. destruct (N.ltb_spec i 128); [reflexivity|lia].
Qed.

(* rlp(0) = [0x80] is the long form of the empty big-endian string *)
Lemma rlp_uint_long i : i = 0 \/ 128 <= i ->
  rlp_uint i = (128 + N.of_nat (length (be_bytes 8 i []))) :: be_bytes 8 i [].
Proof.
  intros [->|Hi]; [reflexivity|]. unfold rlp_uint.
  destruct (N.eqb_spec i 0); [lia|]. destruct (N.ltb_spec i 128); [lia|reflexivity].
Qed.

Lemma rlp_uint_wf i : i < 256 ^ 8 -> wf_bytes (rlp_uint i).
Proof.
  intros Hi. assert (C : 0 < i < 128 \/ i = 0 \/ 128 <= i) by lia. destruct C as [C|C].
  - rewrite rlp_uint_small by exact C. repeat constructor. lia.
  - rewrite rlp_uint_long, be_bytes_enc by assumption. pose proof (be_enc_length i 8 Hi) as Hl.
    constructor; [lia|apply be_enc_wf].
Qed.

(* a larger number has a longer encoding (larger first byte) or one of the same length that is larger
   in byte order *)
Lemma rlp_long_div_lt i j : i = 0 \/ 128 <= i -> 128 <= j -> i < j < 256 ^ 8 ->
  div_lt (rlp_uint i) (rlp_uint j) = true.
Proof.
  intros Hi Hj Hij. rewrite (rlp_uint_long i Hi), (rlp_uint_long j), !be_bytes_enc by lia.
  pose proof (be_dec_bound _ (be_enc_wf j)) as Bj. rewrite be_dec_enc in Bj.
  pose proof (be_enc_length i (length (be_enc j)) ltac:(lia)) as Hlen.
  destruct (Nat.eq_dec (length (be_enc i)) (length (be_enc j))) as [E|E].
  - cbn [div_lt]. rewrite E, N.eqb_refl. apply be_dec_lt_div_lt; [exact E|apply be_enc_wf|]. rewrite !be_dec_enc. lia.
  - apply div_lt_head. lia.
Qed.

Lemma chain_div_cons a b r : chain_div (a :: b :: r) = div_lt a b && chain_div (b :: r).
Proof. reflexivity. Qed.

Lemma chain_div_small from cnt tl : 0 < from -> from + N.of_nat cnt <= 128 ->
  chain_div (map rlp_uint (nrange from cnt) ++ [128] :: tl) = chain_div ([128] :: tl).
Proof.
  revert from. induction cnt as [|c IH]; intros from H0 Hc; [reflexivity|].
  rewrite <- (IH (from + 1)) by lia. cbn [nrange map app]. rewrite (rlp_uint_small from) by lia.
  destruct c as [|c]; cbn [nrange map app].
  - rewrite chain_div_cons, div_lt_head by lia. reflexivity.
  - rewrite chain_div_cons, (rlp_uint_small (from + 1)), div_lt_head by lia. reflexivity.
Qed.

Lemma chain_div_long x from cnt :
  x = 0 \/ 128 <= x -> x < from -> 128 <= from -> from + N.of_nat cnt <= 256 ^ 8 ->
  chain_div (map rlp_uint (x :: nrange from cnt)) = true.
Proof.
  revert x from. induction cnt as [|c IH]; intros x from Hx Hlt Hf Hb; [reflexivity|].
  cbn [nrange map]. rewrite chain_div_cons, rlp_long_div_lt by lia.
  apply (IH from (from + 1)); lia.
Qed.

Theorem derive_keys_diverge n : n <= 256 ^ 8 -> chain_div (map rlp_uint (derive_order n)) = true.
Proof.
  intros Hn. unfold derive_order. destruct (N.ltb_spec 0 n) as [H0|H0].
  - rewrite map_app. cbn [app map]. change (rlp_uint 0) with [128]. rewrite chain_div_small by lia.
    apply (chain_div_long 0 128); lia.
  - assert (n = 0) by lia. subst n. reflexivity.
Qed.

Fixpoint ascb (l : list (list N)) : bool :=
  match l with
  | a :: ((b :: _) as r) => kltb a b && ascb r
  | _ => true
  end.

Definition asc_bound : N := 1024.

Lemma asc_bound_le : asc_bound <= 256 ^ 8.
Proof. vm_compute. discriminate. Qed.

Lemma ascb_strict_inc l : ascb l = strict_inc l.
Proof. induction l as [|a [|b r] IH]; try reflexivity. cbn [ascb strict_inc] in *. rewrite IH. reflexivity. Qed.

Lemma chain_div_strict_inc l : chain_div l = true -> strict_inc l = true.
Proof.
  induction l as [|a [|b r] IH]; intros H; try reflexivity.
  rewrite chain_div_cons in H. apply andb_true_iff in H as [Hab Hr].
  cbn [strict_inc] in *. rewrite (div_lt_kltb _ _ Hab). apply IH, Hr.
Qed.

Lemma derive_keys_ascending n : n <= 256 ^ 8 -> ascb (map rlp_uint (derive_order n)) = true.
Proof. intros Hn. rewrite ascb_strict_inc. apply chain_div_strict_inc, derive_keys_diverge, Hn. Qed.
