(* C02 — the outbound ETX set: whatever bytecode runs, the ETX cache only grows by sends that
   operations outside every failed (rolled-back) frame recorded, in order; a frame of any kind
   that fails contributes nothing, however deep the sends inside it were.  Together with the ledger
   theorems (every cache entry was debited) this is the clause "value carried away by emitted
   cross-chain transactions" read from the side of the ETXs: no ETX leaves that nobody paid. *)
From Coq Require Import List ZArith Lia.
From GQ Require Import Model.C02 Proofs.C02_Exec Proofs.C02_Trans.
Import ListNotations.
Local Open Scope Z_scope.

Inductive sublist {A : Type} : list A -> list A -> Prop :=
| sl_nil : sublist [] []
| sl_skip x l1 l2 : sublist l1 l2 -> sublist l1 (x :: l2)
| sl_keep x l1 l2 : sublist l1 l2 -> sublist (x :: l1) (x :: l2).

Lemma sublist_nil_l {A} (l : list A) : sublist [] l.
Proof. induction l; constructor; assumption. Qed.

Lemma sublist_refl {A} (l : list A) : sublist l l.
Proof. induction l; constructor; assumption. Qed.

Lemma sublist_app {A} (a b c d : list A) : sublist a b -> sublist c d -> sublist (a ++ c) (b ++ d).
Proof. intros H1 H2. induction H1; cbn; [exact H2|constructor; assumption|constructor; assumption]. Qed.

Lemma sublist_length {A} (a b : list A) : sublist a b -> (length a <= length b)%nat.
Proof. induction 1; cbn; lia. Qed.

Lemma sublist_nil_r {A} (a : list A) : sublist a [] -> a = [].
Proof. intros H. inversion H. reflexivity. Qed.

Lemma sublist_in {A} (a b : list A) x : sublist a b -> In x a -> In x b.
Proof. induction 1; cbn; intros HI; [contradiction|right; auto|destruct HI; [left; assumption|right; auto]]. Qed.

Definition out_by (l : list (Z * Z)) (s s' : st) : Prop :=
  exists d, etx s' = etx s ++ d /\ sublist d l.

Lemma out_same l s s' : etx s' = etx s -> out_by l s s'.
Proof. intros H. exists []. rewrite app_nil_r. split; [exact H|apply sublist_nil_l]. Qed.

Lemma out_trans l1 l2 a b c : out_by l1 a b -> out_by l2 b c -> out_by (l1 ++ l2) a c.
Proof.
  intros (d1 & E1 & S1) (d2 & E2 & S2). exists (d1 ++ d2). split.
  - rewrite E2, E1. now rewrite app_assoc.
  - now apply sublist_app.
Qed.

Lemma out_eq {l a a' b b'} : etx a' = etx a -> etx b' = etx b -> out_by l a b -> out_by l a' b'.
Proof. intros Ha Hb (d & E & S). exists d. split; [congruence|exact S]. Qed.

Lemma out_one x s s' : etx s' = etx s -> out_by [x] s (add_etx x s').
Proof. intros E. exists [x]. cbn [etx add_etx]. rewrite E. split; [reflexivity|apply sublist_refl]. Qed.

Lemma fold_out e body :
  Forall (fun a => forall s, out_by (live_sends a) s (exec e a s)) body ->
  forall s, out_by (flat_map live_sends body) s (exec_list e body s).
Proof.
  unfold exec_list. induction body as [|a body IH]; cbn [fold_left flat_map]; intros HF s.
  - now apply out_same.
  - inversion HF as [|? ? Ha Hb]; subst.
    eapply out_trans; [apply Ha|apply IH; exact Hb].
Qed.

Lemma frame_out l s s2 id (rv : bool) :
  out_by l (p_snap s) s2 -> out_by (if rv then [] else l) s (frame_end (p_snap s) s2 id rv).
Proof. destruct rv; [intros _; now apply out_same|intros H; exact H]. Qed.

Theorem exec_outbound e : forall a s, out_by (live_sends a) s (exec e a s).
Proof.
  induction a as [a IH] using action_subs_ind. intros s.
  destruct (exec_outcome e a s) as [a s|a s rv|f t v r mk body rv s _ _|f v r rv s _ _|self v c r body rv s
                                   |f n v r body out s _ _|a b s|a v f s _ _|a v f s _ _];
    cbn [live_sends subs andb] in *.
  - now apply out_same.
  - apply out_same. now destruct rv.
  - apply frame_out. eapply out_eq; [|reflexivity|apply fold_out; exact IH]. now destruct mk.
  - apply frame_out. now apply out_one.
  - apply frame_out, fold_out, IH.
  - apply frame_out. eapply out_eq; [|reflexivity|apply fold_out; exact IH]. reflexivity.
  - apply out_same, (d_etx (selfdestruct_destructs e a b s)).
  - now apply out_one.
  - now apply out_same.
Qed.

(* ExecutionResult.Etxs is copied from the cache at the end of TransitionDb *)
Theorem transition_outbound {e m o top s s' r} :
  transition e m o top s = (s', r) -> out_by (live_sends top) s s'.
Proof.
  intros T. destruct (buy_only_payer m s) as (_ & _ & B & _).
  destruct (transition_cases T) as [|X|A|err A _ K|ben A _ K|A _ K]; try now apply out_same.
  - apply out_same. now rewrite (d_etx (tx_suicide_destructs e _ ben _)).
  - exact (out_eq (eq_sym B) eq_refl (exec_outbound e top (buy m s))).
Qed.
