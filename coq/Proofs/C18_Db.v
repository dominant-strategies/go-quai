(* C18 -- "survives commit and reload" at the level of trie.Database's reference counting of roots:
   a committed root stays openable while somebody holds it. *)
From Coq Require Import Bool Arith Lia.
From GQ Require Import Lib.Lists Model.C18.

(* ties the implementation's counter node.parents to the holders *)
Definition db_inv (s : dbst) : Prop :=
  forall r, disk s r = true \/ (if pres s r then hold s r <= parents s r else hold s r = 0).

Lemma db_inv0 : db_inv db0.
Proof. intros r. right. reflexivity. Qed.

(* read the fields of the updated states *)
Ltac fu := unfold fupd in *; cbn [pres disk parents mkids hold] in *.

Lemma db_step_inv s o : db_inv s -> db_inv (db_step true s o).
Proof.
  (* the invariant is read at one root q; an operation on another root r leaves it as it is *)
  intros I q. specialize (I q). destruct o as [r|r|r|r| | |r b]; cbn [db_step].
  - unfold db_ins. destruct (pres s r) eqn:P; [exact I|]. fu.
    destruct (Nat.eqb_spec q r) as [->|]; [|exact I]. rewrite P in I. destruct I as [D|I]; [left; exact D|right; lia].
  - unfold db_ref. destruct (pres s r) eqn:P; cbn [negb].
    + rewrite andb_false_r. fu. destruct (Nat.eqb_spec q r) as [->|]; [|exact I].
      rewrite P in *. destruct I as [D|I]; [left; exact D|right; lia].
    + destruct (disk s r) eqn:D; [|exact I]. fu.
      destruct (Nat.eqb_spec q r) as [->|]; [left; exact D|exact I].
  - unfold db_deref. destruct (pres s r) eqn:P; cbn [negb].
    + destruct (Nat.eqb_spec (parents s r - 1) 0) as [Z|NZ]; fu.
      * destruct (Nat.eqb_spec q r) as [->|]; [|exact I]. rewrite P in I.
        destruct I as [D|I]; [left; exact D|right; lia].
      * destruct (Nat.eqb_spec q r) as [->|]; [|exact I]. rewrite P in *.
        destruct I as [D|I]; [left; exact D|right; lia].
    + fu. destruct (Nat.eqb_spec q r) as [->|]; [|exact I]. rewrite P in *.
      destruct I as [D|I]; [left; exact D|right; lia].
  - unfold db_flush. destruct (pres s r) eqn:P; [|exact I]. fu.
    destruct (Nat.eqb_spec q r) as [->|]; [left; reflexivity|exact I].
  - unfold db_capall. fu. destruct I as [D|I]; [left; rewrite D; reflexivity|].
    destruct (pres s q); [left; apply orb_true_r|right; exact I].
  - right. reflexivity.
  - exact I.
Qed.

Lemma db_run_inv ops : forall s, db_inv s -> db_inv (db_run true ops s).
Proof. apply fold_left_inv. intros s o _. apply db_step_inv. Qed.

Lemma db_step_disk rd s o r : disk s r = true -> disk (db_step rd s o) r = true.
Proof.
  intros D. destruct o as [x|x|x|x| | |x b]; cbn [db_step]; try exact D.
  - unfold db_ins. destruct (pres s x); exact D.
  - unfold db_ref. destruct (negb (pres s x)); [destruct (disk s x); exact D|].
    destruct (Nat.ltb 0 (mkids s x) && negb rd); exact D.
  - unfold db_deref. destruct (negb (pres s x)); [exact D|].
    destruct (Nat.eqb (parents s x - 1) 0); exact D.
  - unfold db_flush. destruct (pres s x); [|exact D]. fu. destruct (Nat.eqb r x); [reflexivity|exact D].
  - unfold db_capall. fu. rewrite D. reflexivity.
Qed.

Lemma db_run_disk rd ops s r : disk s r = true -> disk (db_run rd ops s) r = true.
Proof. apply (fold_left_inv (fun s => disk s r = true)). intros s' o _. apply db_step_disk. Qed.
