(* C20 -- what the theorems about the conversion arithmetic are stated with: the checks on the
   generated constants and tables, unit conversion at a fixed rate, the predicates on headers and
   inbound ETXs, the closed evaluations (refutation witnesses, a block at real magnitudes), and the
   reviewed digests of the sliced Go statements. *)
From Coq Require Import List ZArith Lia.
From Coq Require String.
From GQ Require Import Generated.C20Params Model.C20.
Import ListNotations.
Local Open Scope Z_scope.

Definition params_ok : bool :=
  (0 <? slip_range) && (0 <=? min_slip) && (min_slip <=? max_slip) && (max_slip <=? slip_range)
  && (0 <? kquai_mult) && (0 <=? min_cubic_bp) && (min_cubic_bp <=? min_cubic_div) && (0 <? min_cubic_div)
  && (0 <? call_value_transfer_gas) && (0 <=? max_output_index).

Lemma params_ok_true : params_ok = true.
Proof. vm_compute. reflexivity. Qed.

Lemma params_facts :
  0 < slip_range /\ 0 <= min_slip <= max_slip /\ max_slip <= slip_range /\ 0 < kquai_mult /\
  0 <= min_cubic_bp <= min_cubic_div /\ 0 < min_cubic_div /\
  0 < call_value_transfer_gas /\ 0 <= max_output_index.
Proof.
  pose proof params_ok_true as H. unfold params_ok in H.
  repeat (apply andb_prop in H; destruct H as [H ?]).
  rewrite ?Z.ltb_lt, ?Z.leb_le in *. lia.
Qed.

Lemma two64_pos : 0 < two64.
Proof. reflexivity. Qed.

Lemma quai_reward_pos : forall k l, 0 <= k -> 0 <= l -> 1 <= quai_reward k l.
Proof.
  intros k l Hk Hl. unfold quai_reward.
  pose proof (Z.quot_pos (k * l) two64 ltac:(nia) two64_pos).
  destruct (Z.eqb_spec (Z.quot (k * l) two64) 0); lia.
Qed.

Lemma qi_reward_pos : forall d q, 0 <= d -> 0 < q -> 1 <= qi_reward d q.
Proof.
  intros d q Hd Hq. unfold qi_reward.
  pose proof (Z.quot_pos d q Hd Hq).
  destruct (Z.eqb_spec (Z.quot d q) 0); lia.
Qed.

Lemma quai_to_qi_swap : forall a b x, quai_to_qi a b x = qi_to_quai b a x.
Proof. reflexivity. Qed.

Lemma qi_to_quai_div : forall a b x, 1 <= a -> 1 <= b -> 0 <= x -> qi_to_quai a b x = a * x / b.
Proof. intros. apply Z.quot_div_nonneg; nia. Qed.

Lemma qi_to_quai_nonneg : forall a b x, 1 <= a -> 1 <= b -> 0 <= x -> 0 <= qi_to_quai a b x.
Proof. intros. rewrite qi_to_quai_div by assumption. apply Z.div_pos; nia. Qed.
Lemma quai_to_qi_nonneg : forall a b x, 1 <= a -> 1 <= b -> 0 <= x -> 0 <= quai_to_qi a b x.
Proof. intros. rewrite quai_to_qi_swap. apply qi_to_quai_nonneg; assumption. Qed.

Lemma qi_to_quai_mono : forall a b x y, 1 <= a -> 1 <= b -> 0 <= x -> x <= y ->
  qi_to_quai a b x <= qi_to_quai a b y.
Proof. intros. rewrite !qi_to_quai_div by lia. apply Z.div_le_mono; nia. Qed.
Lemma quai_to_qi_mono : forall a b x y, 1 <= a -> 1 <= b -> 0 <= x -> x <= y ->
  quai_to_qi a b x <= quai_to_qi a b y.
Proof. intros. rewrite !quai_to_qi_swap. apply qi_to_quai_mono; assumption. Qed.

Lemma roundtrip_div : forall a b x, 1 <= a -> 1 <= b -> 0 <= x ->
  qi_to_quai a b (quai_to_qi a b x) = a * (b * x / a) / b.
Proof.
  intros a b x Ha Hb Hx. rewrite quai_to_qi_swap, (qi_to_quai_div b a x) by assumption.
  apply qi_to_quai_div; try assumption. apply Z.div_pos; nia.
Qed.

Lemma scale_le : forall x n d, 0 <= x -> n <= d -> 0 < d -> x * n / d <= x.
Proof. intros. apply Z.div_le_upper_bound; nia. Qed.

(* the hypothesis recorded for the discount oracle holds of the documented formula *)
Lemma disc_ideal_bounds : forall v m, 0 <= v -> 0 <= disc_ideal v m <= v.
Proof.
  intros v m Hv. unfold disc_ideal.
  assert (Hbp : 0 <= min_cubic_bp <= min_cubic_div) by apply params_facts.
  assert (Hdiv : 0 < min_cubic_div) by apply params_facts.
  destruct (Z.leb_spec v m) as [Hvm|Hvm].
  - split; [apply Z.div_pos; nia|apply scale_le; lia].
  - destruct (Z.ltb_spec (10 * m) v) as [H10|H10]; [lia|].
    assert (Hm3 : 0 < m * m * m) by nia.
    split; [lia|].
    apply Z.max_lub; [lia|].
    apply Z.div_le_upper_bound; [lia|].
    assert (0 <= v * v * v) by nia. nia.
Qed.

Definition pair_ok (p : Z * Z) : bool :=
  (den_value (fst p) =? snd p) && (0 <? snd p) && (snd p <? two64).
Definition dens_ok : bool :=
  forallb pair_ok dens_desc && (last (map snd dens_desc) 0 =? 1)
  && (Z.of_nat (length denominations) =? max_denomination + 1)
  && (denominations_map_size =? max_denomination + 1).
Lemma dens_ok_true : dens_ok = true.
Proof. vm_compute. reflexivity. Qed.

Definition top_den : Z := snd (hd (0, 0) dens_desc).

Definition dens_hi : list (Z * Z) := filter above_trim dens_desc.
Definition dens_lo : list (Z * Z) := filter (fun p => negb (above_trim p)) dens_desc.
Definition smallest_refundable : Z := snd (last dens_hi (0, 0)).

Definition trim_split_ok : bool :=
  forallb pair_ok dens_hi && forallb pair_ok dens_lo
  && forallb (fun p => max_trim_denomination <? fst p) dens_hi
  && forallb (fun p => fst p <=? max_trim_denomination) dens_lo
  && negb (Nat.eqb (length dens_hi) 0) && negb (Nat.eqb (length dens_lo) 0)
  && (last (map snd dens_lo) 0 =? 1)
  && (smallest_refundable =? den_value (max_trim_denomination + 1)).
Lemma trim_split_ok_true : trim_split_ok = true.
Proof. vm_compute. reflexivity. Qed.

Lemma fold_sum_app : forall (A : Type) (f : A -> Z) a b,
  fold_right (fun x acc => f x + acc) 0 (a ++ b) =
  fold_right (fun x acc => f x + acc) 0 a + fold_right (fun x acc => f x + acc) 0 b.
Proof.
  induction a as [|x a IH]; intros b; cbn [app fold_right]; [reflexivity|]. rewrite IH. lia.
Qed.

Lemma denoms_sum_cons : forall i c l, denoms_sum ((i, c) :: l) = c * den_value i + denoms_sum l.
Proof. reflexivity. Qed.
Lemma denoms_sum_app : forall a b, denoms_sum (a ++ b) = denoms_sum a + denoms_sum b.
Proof. exact (fold_sum_app _ (fun p => snd p * den_value (fst p))). Qed.

Inductive desc_sorted : list etx -> Prop :=
| ds_nil : desc_sorted []
| ds_cons : forall x l, (forall y, In y l -> sort_key y <= sort_key x) -> desc_sorted l -> desc_sorted (x :: l).

Definition same_key (k : Z) (e : etx) : bool := sort_key e =? k.

Lemma slip_of_range : forall e, min_slip <= slip_of e <= max_slip.
Proof.
  intros e. destruct params_facts as (_ & Hslip & _). unfold slip_of. destruct (e_slip e) as [s|]; [|lia].
  destruct (Z.ltb_spec max_slip s).
  - destruct (Z.ltb_spec max_slip min_slip); lia.
  - destruct (Z.ltb_spec s min_slip); lia.
Qed.

Lemma floor10_ge_tenth : forall o v, o * 10 / 100 <= floor10 o v.
Proof. intros. unfold floor10. destruct (Z.ltb_spec v (o * 10 / 100)); lia. Qed.
Lemma floor10_ge_v : forall o v, v <= floor10 o v.
Proof. intros. unfold floor10. destruct (Z.ltb_spec v (o * 10 / 100)); lia. Qed.
Lemma ten_percent_bounds : forall o, 0 <= o -> 0 <= o * 10 / 100 <= o.
Proof. intros o Ho. split; [apply Z.div_pos|apply scale_le]; lia. Qed.
Lemma floor10_le : forall o v, 0 <= o -> v <= o -> floor10 o v <= o.
Proof.
  intros o v Ho Hv. unfold floor10. pose proof (ten_percent_bounds o Ho).
  destruct (Z.ltb_spec v (o * 10 / 100)); lia.
Qed.

Definition rates_ok (h : hdr) : Prop := 0 <= h_k h /\ 0 <= h_logdiff h /\ 0 <= h_diff h /\ 0 < h_kqi h.
Lemma rates_ok_ra : forall h, rates_ok h -> 1 <= ra h.
Proof. intros h (A & B & _). apply quai_reward_pos; assumption. Qed.
Lemma rates_ok_rb : forall h, rates_ok h -> 1 <= rb h.
Proof. intros h (_ & _ & C & D). apply qi_reward_pos; assumption. Qed.
Lemma rates_ok_ra_new : forall h knew, rates_ok h -> 0 <= knew -> 1 <= ra_new h knew.
Proof. intros h knew (_ & B & _) Hk. apply quai_reward_pos; assumption. Qed.

Definition inputs_ok (h : hdr) (knew : Z) (etxs : list etx) : Prop :=
  rates_ok h /\ 0 <= knew /\ Forall (fun e => 0 <= e_value e) etxs.

Definition rate_amount (h : hdr) (knew : Z) (e : etx) (x : Z) : Z :=
  if e_toqi e then quai_to_qi (ra_new h knew) (rb h) x else qi_to_quai (ra_new h knew) (rb h) x.

Lemma rate_amount_mono : forall h knew e x y, rates_ok h -> 0 <= knew -> 0 <= x -> x <= y ->
  rate_amount h knew e x <= rate_amount h knew e y.
Proof.
  intros h knew e x y Hr Hk Hx Hxy. unfold rate_amount.
  pose proof (rates_ok_ra_new h knew Hr Hk). pose proof (rates_ok_rb h Hr).
  destruct (e_toqi e); [apply quai_to_qi_mono|apply qi_to_quai_mono]; assumption.
Qed.
Lemma rate_amount_nonneg : forall h knew e x, rates_ok h -> 0 <= knew -> 0 <= x -> 0 <= rate_amount h knew e x.
Proof.
  intros h knew e x Hr Hk Hx. unfold rate_amount.
  pose proof (rates_ok_ra_new h knew Hr Hk). pose proof (rates_ok_rb h Hr).
  destruct (e_toqi e); [apply quai_to_qi_nonneg|apply qi_to_quai_nonneg]; assumption.
Qed.

(* the full statement "a reverted conversion returns exactly the original" is false on the Qi side:
   with no ETX gas nothing is refunded, and the trim rule drops the small pieces *)
Lemma refund_qi_original_refuted :
  (exists v, 0 <= v < two64 * top_den /\ 0 < v - dust v /\ fst (fst (fst (refund_qi v 0))) = 0)
  /\ (exists v gas, 0 <= v < two64 * top_den /\
        denoms_count (filter above_trim (find_min_denominations v)) * call_value_transfer_gas <= gas /\
        fst (fst (fst (refund_qi v gas))) < v).
Proof.
  split.
  - exists 5000000. vm_compute. repeat split; discriminate || reflexivity.
  - exists 1234, 1000000. vm_compute. repeat split; discriminate || reflexivity.
Qed.

(* The witnesses of the refutations below are replayed on the real code by the harness corpus. *)

Definition wit_slip_h : hdr := mkHdr 300000 0 0 0 1 50000 1000000 true.
Definition wit_slip_etxs : list etx :=
  [mkEtx 1%N true true 1000000 (Some 6000); mkEtx 2%N true false 6000000 (Some 5000)].

(* the sender's bound is only checked against the pass-one amount: the finally converted amount can be below it *)
Lemma final_slip_refuted :
  exists disc h knew etxs r o,
    (forall v m, 0 <= v -> 0 <= disc v m <= v) /\ inputs_ok h knew etxs /\ postfork h = true /\
    0 <= h_kqd h <= kquai_mult /\
    reprice disc h knew etxs = Some r /\ In o (r_out r) /\ o_kind o = KConverted /\
    o_before o < after_slip (o_e o).
Proof.
  exists disc_ideal, wit_slip_h, 0, wit_slip_etxs. do 2 eexists.
  split; [exact disc_ideal_bounds|]. split.
  { split; [|split]; [unfold rates_ok; cbn; lia|lia|repeat constructor; cbn; lia]. }
  split; [reflexivity|]. split; [vm_compute; split; discriminate|].
  split; [vm_compute; reflexivity|]. split; [left; reflexivity|]. split; reflexivity.
Qed.

Definition wit_pre_h : hdr := mkHdr 280000 0 0 0 1 100 1000000 true.
Definition wit_pre_etxs : list etx := [mkEtx 1%N true true 500000 None].

(* before ConversionSlipChangeBlock the discount is taken of the flow amount: the credit can exceed the rate amount *)
Lemma prefork_credit_refuted :
  exists disc h knew etxs r o,
    (forall v m, 0 <= v -> 0 <= disc v m <= v) /\ inputs_ok h knew etxs /\ postfork h = false /\
    0 <= h_kqd h <= kquai_mult /\
    reprice disc h knew etxs = Some r /\ In o (r_out r) /\ o_kind o = KConverted /\
    rate_amount h knew (o_e o) (e_value (o_e o)) < o_value o.
Proof.
  exists disc_ideal, wit_pre_h, 0, wit_pre_etxs. do 2 eexists.
  split; [exact disc_ideal_bounds|]. split.
  { split; [|split]; [unfold rates_ok; cbn; lia|lia|repeat constructor; cbn; lia]. }
  split; [reflexivity|]. split; [vm_compute; split; discriminate|].
  split; [vm_compute; reflexivity|]. split; [left; reflexivity|]. split; reflexivity.
Qed.

(* beyond 2^64 top denominations the stored count wraps *)
Lemma denominations_truncation_refuted :
  exists v, 0 <= v <= max_qi /\ denoms_sum (find_min_denominations v) <> v.
Proof. exists (two64 * 1000000000). vm_compute. split; [split; discriminate|discriminate]. Qed.

(* a block at real magnitudes: a tolerant whale, a min-slip conversion queued behind it, a coinbase
   ETX between them; evaluated here, once, for the non-vacuity examples of Props/C20.v *)
Definition whale_hdr : hdr :=
  mkHdr 300000 221077819000000000 737869762948382064640 5000000000000 8000000000 100 10000000000000000000000 true.
Definition whale_etxs : list etx :=
  [mkEtx 1%N true true 10000000000000000000000 (Some 30); mkEtx 2%N false true 77 None;
   mkEtx 3%N true true 60000000000000000000000 (Some 9000)].
Lemma whale_block :
  reprice disc_ideal whale_hdr 221077819000000000 whale_etxs =
  Some (mkRes [mkOut (mkEtx 3%N true true 60000000000000000000000 (Some 9000)) KConverted
                     3317060 46933020000000000000000 46933020000000000000000;
               mkOut (mkEtx 1%N true true 10000000000000000000000 (Some 30)) KReverted
                     10000000000000000000000 6553440000000000000000 0;
               mkOut (mkEtx 2%N false true 77 None) KOther 77 0 0]
              60000000000000000000000 46933020000000000000000).
Proof. vm_compute. reflexivity. Qed.

(* fingerprints of the Go statements the model was written against (reviewed 2026-09-23): the
   conversion block of Slice.Append; the mint branch and the two ConversionRevert branches of Process *)
Module ShapeDigest.
  Import String.
  Definition reviewed_shape_sha256 : string :=
    "7508d73d354a3e0277120c860960ccdbc78482944e98a314fe8f1d7d0ede4fe7"%string.
  Definition reviewed_mint_shape_sha256 : string :=
    "7899e813144370d3155d40a865b2520cecfd749c70778e2109b038591249402e"%string.
  Definition reviewed_revert_qi_shape_sha256 : string :=
    "0933c10a98b046aa283bed35e7ab20a527615b5cd31dce08fd59f8a2c7a84698"%string.
  Definition reviewed_revert_quai_shape_sha256 : string :=
    "404556dd33a8f9efe317cda5edab573b4e81c88a0ac9f8e5f101e6776e85685b"%string.
End ShapeDigest.
Definition reviewed_shape_sha256 := ShapeDigest.reviewed_shape_sha256.
Definition reviewed_mint_shape_sha256 := ShapeDigest.reviewed_mint_shape_sha256.
Definition reviewed_mint_shape_len : Z := 56.
Definition reviewed_shape_len : Z := 147.
