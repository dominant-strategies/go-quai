(* C08 -- A block is sealed only by work on exactly its contents.
   Property theorems, each followed by [Print Assumptions], and non-vacuity examples.
   Model: Model/C08.v   Lemmas: Proofs/C08.v, Proofs/C08_engine.v   Specification of the template theorems:
   Proofs/C08_template.v   Generated data: Generated/C08Fields.v *)
From Coq Require Import List ZArith Lia.
From GQ Require Import Lib.Lists Generated.C08Fields Model.C08 Proofs.C08 Proofs.C08_engine Proofs.C08_template.
Import ListNotations.
Local Open Scope Z_scope.

(* ---- acceptance of a seal: hash <= 2^256 / difficulty, for ALL difficulties and hashes ---- *)

Theorem seal_accept_iff_le_target : forall e h, e_fake e = false ->
  (verify_seal e h = SealOk <->
   eng_err e h = false /\ 0 < h_diff h /\ of_be (eng_hash e h) <= two256 / h_diff h).
Proof. intros e h F. rewrite verify_seal_ok_iff. unfold seal_ok. intuition. Qed.
Print Assumptions seal_accept_iff_le_target.

(* the same without division: hash * difficulty <= 2^256 *)
Theorem seal_accept_iff_product : forall e h, e_fake e = false ->
  (verify_seal e h = SealOk <->
   eng_err e h = false /\ 0 < h_diff h /\ of_be (eng_hash e h) * h_diff h <= two256).
Proof. intros e h F. rewrite verify_seal_ok_iff, seal_ok_mul. intuition. Qed.
Print Assumptions seal_accept_iff_product.

(* difficulty 0 (and below): rejected whatever the hash *)
Theorem seal_difficulty_zero_rejected : forall e h, e_fake e = false -> h_diff h <= 0 -> verify_seal e h = SealBadDiff.
Proof. intros e h F D. unfold verify_seal. rewrite F. apply Z.leb_le in D. rewrite D. reflexivity. Qed.
Print Assumptions seal_difficulty_zero_rejected.

(* difficulty 1: target = 2^256, every 256-bit hash is accepted *)
Theorem seal_difficulty_one_accepts_every_hash : forall e h, e_fake e = false -> eng_err e h = false -> h_diff h = 1 ->
  bytes_ok (eng_hash e h) -> length (eng_hash e h) = 32%nat -> verify_seal e h = SealOk.
Proof.
  intros e h F Er D B L. apply verify_seal_ok_iff. split; [exact F|]. split; [exact Er|].
  rewrite D. apply seal_ok_difficulty_one; assumption.
Qed.
Print Assumptions seal_difficulty_one_accepts_every_hash.

(* difficulty = 2^256: target 1; difficulty > 2^256: target 0 (only the all-zero hash) *)
Theorem seal_difficulty_2e256_boundary : forall e h, e_fake e = false -> eng_err e h = false -> bytes_ok (eng_hash e h) ->
  (h_diff h = two256 -> (verify_seal e h = SealOk <-> of_be (eng_hash e h) <= 1)) /\
  (two256 < h_diff h -> (verify_seal e h = SealOk <-> of_be (eng_hash e h) = 0)).
Proof.
  intros e h F Er B. pose proof (of_be_bound _ B) as [N _]. split; intro D; rewrite verify_seal_ok_iff.
  - rewrite D, seal_ok_difficulty_2e256. intuition.
  - rewrite (seal_ok_difficulty_above_2e256 _ _ D). intuition lia.
Qed.
Print Assumptions seal_difficulty_2e256_boundary.

(* a larger difficulty has a smaller-or-equal target and accepts a subset *)
Theorem target_antitone : forall d1 d2, 0 < d1 <= d2 ->
  target d2 <= target d1 /\
  forall e h, verify_seal e (with_diff h d2) = SealOk -> verify_seal e (with_diff h d1) = SealOk.
Proof.
  intros d1 d2 L. split.
  - unfold target. rewrite !go_div_pos by lia. apply div_two256_antitone. exact L.
  - intros e h S. apply verify_seal_ok_iff in S. apply verify_seal_ok_iff.
    destruct S as (F & Er & P). split; [exact F|]. split; [exact Er|]. exact (seal_ok_antitone d1 d2 _ L P).
Qed.
Print Assumptions target_antitone.

(* an accepted hash stays accepted when it gets smaller *)
Theorem seal_monotone : forall e h a b a' b',
  of_be a' <= of_be a -> of_be b' <= of_be b ->
  verify_seal (with_hashes e a b) h = SealOk -> verify_seal (with_hashes e a' b') h = SealOk.
Proof.
  intros e h a b a' b' La Lb S. apply verify_seal_ok_iff in S. apply verify_seal_ok_iff.
  destruct S as (F & Er & P). split; [exact F|]. split; [exact Er|].
  revert P. apply seal_ok_monotone. unfold eng_hash, with_hashes. cbn [e_h0 e_h1].
  destruct (engine_is_kawpow h); assumption.
Qed.
Print Assumptions seal_monotone.

Theorem workshare_threshold_value : forall d k t,
  calc_ws_threshold d k = ThrOk t <-> 0 < k /\ d <> 0 /\ t = go_div two256 d * 2 ^ k.
Proof. exact calc_ws_threshold_spec. Qed.
Print Assumptions workshare_threshold_value.

Theorem workshare_threshold_monotone : forall d d' k k', 0 < d <= d' -> 0 <= k <= k' ->
  ws_threshold d' k <= ws_threshold d k' /\
  (forall t t', calc_ws_threshold d' k = ThrOk t -> calc_ws_threshold d k' = ThrOk t' -> t <= t').
Proof.
  intros d d' k k' Ld Lk. pose proof (ws_threshold_mono d d' k k' Ld Lk) as A.
  split; [exact A|]. intros t t' E1 E2.
  apply calc_ws_threshold_spec in E1. apply calc_ws_threshold_spec in E2.
  destruct E1 as (_ & _ & ->). destruct E2 as (_ & _ & ->).
  rewrite !go_div_pos by lia. exact A.
Qed.
Print Assumptions workshare_threshold_monotone.

Theorem sealed_block_meets_every_workshare_threshold : forall e h k, 0 < k ->
  verify_seal e h = SealOk -> check_work_threshold e h k = WBool true.
Proof.
  intros e h k Hk S. apply verify_seal_ok_iff in S. destruct S as (_ & Er & P).
  apply check_work_threshold_true_iff; [exact (proj1 P)|]. split; [exact Hk|]. split; [exact Er|].
  apply seal_ok_under_threshold; [exact P | lia].
Qed.
Print Assumptions sealed_block_meets_every_workshare_threshold.

(* Full statement (CheckWorkThreshold is total: forall e h k, check_work_threshold e h k <> WPanic) is FALSE of the
   code: big.Int.Div(2^256, 0).  Exact characterisation and witness; the witness is corpus case thr/d0-k3. *)
Theorem workshare_threshold_panics_iff : forall e h k,
  check_work_threshold e h k = WPanic <-> 0 < k /\ h_diff h = 0.
Proof.
  intros e h k. destruct (check_work_threshold_outcome e h k); split; (discriminate || tauto || lia).
Qed.
Print Assumptions workshare_threshold_panics_iff.

Theorem workshare_threshold_total_refuted : exists e h k, check_work_threshold e h k = WPanic.
Proof. exact Proofs.C08.workshare_threshold_total_refuted. Qed.
Print Assumptions workshare_threshold_total_refuted.

Theorem valid_workshare_panics_iff : forall e h,
  check_valid_ws e h = WsPanic <->
  (u64 (h_ptn h) < kawpow_fork_block /\ h_diff h = 0) \/ (kawpow_fork_block <= u64 (h_ptn h) /\ kawpow_share_diff h = 0).
Proof.
  intros e h. rewrite (share_outcome_panic (check_valid_ws_outcome e h)).
  destruct (Z.ltb_spec (u64 (h_ptn h)) kawpow_fork_block); intuition lia.
Qed.
Print Assumptions valid_workshare_panics_iff.

(* ... and after the fork a POSITIVE difficulty below ExpectedWorksharesPerBlock+1 can do it too (corpus ws/post-sharediff-rounds-to-0) *)
Theorem valid_workshare_total_refuted :
  exists e h, 0 < h_diff h /\ kawpow_fork_block <= h_ptn h /\ check_valid_ws e h = WsPanic.
Proof. exact Proofs.C08.valid_workshare_total_refuted. Qed.
Print Assumptions valid_workshare_total_refuted.

(* the kawpow share difficulty lies between a (n+1)-th of the block difficulty and the block difficulty *)
Theorem kawpow_share_difficulty_bounds : forall h,
  kawpow_fork_block <= u64 (h_ptn h) -> 0 <= h_diff h -> shares_nonneg h ->
  h_diff h / (expected_workshares_per_block + 1) <= kawpow_share_diff h <= h_diff h.
Proof. exact kawpow_share_diff_bounds. Qed.
Print Assumptions kawpow_share_difficulty_bounds.

(* a Valid workshare did at least the work of its threshold *)
Theorem valid_share_needs_work : forall e h,
  check_valid_ws e h = WsValid -> 0 < h_diff h -> shares_nonneg h ->
  eng_err e h = false /\
  (u64 (h_ptn h) < kawpow_fork_block ->
     of_be (eng_hash e h) <= two256 / h_diff h * 2 ^ workshares_threshold_diff) /\
  (kawpow_fork_block <= u64 (h_ptn h) ->
     exists sd, sd = kawpow_share_diff h /\ 0 < sd /\ h_diff h / (expected_workshares_per_block + 1) <= sd <= h_diff h /\
                of_be (eng_hash e h) <= two256 / sd).
Proof.
  intros e h V D Hs. apply (share_outcome_valid (check_valid_ws_outcome e h)) in V.
  destruct V as (NZ & Er & L). split; [exact Er|].
  destruct (Z.ltb_spec (u64 (h_ptn h)) kawpow_fork_block) as [F|F].
  - split; [intros _ | lia]. rewrite go_div_pos in L by exact D. exact L.
  - split; [lia | intros _]. pose proof (kawpow_share_diff_bounds h F ltac:(lia) Hs) as B.
    assert (0 <= h_diff h / (expected_workshares_per_block + 1)) by (pose proof expected_workshares_per_block_pos; apply Z.div_pos; lia).
    exists (kawpow_share_diff h). split; [reflexivity|]. split; [lia|]. split; [exact B|].
    rewrite go_div_pos in L by lia. exact L.
Qed.
Print Assumptions valid_share_needs_work.

(* Full statement: every sealed block is a Valid workshare.  Partial: needs difficulty >= n+1 after the fork
   (below that CheckIfValidWorkShare panics, see valid_workshare_total_refuted). *)
Theorem sealed_block_is_valid_workshare_partial : forall e h,
  verify_seal e h = SealOk -> shares_nonneg h ->
  (u64 (h_ptn h) < kawpow_fork_block \/ expected_workshares_per_block + 1 <= h_diff h) ->
  check_valid_ws e h = WsValid.
Proof.
  intros e h S Hs Hc. destruct (proj1 (verify_seal_ok_iff e h) S) as (_ & Er & P & L).
  apply (share_outcome_valid (check_valid_ws_outcome e h)).
  destruct (Z.ltb_spec (u64 (h_ptn h)) kawpow_fork_block) as [F|F].
  - split; [lia|]. split; [exact Er|]. rewrite go_div_pos by exact P.
    apply (seal_ok_under_threshold _ _ _ (conj P L)). pose proof workshares_threshold_diff_pos. lia.
  - destruct Hc as [Hc|Hc]; [lia|].
    pose proof (kawpow_share_diff_pos h F Hc Hs) as SP.
    pose proof (kawpow_share_diff_bounds h F ltac:(lia) Hs) as [_ SU].
    split; [lia|]. split; [exact Er|].
    rewrite go_div_pos by exact SP. exact (proj2 (seal_ok_antitone _ _ _ (conj SP SU) (conj P L))).
Qed.
Print Assumptions sealed_block_is_valid_workshare_partial.

(* share classification: "Block" only with a verified seal; a donor-chain share only below its declared target *)
Theorem block_class_needs_seal : forall e h, classify e h = WsBlock -> seal_err (verify_seal e h) = false.
Proof.
  intros e h. destruct (classify_outcome e h) as [|id d _ _|]; intro C.
  - destruct (seal_err (verify_seal e h)); [|reflexivity].
    (* no outcome of CheckIfValidWorkShare is Block *)
    pose proof (check_valid_ws_outcome e h) as O. rewrite C in O. inversion O.
  - destruct (donor_share_cases h d); congruence.
  - discriminate.
Qed.
Print Assumptions block_class_needs_seal.

Theorem donor_share_needs_target : forall e h id,
  activated h = true -> transition_progpow h = false -> h_aux h = Some id ->
  id = powid_sha_btc \/ id = powid_sha_bch \/ id = powid_scrypt ->
  classify e h = WsValid ->
  exists sd, (if id =? powid_scrypt then h_scrD h else h_shaD h) = Some sd /\ sd <> 0 /\
             of_be (h_donor_pow h) < go_div two256 sd.
Proof.
  intros e h id A T Ha Hid C. unfold classify in C. rewrite A, T, Ha in C. cbn [negb orb] in C.
  (* for each of the three constant ids the tests on id in C and in the goal evaluate *)
  destruct Hid as [-> | [-> | ->]]; exact (donor_share_valid h _ C).
Qed.
Print Assumptions donor_share_needs_target.

(* ---- the donor coinbase commits to the seal hash: byte level ---- *)

Theorem coinbase_seal_hash_position : forall ss h, extract_seal_hash ss = Some h ->
  exists op1 hd sz rest, ss = op1 :: hd ++ 44 :: magic ++ h ++ sz ++ rest /\
    (length hd <= 5)%nat /\ length hd = Z.to_nat op1 /\ length h = 32%nat /\ length sz = 8%nat.
Proof. exact extract_seal_hash_sound. Qed.
Print Assumptions coinbase_seal_hash_position.

Theorem coinbase_script_sig_is_segment : forall tx ss, extract_script_sig tx = Some ss ->
  exists pre post, tx = pre ++ ss ++ post /\ (ss <> [] -> (42 <= length pre)%nat).
Proof. exact extract_script_sig_sound. Qed.
Print Assumptions coinbase_script_sig_is_segment.

Theorem coinbase_commitment_in_transaction : forall tx ss h,
  extract_script_sig tx = Some ss -> extract_seal_hash ss = Some h ->
  exists pre post, tx = pre ++ magic ++ h ++ post /\ (44 <= length pre)%nat /\ length h = 32%nat.
Proof. exact coinbase_commitment_is_in_tx. Qed.
Print Assumptions coinbase_commitment_in_transaction.

(* ---- merkle binding (double-SHA256 abstract; conclusion "... or a collision") ---- *)

Theorem merkle_branch_binding : forall (H : bytes -> bytes) id tx1 tx2 br,
  powid_kawpow <= id <= powid_scrypt ->
  merkle_root H id tx1 br = merkle_root H id tx2 br -> tx1 <> tx2 -> collision H.
Proof.
  intros H id tx1 tx2 br Hid E N.
  destruct (merkle_root_binding_same_len H id tx1 tx2 br br Hid eq_refl E) as [[T _]|C]; [contradiction | exact C].
Qed.
Print Assumptions merkle_branch_binding.

Theorem merkle_root_binds_leaf_and_branch : forall (H : bytes -> bytes) id tx1 tx2 br1 br2,
  powid_kawpow <= id <= powid_scrypt -> length br1 = length br2 ->
  merkle_root H id tx1 br1 = merkle_root H id tx2 br2 ->
  (tx1 = tx2 /\ map norm32 br1 = map norm32 br2) \/ collision H.
Proof. exact merkle_root_binding_same_len. Qed.
Print Assumptions merkle_root_binds_leaf_and_branch.

Theorem merkle_root_binds_leaf_any_depth : forall (H : bytes -> bytes) id tx1 tx2 br1 br2,
  powid_kawpow <= id <= powid_scrypt ->
  merkle_root H id tx1 br1 = merkle_root H id tx2 br2 ->
  tx1 = tx2 \/ collision H \/
  (exists y s, tx1 = H y ++ norm32 s) \/ (exists y s, tx2 = H y ++ norm32 s).
Proof. exact merkle_root_binding. Qed.
Print Assumptions merkle_root_binds_leaf_any_depth.

(* ---- acceptance of a merge-mined header binds everything the property names ---- *)

Theorem auxpow_accept_binds : forall (H : bytes -> bytes) i, verify_header_c08 H i = Accept ->
  v_hh i = v_bh i /\ pow_id_valid (v_ptn i) (option_map a_powid (v_aux i)) = true /\
  forall a, v_aux i = Some a -> kawpow_fork_block <= u64 (v_ptn i) ->
    a_powid a = powid_kawpow /\
    extract_seal_hash (script_of a) = Some (v_seal i) /\
    merkle_root H (a_powid a) (a_tx a) (a_branch a) = a_donor_root a /\
    validate_prevout (a_tx a) = true /\ a_sig_ok a = true /\
    (exists st, extract_sig_time (script_of a) = Some st /\ st <= a_donor_time a /\ st <= v_time i).
Proof.
  intros H i A. unfold verify_header_c08 in A.
  destruct (bytes_eqb (v_hh i) (v_bh i)) eqn:HB; [|discriminate]. apply bytes_eqb_eq in HB.
  destruct (pow_id_valid (v_ptn i) (option_map a_powid (v_aux i))) eqn:PV; [|discriminate].
  split; [exact HB | split; [reflexivity|]]. intros a Ea F. rewrite Ea in A, PV.
  pose proof (pow_id_valid_postfork _ _ PV F) as K.
  apply Z.leb_le in F. rewrite F in A.
  apply auxpow_section_accept in A.
  split; [exact K|]. split; [apply (sa_commits A); left; exact K|]. split; [exact (sa_donor_root A)|].
  split; [exact (sa_prevout A)|]. split; [|exact (sa_sig_time A)].
  destruct (sa_signed A) as [S|(S & _)]; [exact S | discriminate].
Qed.
Print Assumptions auxpow_accept_binds.

(* Full statement for shares (accept => ... /\ a_sig_ok a = true) is FALSE of the code: VerifyUncles (and the gossip
   validator) waive the template signature for SHA/Scrypt shares whose primary coinbase is out of scope. *)
Theorem uncle_accept_binds_partial : forall (H : bytes -> bytes) e h sb ia time seal aux,
  verify_uncle_c08 H e h sb ia time seal aux = Accept ->
  (classify e h = WsValid \/ (classify e h = WsBlock /\ sb = false)) /\
  forall a, aux = Some a -> activated h = true ->
    commits_to H a seal /\
    merkle_root H (a_powid a) (a_tx a) (a_branch a) = a_donor_root a /\
    validate_prevout (a_tx a) = true /\
    (a_sig_ok a = true \/ (is_sha_or_scrypt (a_powid a) = true /\ ia = true)).
Proof.
  intros H e h sb ia time seal aux A. unfold verify_uncle_c08 in A. split.
  - destruct (classify e h); try discriminate; [left; reflexivity | right].
    destruct (negb (pow_id_valid (h_ptn h) (h_aux h))); [discriminate|].
    destruct sb; [discriminate | auto].
  - intros a -> Ac. rewrite Ac in A.
    assert (S : auxpow_section H true ia time seal a = Accept).
    { destruct (classify e h); try discriminate; destruct (negb _); try discriminate.
      - exact A.
      - destruct sb; [discriminate | exact A]. }
    apply auxpow_section_accept in S.
    split; [exact (sa_commits S) | split; [exact (sa_donor_root S) | split; [exact (sa_prevout S)|]]].
    destruct (sa_signed S) as [Sg|(_ & S1 & S2)]; auto.
Qed.
Print Assumptions uncle_accept_binds_partial.

Theorem uncle_signature_required_refuted :
  exists H e h time seal a,
    a_sig_ok a = false /\ verify_uncle_c08 H e h true true time seal (Some a) = Accept.
Proof. exact Proofs.C08.uncle_signature_required_refuted. Qed.
Print Assumptions uncle_signature_required_refuted.

(* no accepted seal can be reused for different content: two seal hashes accepted under the same donor merkle root
   are equal, or double-SHA256 (32-byte output) collides *)
Theorem auxpow_seal_not_reusable : forall (H : bytes -> bytes) se1 se2 ia1 ia2 t1 t2 seal1 seal2 a1 a2,
  (forall x, length (H x) = 32%nat) ->
  a_powid a1 = a_powid a2 ->
  (a_powid a1 = powid_kawpow \/ a_powid a1 = powid_sha_btc \/ a_powid a1 = powid_sha_bch) ->
  a_donor_root a1 = a_donor_root a2 ->
  auxpow_section H se1 ia1 t1 seal1 a1 = Accept ->
  auxpow_section H se2 ia2 t2 seal2 a2 = Accept ->
  seal1 = seal2 \/ collision H.
Proof.
  intros H se1 se2 ia1 ia2 t1 t2 seal1 seal2 a1 a2 Hlen Eid K Er A1 A2.
  apply auxpow_section_accept in A1. apply auxpow_section_accept in A2.
  pose proof (proj1 (sa_commits A1) K) as C1. pose proof (sa_donor_root A1) as M1.
  rewrite Eid in K. pose proof (proj1 (sa_commits A2) K) as C2. pose proof (sa_donor_root A2) as M2.
  assert (Hid : powid_kawpow <= a_powid a2 <= powid_scrypt)
    by (destruct K as [-> | [-> | ->]]; vm_compute; split; discriminate).
  rewrite Eid in M1. rewrite <- Er in M2. rewrite <- M2 in M1.
  pose proof (committing_coinbase_length a1 seal1 C1) as L1. pose proof (committing_coinbase_length a2 seal2 C2) as L2.
  destruct (merkle_root_binds_leaf_not_64_bytes H (a_powid a2) (a_tx a1) (a_tx a2) (a_branch a1) (a_branch a2) Hlen Hid
              ltac:(lia) ltac:(lia) M1) as [T|C]; [left | right; exact C].
  unfold script_of in C1, C2. rewrite T in C1. rewrite C1 in C2. inversion C2. reflexivity.
Qed.
Print Assumptions auxpow_seal_not_reusable.

(* The AuxPoW section is total: for every input it accepts or rejects, it never panics.  (Before fix commit
   f0c87e08 this was FALSE of the code: common.Hash(AuxPow2()) panicked on a Scrypt share with fewer than 32
   bytes of auxpow2; the corpus cases uncle/scrypt-auxpow2-short and -empty now assert the rejection.) *)
Theorem auxpow_section_total : forall (H : bytes -> bytes) se ia time seal a,
  auxpow_section H se ia time seal a <> Panic.
Proof.
  intros H se ia time seal a P. pose proof (auxpow_section_outcome H se ia time seal a) as O.
  rewrite P in O. exact O.
Qed.
Print Assumptions auxpow_section_total.

(* ---- identity hash of a header without AuxPoW: blake3(mix | seal | nonce) ---- *)

Theorem wo_hash_binds_mix_seal_nonce : forall (B3 : bytes -> bytes) m1 s1 n1 m2 s2 n2,
  length m1 = 32%nat -> length m2 = 32%nat -> length s1 = 32%nat -> length s2 = 32%nat ->
  wo_progpow_hash B3 m1 s1 n1 = wo_progpow_hash B3 m2 s2 n2 ->
  (m1 = m2 /\ s1 = s2 /\ n1 = n2) \/ collision B3.
Proof.
  intros B3 m1 s1 n1 m2 s2 n2 L1 L2 L3 L4 E. unfold wo_progpow_hash in E.
  destruct (hash_inj_or_collision B3 _ _ E) as [Q|C]; [left | right; exact C].
  apply app_inv_length in Q; [|lia]. destruct Q as [-> Q].
  apply app_inv_length in Q; [|lia]. destruct Q as [-> ->]. auto.
Qed.
Print Assumptions wo_hash_binds_mix_seal_nonce.

(* ---- obligations on data regenerated from the source on every run ---- *)

Theorem seal_covers_every_field_but_nonce_mix_auxpow : seal_covers_all_but_nonce_mix_auxpow = true.
Proof. vm_compute. reflexivity. Qed.
Print Assumptions seal_covers_every_field_but_nonce_mix_auxpow.

Theorem seal_hash_rebinds_coinbase : seal_hash_coinbase_rebound = true.
Proof. vm_compute. reflexivity. Qed.
Print Assumptions seal_hash_rebinds_coinbase.

Theorem body_header_hash_covers_every_field : body_header_hash_covers_all_fields = true.
Proof. vm_compute. reflexivity. Qed.
Print Assumptions body_header_hash_covers_every_field.

Theorem protocol_constants_as_assumed : params_ok = true.
Proof. vm_compute. reflexivity. Qed.
Print Assumptions protocol_constants_as_assumed.

(* ---- the template signature covers everything that is hashed into the identity of a merge-mined object ---- *)

(* generated: ProtoAuxPow schema, AuxPow.ProtoEncode, every control-flow path of AuxPow.ConvertToTemplate, AuxTemplate.Hash:
   every identity field reaches the signed template on every path (or the path is the field's own nil-normalisation) *)
Theorem convert_to_template_covers_identity : template_covers_identity = true.
Proof. vm_compute. reflexivity. Qed.
Print Assumptions convert_to_template_covers_identity.

(* equal signed messages (the template without its signature) => every signed part of the two AuxPoWs is equal: chain id,
   donor prevHash / version / bits, auxPow2 (up to nil = empty) FOR EVERY CHAIN ID, merkle branch, payout (outputs + locktime),
   signature time, and the Ravencoin height *)
Theorem template_covers_every_signed_field : forall a b,
  template_msg (template_of a) = template_msg (template_of b) ->
  af_powid a = af_powid b /\ af_prev a = af_prev b /\ af_version a = af_version b /\ af_bits a = af_bits b
  /\ aux2_norm (af_aux2 a) = aux2_norm (af_aux2 b) /\ af_branch a = af_branch b
  /\ extract_coinbase_out (af_tx a) = extract_coinbase_out (af_tx b)
  /\ t_sigtime (template_of a) = t_sigtime (template_of b)
  /\ (af_powid a = powid_kawpow -> af_height a = af_height b).
Proof.
  intros a b E. unfold template_msg, template_of in E.
  cbn [t_powid t_prev t_version t_bits t_aux2 t_sigtime t_height t_out t_branch t_sigs] in E.
  injection E as Epow Eprev Ever Ebits Eaux Est Eh Eout Ebr.
  repeat split; try assumption.
  intro K. rewrite <- Epow, K, Z.eqb_refl in Eh. exact Eh.
Qed.
Print Assumptions template_covers_every_signed_field.

(* one signed message, one piece of work (donor header), one signature, one coinbase => one object: everything
   AuxPow.ProtoEncode writes (what the post-fork Hash() hashes) is equal, up to the nil/empty form of auxPow2.
   (That the coinbase is fixed by the donor header is merkle_root_binds_leaf_*; that a signature fits one message is the
   unforgeability of MuSig2, a trusted primitive.) *)
Theorem auxpow_identity_bound_by_template_work_coinbase_partial : forall a b,
  template_msg (template_of a) = template_msg (template_of b) ->
  af_donor a = af_donor b -> af_sig a = af_sig b -> af_tx a = af_tx b ->
  identity_norm a = identity_norm b.
Proof.
  intros a b E D S T. destruct (template_covers_every_signed_field a b E) as (P & _ & _ & _ & A & B & _).
  unfold identity_norm. rewrite P, D, S, T, A, B. reflexivity.
Qed.
Print Assumptions auxpow_identity_bound_by_template_work_coinbase_partial.

(* the full statement (identity a = identity b) is FALSE: auxPow2 absent and auxPow2 present-and-empty are two wire
   encodings, two identity hashes, one template (finding auxpow-field-unbound:*:aux.auxPow2.presence) *)
Theorem auxpow_identity_presence_refuted :
  exists a b, template_of a = template_of b /\ af_donor a = af_donor b /\ af_sig a = af_sig b /\ af_tx a = af_tx b
              /\ identity a <> identity b.
Proof.
  exists (mkAuxFull 1 [7] [] 0 0 0 None [] [] [9]), (mkAuxFull 1 [7] [] 0 0 0 (Some []) [] [] [9]).
  repeat split; try reflexivity. discriminate.
Qed.
Print Assumptions auxpow_identity_presence_refuted.

(* a conversion that copies auxPow2 for the scrypt chain only does not have the property, even up to normalisation *)
Theorem template_copying_aux2_for_scrypt_only_refuted :
  exists a b, template_of_scrypt_only a = template_of_scrypt_only b /\ af_donor a = af_donor b /\ af_sig a = af_sig b
              /\ af_tx a = af_tx b /\ identity_norm a <> identity_norm b.
Proof.
  exists (mkAuxFull 1 [7] [] 0 0 0 (Some []) [] [] [9]), (mkAuxFull 1 [7] [] 0 0 0 (Some [1; 2; 3]) [] [] [9]).
  repeat split; try reflexivity. discriminate.
Qed.
Print Assumptions template_copying_aux2_for_scrypt_only_refuted.

(* ---- no proof-of-work hash, no seal: when the engine answers an error nothing is accepted on its account ---- *)

Theorem engine_error_never_accepted : forall e h, e_fake e = false -> eng_err e h = true ->
  verify_seal e h <> SealOk
  /\ (forall k, check_work_threshold e h k <> WBool true)
  /\ (check_valid_ws e h = WsInvalid \/ check_valid_ws e h = WsPanic)
  /\ classify e h <> WsBlock /\ classify e h <> WsSub
  /\ (classify e h = WsValid ->
      exists id d, h_aux h = Some id /\ (id =? powid_kawpow) = false /\ donor_share h d = WsValid).
Proof.
  intros e h F E. pose proof (verify_seal_err e h F E) as S. pose proof (check_valid_ws_err e h E) as C.
  split; [intro V; rewrite V in S; discriminate|].
  split; [intro k; apply check_work_threshold_err; exact E|].
  split; [exact C|].
  destruct (classify_outcome e h) as [|id d A K|].
  - rewrite S. destruct C as [-> | ->]; repeat split; discriminate.
  - destruct (donor_share_cases h d) as [D|D]; rewrite D; repeat split; try discriminate.
    intros _. exists id, d. auto.
  - repeat split; discriminate.
Qed.
Print Assumptions engine_error_never_accepted.

(* ---- the engines' result caches (kawpow / progpow hashCache) cannot move a seal to other content ---- *)

(* For EVERY history of verifications on one engine instance, starting cold, with arbitrary evictions in between,
   the memoised ComputePowHash answers exactly like a node that has never verified anything -- unless the key hash
   (Keccak256 resp. blake3) collides, or two queries have one q_hash (which hashes the number in) and two numbers. *)
Theorem engine_cache_transparent : forall (KH : bytes -> bytes) (K : bytes -> Z -> Z -> bytes * bytes) k evqs,
  (forall q, In q (map snd evqs) -> wf_query q) ->
  engine_run_ev KH K (key_material k) [] evqs = map (pow_hash_pure K) (map snd evqs)
  \/ (exists x y, x <> y /\ KH x = KH y)
  \/ (exists q q', In q (map snd evqs) /\ In q' (map snd evqs) /\ q_hash q = q_hash q' /\ q_num q <> q_num q').
Proof.
  intros KH K k evqs WF.
  destruct (engine_run_ev_pure KH K (key_material k) (map snd evqs) evqs [] (fun q Hq => Hq) (cache_inv_nil KH K _ _))
    as [E|C]; [left; exact E | right; exact (key_material_clash KH K k _ WF C)].
Qed.
Print Assumptions engine_cache_transparent.

(* hence an answer "pow hash p" is the kernel's result for this very (hash, nonce, number), and the header's mix is the
   kernel's mix: the work of one nonce is never served for another nonce, whatever was verified before *)
Theorem engine_answer_is_own_work : forall (KH : bytes -> bytes) (K : bytes -> Z -> Z -> bytes * bytes) k evqs,
  (forall q, In q (map snd evqs) -> wf_query q) ->
  Forall2 (fun q o => forall p, o = Some p -> q_mix q = fst (kernel_of K q) /\ p = snd (kernel_of K q))
          (map snd evqs) (engine_run_ev KH K (key_material k) [] evqs)
  \/ (exists x y, x <> y /\ KH x = KH y)
  \/ (exists q q', In q (map snd evqs) /\ In q' (map snd evqs) /\ q_hash q = q_hash q' /\ q_num q <> q_num q').
Proof.
  intros KH K k evqs WF.
  destruct (engine_cache_transparent KH K k evqs WF) as [E|R]; [left | right; exact R].
  rewrite E. clear E WF. induction (map snd evqs) as [|q l IH]; cbn [map]; constructor; auto.
  intros p E. apply mix_check_some. exact E.
Qed.
Print Assumptions engine_answer_is_own_work.

(* the statement depends on what the key covers: with a key that leaves the nonce out (the kernel still gets it) the
   answer for one nonce is served for another one that carries the first one's mix hash *)
Theorem engine_key_without_nonce_refuted :
  exists (K : bytes -> Z -> Z -> bytes * bytes) qs,
    Forall wf_query qs /\
    engine_run (fun x => x) K (fun q => q_hash q) qs <> map (pow_hash_pure K) qs.
Proof.
  exists ex_kernel.
  exists [mkPq (repeat 7 32) 1 5 (repeat 1 32); mkPq (repeat 7 32) 2 5 (repeat 1 32)].
  split.
  - repeat constructor; cbn; lia.
  - vm_compute. discriminate.
Qed.
Print Assumptions engine_key_without_nonce_refuted.

Example engine_cache_nonvacuous :
  (forall q, In q (map snd ex_history) -> wf_query q) /\
  engine_run_ev (fun x => x) ex_kernel (key_material EKawpow) [] ex_history
  = [Some (repeat 101 32); None; Some (repeat 101 32); Some (repeat 102 32)].
Proof.
  split; [|vm_compute; reflexivity].
  apply Forall_forall. repeat constructor; cbn; lia.
Qed.

Definition ex_env : env := mkEnv false 4 (zeros 31 ++ [9]) false (zeros 31 ++ [7]) false.
Definition ex_hdr : hdr := mkHdr 100 1000 None (Some 1) 0 0 (Some 1) 0 0 (Some 1) [].

Example seal_accept_nonvacuous :
  verify_seal ex_env ex_hdr = SealOk /\ check_valid_ws ex_env ex_hdr = WsValid /\ classify ex_env ex_hdr = WsBlock /\
  verify_seal (with_hashes ex_env (1 :: zeros 31) []) ex_hdr = SealBadPow.
Proof. vm_compute. repeat split; reflexivity. Qed.

(* a complete accepted merge-mined header (H := constant 32 zero bytes, so the donor root is 32 zero bytes) *)
Definition ex_tx : bytes :=
  [2;0;0;0] ++ [1] ++ zeros 32 ++ [255;255;255;255] ++ [53] ++
  ([1;7] ++ [44] ++ magic ++ repeat 171 32 ++ [1;0;0;0;0;0;0;0] ++ [0] ++ [4;9;0;0;0]) ++ [255;255;255;255] ++ [0;0;0;0;0].
Definition ex_aux : auxpow := mkAux powid_kawpow ex_tx 9 (zeros 32) [] [[1;2;3]] true.
Definition ex_vh : vh_in := mkVh [1;2] [1;2] (kawpow_fork_block + 3) 9 (repeat 171 32) (Some ex_aux).

Example auxpow_accept_nonvacuous :
  verify_header_c08 (fun _ => zeros 32) ex_vh = Accept /\
  extract_seal_hash (script_of ex_aux) = Some (repeat 171 32) /\
  extract_sig_time (script_of ex_aux) = Some 9 /\
  verify_header_c08 (fun _ => zeros 32) (mkVh [1;2] [1;2] (kawpow_fork_block + 3) 9 (repeat 170 32) (Some ex_aux)) = Reject /\
  verify_header_c08 (fun _ => zeros 32) (mkVh [1;2] [1;3] (kawpow_fork_block + 3) 9 (repeat 171 32) (Some ex_aux)) = Reject /\
  verify_header_c08 (fun _ => zeros 32) (mkVh [1;2] [1;2] (kawpow_fork_block + 3) 8 (repeat 171 32) (Some ex_aux)) = Reject.
Proof. vm_compute. repeat split; reflexivity. Qed.

Example merkle_nonvacuous :
  merkle_root (fun x => firstn 32 (x ++ zeros 32)) 2 [5;6] [[1]; [2]] =
  merkle_root (fun x => firstn 32 (x ++ zeros 32)) 2 [5;6] [[1]; [2] ++ zeros 31].
Proof. vm_compute. reflexivity. Qed.

(* a well-formed BCH coinbase: signature time, height and payout are read off the transaction *)
Definition ex_tmpl_tx : bytes :=
  [1;0;0;0] ++ [1] ++ repeat 0 32 ++ [255;255;255;255] ++ [54]
  ++ ([1;5] ++ [44] ++ [250;190;109;109] ++ repeat 7 40 ++ [1;0] ++ [4;1;2;3;4]) ++ [255;255;255;255] ++ [9;9].
Example template_nonvacuous :
  template_of (mkAuxFull 3 [7] [8] 536870912 486604799 0 None ex_tmpl_tx [[3]] [9])
  = mkTmpl 3 [8] 536870912 486604799 (Some []) 67305985 5 (Some [9;9]) [[3]] [9].
Proof. vm_compute. reflexivity. Qed.

Example engine_error_nonvacuous :
  let e := mkEnv false 4 [] true [] true in
  let h := mkHdr (kawpow_fork_block + 5) 1000 None (Some 1) 0 0 (Some 1) 0 0 (Some 1000000) [] in
  e_fake e = false /\ eng_err e h = true /\ check_valid_ws e h = WsInvalid /\ classify e h = WsInvalid.
Proof. vm_compute. repeat split; reflexivity. Qed.
