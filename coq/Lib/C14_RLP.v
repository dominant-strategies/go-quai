(* C14_RLP — RLP item trees (rlp/encode.go, rlp/decode.go of the repository).

   INTERFACE
     item := Str (b : bytes) | Lst (l : list item)
     rlp_encode : item -> bytes                   canonical encoding (rlp.EncodeToBytes of []byte / []interface{})
     rlp_decode : bytes -> option item            STRICT decoder (rlp.DecodeBytes into interface{}): rejects
                                                  non-canonical sizes, single bytes wrapped in a string header,
                                                  leading zeros in a length, trailing bytes
     dec        : nat -> bytes -> option (item * bytes)     one item and the rest (fuel = 2*length+2 is enough)
     wf_item    : item -> Prop                    bytes < 256 and every payload shorter than 2^64
     item_eqb   : item -> item -> bool
   Theorems (this file):
     rlp_roundtrip      : wf_item t -> rlp_decode (rlp_encode t) = Some t
     dec_encode         : wf_item t -> enough fuel -> dec fuel (rlp_encode t ++ r) = Some (t, r)
     rlp_canonical      : wf_bytes b -> rlp_decode b = Some t -> rlp_encode t = b   (every accepted input is canonical)
     rlp_encode_inj     : wf_item a -> wf_item b -> rlp_encode a = rlp_encode b -> a = b
     rlp_encode_prefix_free : ... rlp_encode a ++ r = rlp_encode b ++ r' -> a = b /\ r = r'
   Both directions go through [dec_step]: a first byte of the string family (base 128) or the list family
   (base 192), then its [payload].
   No axioms. *)
From Coq Require Import List NArith Lia Bool ZifyBool.
From GQ Require Import Lib.Key Lib.C14_Varint Lib.C14_BigEndian.
Import ListNotations.
Local Open Scope N_scope.

Inductive item := Str (b : bytes) | Lst (l : list item).

(* puthead (rlp/encode.go): short form below 56, else length of length *)
Definition header (base : N) (n : N) : bytes :=
  if n <? 56 then [base + n] else (base + 55 + len (be_enc n)) :: be_enc n.

Fixpoint rlp_encode (t : item) : bytes :=
  match t with
  | Str b =>
      match b with
      | [x] => if x <? 128 then [x] else header 128 1 ++ b
      | _ => header 128 (len b) ++ b
      end
  | Lst l =>
      let p := (fix go (l : list item) : bytes :=
                  match l with [] => [] | x :: t => rlp_encode x ++ go t end) l in
      header 192 (len p) ++ p
  end.

Fixpoint encode_list (l : list item) : bytes :=
  match l with [] => [] | x :: t => rlp_encode x ++ encode_list t end.

Definition take (n : N) (b : bytes) : option (bytes * bytes) :=
  if len b <? n then None else Some (firstn (N.to_nat n) b, skipn (N.to_nat n) b).

(* Stream.readUint and the size check of readKind (rlp/decode.go): ll length bytes, no leading zero, value >= 56 *)
Definition read_size (ll : N) (r : bytes) : option (N * bytes) :=
  match take ll r with
  | None => None
  | Some (lb, r1) =>
      if no_lead0b lb && (56 <=? be_dec lb) then Some (be_dec lb, r1) else None
  end.

Fixpoint dec (fuel : nat) (b : bytes) : option (item * bytes) :=
  match fuel with
  | O => None
  | S f =>
      match b with
      | [] => None
      | x :: r =>
          if x <? 128 then Some (Str [x], r)
          else if x <? 184 then
            match take (x - 128) r with
            | None => None
            | Some (s, r') =>
                match s with
                | [y] => if y <? 128 then None else Some (Str s, r')
                | _ => Some (Str s, r')
                end
            end
          else if x <? 192 then
            match read_size (x - 183) r with
            | None => None
            | Some (n, r1) =>
                match take n r1 with
                | None => None
                | Some (s, r') => Some (Str s, r')
                end
            end
          else if x <? 248 then
            match take (x - 192) r with
            | None => None
            | Some (p, r') =>
                match dec_list f p with
                | Some l => Some (Lst l, r')
                | None => None
                end
            end
          else
            match read_size (x - 247) r with
            | None => None
            | Some (n, r1) =>
                match take n r1 with
                | None => None
                | Some (p, r') =>
                    match dec_list f p with
                    | Some l => Some (Lst l, r')
                    | None => None
                    end
                end
            end
      end
  end
with dec_list (fuel : nat) (p : bytes) : option (list item) :=
  match fuel with
  | O => None
  | S f =>
      match p with
      | [] => Some []
      | _ :: _ =>
          match dec f p with
          | None => None
          | Some (t, rest) =>
              match dec_list f rest with
              | Some l => Some (t :: l)
              | None => None
              end
          end
      end
  end.

Definition rlp_decode (b : bytes) : option item :=
  match dec (2 * length b + 2) b with
  | Some (t, []) => Some t
  | _ => None
  end.

Fixpoint item_eqb (a b : item) : bool :=
  match a, b with
  | Str x, Str y => keqb x y
  | Lst x, Lst y =>
      (fix go (l1 l2 : list item) : bool :=
         match l1, l2 with
         | [], [] => true
         | a1 :: t1, a2 :: t2 => item_eqb a1 a2 && go t1 t2
         | _, _ => false
         end) x y
  | _, _ => false
  end.

(* payload sizes representable in 8 bytes *)
Fixpoint wf_item (t : item) : Prop :=
  match t with
  | Str b => wf_bytes b /\ len b < u64
  | Lst l => (fix all (l : list item) : Prop := match l with [] => True | x :: t => wf_item x /\ all t end) l
             /\ len (encode_list l) < u64
  end.

(* the inner [fix] of [rlp_encode] is [encode_list] *)
Lemma rlp_encode_lst l : rlp_encode (Lst l) = header 192 (len (encode_list l)) ++ encode_list l.
Proof. reflexivity. Qed.

Definition self_encoded (b : bytes) : bool := match b with [x] => x <? 128 | _ => false end.

Lemma rlp_encode_str b : rlp_encode (Str b) = if self_encoded b then b else header 128 (len b) ++ b.
Proof. destruct b as [|x [|y b']]; reflexivity. Qed.

Lemma wf_item_lst l : wf_item (Lst l) <-> Forall wf_item l /\ len (encode_list l) < u64.
Proof.
  cbn [wf_item]. apply and_iff_compat_r. induction l as [|x l IH]; [split; constructor|].
  rewrite Forall_cons_iff, <- IH. reflexivity.
Qed.

Lemma take_app (a r : bytes) : take (len a) (a ++ r) = Some (a, r).
Proof. unfold take. rewrite len_app_ltb, firstn_len_app, skipn_len_app. reflexivity. Qed.

Lemma take_spec n b a r : take n b = Some (a, r) -> b = a ++ r /\ len a = n.
Proof.
  unfold take. destruct (len b <? n) eqn:E; [discriminate|]. intros H. injection H as <- <-.
  split; [symmetry; apply firstn_skipn|]. unfold len in *. rewrite firstn_length. lia.
Qed.

Lemma header_length_pos base n : (1 <= length (header base n))%nat.
Proof. unfold header. destruct (n <? 56); cbn [length]; lia. Qed.

Lemma rlp_encode_length_pos t : (1 <= length (rlp_encode t))%nat.
Proof.
  assert (H : forall base n p, (1 <= length (header base n ++ p))%nat).
  { intros. rewrite app_length. pose proof (header_length_pos base n). lia. }
  destruct t as [b|l]; [|rewrite rlp_encode_lst; apply H].
  destruct b as [|x [|y b]]; cbn [rlp_encode]; [apply H| |apply H].
  destruct (x <? 128); [cbn [length]; lia|apply H].
Qed.

Lemma be_enc_len_bounds n : 56 <= n -> n < u64 -> 1 <= len (be_enc n) <= 8.
Proof.
  intros H1 H2. unfold len. split.
  - pose proof (be_enc_nonzero n ltac:(lia)). destruct (be_enc n); [congruence|cbn [length]; lia].
  - pose proof (be_enc_length n 8 H2). lia.
Qed.

Lemma read_size_enc n rest : 56 <= n -> read_size (len (be_enc n)) (be_enc n ++ rest) = Some (n, rest).
Proof.
  intros H1. unfold read_size. rewrite take_app, (proj2 (no_lead0b_iff _) (be_enc_lead n)), be_dec_enc.
  apply N.leb_le in H1. rewrite H1. reflexivity.
Qed.

Lemma read_size_spec ll r n r1 : wf_bytes r -> read_size ll r = Some (n, r1) ->
  exists lb, r = lb ++ r1 /\ len lb = ll /\ be_enc n = lb /\ 56 <= n.
Proof.
  intros W. unfold read_size. destruct (take ll r) as [[lb r1']|] eqn:T; [|discriminate].
  apply take_spec in T as [-> L].
  destruct (no_lead0b lb && (56 <=? be_dec lb)) eqn:E; [|discriminate].
  intros H. injection H as <- <-. apply andb_prop in E as [E1 E2].
  apply Forall_app in W as [Wl _].
  exists lb. repeat split; try assumption.
  - apply be_enc_dec; [assumption|apply no_lead0b_iff; assumption].
  - apply N.leb_le. exact E2.
Qed.

(* what follows a first byte x of the family [base]: the payload and the rest *)
Definition payload (base x : N) (r : bytes) : option (bytes * bytes) :=
  if x <? base + 56 then take (x - base) r
  else match read_size (x - (base + 55)) r with
       | None => None
       | Some (n, r1) => take n r1
       end.

(* The wrapped-single-byte test of the short string form is stated for the long form as well, where it
   cannot fire (a long payload has at least 56 bytes). *)
Lemma dec_step f x r : dec (S f) (x :: r) =
  if x <? 128 then Some (Str [x], r)
  else if x <? 192 then
    match payload 128 x r with
    | None => None
    | Some (s, r') => if self_encoded s then None else Some (Str s, r')
    end
  else
    match payload 192 x r with
    | None => None
    | Some (p, r') => match dec_list f p with Some l => Some (Lst l, r') | None => None end
    end.
Proof.
  cbn [dec]. unfold payload. change (128 + 56) with 184. change (128 + 55) with 183.
  change (192 + 56) with 248. change (192 + 55) with 247.
  destruct (x <? 128); [reflexivity|].
  destruct (x <? 184) eqn:E2.
  { replace (x <? 192) with true by lia.
    destruct (take (x - 128) r) as [[[|y [|z s']] r']|]; reflexivity. }
  destruct (x <? 192).
  2:{ destruct (x <? 248); [reflexivity|]. destruct (read_size (x - 247) r) as [[n r1]|]; reflexivity. }
  destruct (read_size (x - 183) r) as [[n r1]|] eqn:R; [|reflexivity].
  destruct (take n r1) as [[s r']|] eqn:T; [|reflexivity].
  destruct s as [|y [|z s']]; try reflexivity. exfalso.
  apply take_spec in T as [_ L]. unfold read_size in R.
  destruct (take (x - 183) r) as [[lb r1']|]; [|discriminate].
  destruct (no_lead0b lb && (56 <=? be_dec lb)) eqn:E; [|discriminate].
  injection R as <- _. apply andb_prop in E as [_ E]. cbn in L. lia.
Qed.

Lemma header_payload base s r : len s < u64 ->
  exists x r0, header base (len s) ++ s ++ r = x :: r0 /\ base <= x < base + 64 /\ payload base x r0 = Some (s, r).
Proof.
  intros Hs. unfold header, payload. destruct (len s <? 56) eqn:E.
  - exists (base + len s), (s ++ r). split; [reflexivity|]. split; [lia|].
    replace (base + len s <? base + 56) with true by lia.
    replace (base + len s - base) with (len s) by lia. apply take_app.
  - assert (Hn : 56 <= len s) by lia. pose proof (be_enc_len_bounds _ Hn Hs) as L.
    exists (base + 55 + len (be_enc (len s))), (be_enc (len s) ++ s ++ r). split; [reflexivity|]. split; [lia|].
    replace (base + 55 + len (be_enc (len s)) <? base + 56) with false by lia.
    replace (base + 55 + len (be_enc (len s)) - (base + 55)) with (len (be_enc (len s))) by lia.
    rewrite read_size_enc by assumption. apply take_app.
Qed.

Lemma payload_spec base x r s r' : wf_bytes r -> base <= x -> payload base x r = Some (s, r') ->
  x :: r = header base (len s) ++ s ++ r'.
Proof.
  intros W Hx. unfold payload, header. destruct (x <? base + 56) eqn:E.
  - intros T. apply take_spec in T as [-> L].
    replace (len s <? 56) with true by lia. cbn [app]. f_equal. lia.
  - destruct (read_size (x - (base + 55)) r) as [[n r1]|] eqn:R; [|discriminate]. intros T.
    apply read_size_spec in R as (lb & -> & Ll & Hbe & Hn); [|assumption].
    apply take_spec in T as [-> Ls].
    replace (len s <? 56) with false by lia. rewrite Ls, Hbe. cbn [app]. f_equal. lia.
Qed.

Lemma dec_encode_all : forall fuel,
  (forall t r, wf_item t -> (2 * length (rlp_encode t) <= fuel)%nat -> dec fuel (rlp_encode t ++ r) = Some (t, r)) /\
  (forall l, Forall wf_item l -> (2 * length (encode_list l) + 1 <= fuel)%nat -> dec_list fuel (encode_list l) = Some l).
Proof.
  induction fuel as [|f [IHd IHl]].
  - split.
    + intros t r _ H. pose proof (rlp_encode_length_pos t). lia.
    + intros l _ H. lia.
  - split.
    + intros t r W Hf. destruct t as [b|l].
      * destruct W as [_ Wl]. rewrite rlp_encode_str. destruct (self_encoded b) eqn:S.
        -- destruct b as [|x [|y b']]; try discriminate S. cbn [app]. rewrite dec_step.
           cbn [self_encoded] in S. rewrite S. reflexivity.
        -- destruct (header_payload 128 b r Wl) as (x & r0 & E & Hx & P).
           rewrite <- app_assoc, E, dec_step, P, S.
           replace (x <? 128) with false by lia. replace (x <? 192) with true by lia. reflexivity.
      * apply wf_item_lst in W as [Wl Ws]. rewrite rlp_encode_lst in *.
        destruct (header_payload 192 (encode_list l) r Ws) as (x & r0 & E & Hx & P).
        pose proof (header_length_pos 192 (len (encode_list l))) as Hp. rewrite app_length in Hf.
        rewrite <- app_assoc, E, dec_step, P.
        replace (x <? 128) with false by lia. replace (x <? 192) with false by lia.
        rewrite IHl; [reflexivity|assumption|lia].
    + intros l W Hf. destruct l as [|x t]; [reflexivity|].
      inversion W as [|? ? Wx Wt]; subst. cbn [encode_list] in *. rewrite app_length in Hf.
      pose proof (rlp_encode_length_pos x) as Hp.
      cbn [dec_list].
      destruct (rlp_encode x ++ encode_list t) as [|z zs] eqn:Ez.
      { apply (f_equal (@length N)) in Ez. rewrite app_length in Ez. cbn in Ez. lia. }
      rewrite <- Ez. rewrite IHd by (assumption || lia). rewrite IHl by (assumption || lia). reflexivity.
Qed.

Theorem dec_encode t r fuel : wf_item t -> (2 * length (rlp_encode t) <= fuel)%nat ->
  dec fuel (rlp_encode t ++ r) = Some (t, r).
Proof. intros. apply (proj1 (dec_encode_all fuel)); assumption. Qed.

Theorem rlp_roundtrip t : wf_item t -> rlp_decode (rlp_encode t) = Some t.
Proof.
  intros W. unfold rlp_decode. rewrite <- (app_nil_r (rlp_encode t)) at 2.
  rewrite dec_encode; [reflexivity|assumption|lia].
Qed.

Theorem rlp_encode_prefix_free a b r r' : wf_item a -> wf_item b ->
  rlp_encode a ++ r = rlp_encode b ++ r' -> a = b /\ r = r'.
Proof.
  intros Wa Wb E.
  set (fuel := (2 * length (rlp_encode a) + 2 * length (rlp_encode b))%nat).
  pose proof (dec_encode a r fuel Wa ltac:(unfold fuel; lia)) as Da.
  pose proof (dec_encode b r' fuel Wb ltac:(unfold fuel; lia)) as Db.
  rewrite E in Da. rewrite Da in Db. injection Db as -> ->. split; reflexivity.
Qed.

Theorem rlp_encode_inj a b : wf_item a -> wf_item b -> rlp_encode a = rlp_encode b -> a = b.
Proof.
  intros Wa Wb E. apply (rlp_encode_prefix_free a b [] [] Wa Wb). rewrite E. reflexivity.
Qed.

Lemma dec_canonical_all : forall fuel,
  (forall b t r, wf_bytes b -> dec fuel b = Some (t, r) -> b = rlp_encode t ++ r) /\
  (forall p l, wf_bytes p -> dec_list fuel p = Some l -> p = encode_list l).
Proof.
  induction fuel as [|f [IHd IHl]]; [split; intros; discriminate|]. split.
  - intros b t r W H. destruct b as [|x r0]; [discriminate|]. rewrite dec_step in H.
    inversion W as [|? ? Hx W0]; subst.
    destruct (x <? 128) eqn:E1.
    { injection H as <- <-. cbn [rlp_encode]. rewrite E1. reflexivity. }
    destruct (x <? 192) eqn:E2.
    + destruct (payload 128 x r0) as [[s r']|] eqn:P; [|discriminate].
      destruct (self_encoded s) eqn:S; [discriminate|]. injection H as <- <-.
      apply payload_spec in P; [|assumption|lia].
      rewrite rlp_encode_str, S, <- app_assoc. exact P.
    + destruct (payload 192 x r0) as [[p r']|] eqn:P; [|discriminate].
      destruct (dec_list f p) as [l|] eqn:D; [|discriminate]. injection H as <- <-.
      apply payload_spec in P; [|assumption|lia].
      assert (Wp : wf_bytes p).
      { rewrite P in W. apply Forall_app in W as [_ W]. apply Forall_app in W as [W _]. exact W. }
      apply IHl in D; [|exact Wp]. subst p. rewrite rlp_encode_lst, <- app_assoc. exact P.
  - intros p l W H. cbn [dec_list] in H. destruct p as [|x p']; [injection H as <-; reflexivity|].
    destruct (dec f (x :: p')) as [[t rest]|] eqn:D; [|discriminate].
    destruct (dec_list f rest) as [l'|] eqn:DL; [|discriminate]. injection H as <-.
    apply IHd in D; [|assumption]. rewrite D in W. apply Forall_app in W as [_ Wr].
    apply IHl in DL; [|assumption]. cbn [encode_list]. rewrite D, DL. reflexivity.
Qed.

Theorem dec_canonical fuel b t r : wf_bytes b -> dec fuel b = Some (t, r) -> b = rlp_encode t ++ r.
Proof. apply (proj1 (dec_canonical_all fuel)). Qed.

Theorem rlp_canonical b t : wf_bytes b -> rlp_decode b = Some t -> rlp_encode t = b.
Proof.
  intros W. unfold rlp_decode.
  destruct (dec (2 * length b + 2) b) as [[t' [|y r]]|] eqn:D; try discriminate.
  intros H. injection H as <-. apply dec_canonical in D; [|assumption]. rewrite app_nil_r in D. auto.
Qed.
