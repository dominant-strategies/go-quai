(* C13 — workshare inclusion (HeaderChain.VerifyUncles) and the reward-at-depth rule:
   a share is included, and so paid, at most once along any chain. *)
From Coq Require Import List NArith Bool Lia Arith.
From GQ Require Import Lib.Lists Generated.C13Params Model.C13.
Import ListNotations.
Import C13Params.
Local Open Scope N_scope.

Lemma hmem_false h l : hmem h l = false <-> ~ In h l.
Proof. exact (existsb_eqb_not_In N.eqb N.eqb_eq h l). Qed.

Lemma find_blk_find db h : find_blk db h = find (fun b => b_id b =? h) db.
Proof. induction db as [|a db IH]; cbn [find_blk find]; [|rewrite IH]; reflexivity. Qed.

Lemma find_blk_some : forall db h b, find_blk db h = Some b -> In b db /\ b_id b = h.
Proof.
  intros db h b H. rewrite find_blk_find in H. apply find_some in H as [H1 H2]. apply N.eqb_eq in H2. auto.
Qed.

Lemma find_blk_none : forall db h, find_blk db h = None -> ~ In h (map b_id db).
Proof.
  intros db h H Hin. rewrite find_blk_find in H. apply in_map_iff in Hin as (b & Hb & Hin).
  apply (find_none _ _ H) in Hin. apply N.eqb_neq in Hin. exact (Hin Hb).
Qed.

Lemma find_blk_in : forall db b, NoDup (map b_id db) -> In b db -> find_blk db (b_id b) = Some b.
Proof.
  intros db b Hn Hin. destruct (find_blk db (b_id b)) as [b'|] eqn:E.
  - apply find_blk_some in E as [Hin' E]. f_equal. exact (NoDup_map_inj b_id db b' b Hn Hin' Hin E).
  - destruct (find_blk_none _ _ E). apply in_map, Hin.
Qed.

Lemma find_blk_not_in db h : ~ In h (map b_id db) -> find_blk db h = None.
Proof.
  intros H. destruct (find_blk db h) as [b|] eqn:E; [|reflexivity].
  apply find_blk_some in E as [Hin <-]. destruct H. apply in_map, Hin.
Qed.

Lemma uwf_nodup : forall c, uwf c -> NoDup (map b_id c).
Proof. induction c as [|b rest IH]; cbn [uwf map]; intros H; [constructor|]. constructor; [apply H|apply IH, H]. Qed.

Lemma uwf_app_r : forall l1 l2, uwf (l1 ++ l2) -> uwf l2.
Proof. apply tail_closed_app_r. intros a l H. apply H. Qed.

Lemma uaccepted_app_r : forall l1 l2, uaccepted (l1 ++ l2) -> uaccepted l2.
Proof. apply tail_closed_app_r. intros a l H. apply H. Qed.

Lemma unumbered_app_r : forall l1 l2, unumbered (l1 ++ l2) -> unumbered l2.
Proof. apply tail_closed_app_r. intros a l H. apply H. Qed.

Lemma uroot_app_r l1 l2 : uroot (l1 ++ l2) -> uroot l2.
Proof.
  destruct l2 as [|x l2]; [intros _ []|]. destruct (@exists_last _ (x :: l2)) as (l' & z & ->); [discriminate|].
  unfold uroot. rewrite app_assoc, !last_last, <- app_assoc, map_app. intros H Hx. apply H, in_or_app. right. exact Hx.
Qed.

Lemma uaccepted_at l1 b l2 : uaccepted (l1 ++ b :: l2) -> verify_uncles l2 b = VOk.
Proof. intros H. apply uaccepted_app_r in H. apply H. Qed.

Lemma ushares_cons b rest : ushares (b :: rest) = b_uncles b ++ ushares rest.
Proof. reflexivity. Qed.

Lemma in_ushares_head s b rest : In s (b_uncles b) -> In s (ushares (b :: rest)).
Proof. intros H. apply in_or_app. left. exact H. Qed.

Lemma in_ushares_tail s b rest : In s (ushares rest) -> In s (ushares (b :: rest)).
Proof. intros H. apply in_or_app. right. exact H. Qed.

Lemma ubinds_tail b rest : ubinds (b :: rest) -> ubinds rest.
Proof. intros H s s' Hs Hs'. apply H; apply in_ushares_tail; assumption. Qed.

Lemma ubinds_blocks_tail b rest : ubinds_blocks (b :: rest) -> ubinds_blocks rest.
Proof. intros H s bk Hs Hbk. apply H; [apply in_ushares_tail; exact Hs|right; exact Hbk]. Qed.

Lemma lister c s : In s (ushares c) -> exists l1 b l2, c = l1 ++ b :: l2 /\ In s (b_uncles b).
Proof. intros H. apply in_flat_map in H as (b & Hb & Hs). destruct (in_split _ _ Hb) as (l1 & l2 & ->). eauto. Qed.

Lemma window_closed l1 b l2 d p :
  NoDup (map b_id (l1 ++ b :: l2)) -> In p (firstn d (l1 ++ b :: l2)) -> In p l2 -> In b (firstn d (l1 ++ b :: l2)).
Proof.
  intros Hn Hp Hp2. replace (l1 ++ b :: l2) with ((l1 ++ [b]) ++ l2) in * by (rewrite <- app_assoc; reflexivity).
  rewrite firstn_app in *. apply in_or_app. left. apply in_app_or in Hp as [Hp|Hp].
  - (* p stands in l2 only *)
    exfalso. rewrite map_app in Hn. apply NoDup_app_iff in Hn as (_ & _ & Hd).
    apply (Hd (b_id p)); apply in_map; [eapply firstn_In; exact Hp|exact Hp2].
  - (* the window reaches into l2, so it holds all of l1 ++ [b] *)
    destruct (Nat.ltb_spec (length (l1 ++ [b])) d) as [H|H].
    + rewrite firstn_all2 by lia. apply in_or_app. right. left. reflexivity.
    + replace (d - length (l1 ++ [b]))%nat with 0%nat in Hp by lia. destruct Hp.
Qed.

Lemma parent_is_next l1 bk l2 q : uwf (l1 ++ bk :: l2) -> uroot (l1 ++ bk :: l2) ->
  In q (l1 ++ bk :: l2) -> b_id q = b_parent bk -> exists l2', l2 = q :: l2'.
Proof.
  intros Hwf Hroot Hq Hid. pose proof (uwf_app_r _ _ Hwf) as Hk. destruct l2 as [|q' l2'].
  - exfalso. apply Hroot. rewrite last_last, <- Hid. apply in_map. exact Hq.
  - exists l2'. f_equal. destruct Hk as (_ & Hlink & _).
    apply (NoDup_map_inj b_id (l1 ++ bk :: q' :: l2')); [apply uwf_nodup, Hwf| |exact Hq|congruence].
    apply in_or_app. right. right. left. reflexivity.
Qed.

(* the ancestors [uwalk] finds, nearest first *)
Fixpoint ancestors (db : list blk) (fuel : nat) (p : hid) : list blk :=
  match fuel with
  | O => []
  | S f => match find_blk db p with None => [] | Some a => a :: ancestors db f (b_parent a) end
  end.

Lemma uwalk_ancestors : forall fuel db p anc ban,
  uwalk db fuel p anc ban = (anc ++ ancestors db fuel p, ban ++ map s_id (flat_map b_uncles (ancestors db fuel p))).
Proof.
  induction fuel as [|f IH]; intros db p anc ban; cbn [uwalk ancestors]; [rewrite !app_nil_r; reflexivity|].
  destruct (find_blk db p) as [a|]; [|rewrite !app_nil_r; reflexivity].
  rewrite IH. cbn [flat_map]. rewrite map_app, <- !app_assoc. reflexivity.
Qed.

Lemma ancestors_in_db : forall fuel db p x, In x (ancestors db fuel p) -> In x db.
Proof.
  induction fuel as [|f IH]; cbn [ancestors]; intros db p x H; [destruct H|].
  destruct (find_blk db p) as [a|] eqn:E; [|destruct H].
  destruct H as [<-|H]; [apply (find_blk_some _ _ _ E)|exact (IH _ _ _ H)].
Qed.

Lemma ancestors_chain : forall fuel db suf b,
  NoDup (map b_id db) -> incl suf db -> uwf (b :: suf) ->
  ~ In (b_parent (last (b :: suf) (mkBlk 0 0 0 0 []))) (map b_id db) ->
  ancestors db fuel (b_parent b) = firstn fuel suf.
Proof.
  induction fuel as [|f IH]; intros db suf b Hn Hsub Hwf Hroot; [reflexivity|].
  destruct suf as [|p suf'].
  - cbn in Hroot |- *. rewrite (find_blk_not_in _ _ Hroot). reflexivity.
  - destruct Hwf as (_ & Hp & Hwf).
    cbn [ancestors firstn]. rewrite Hp, (find_blk_in _ _ Hn (Hsub p (or_introl eq_refl))). f_equal.
    apply IH; [exact Hn|intros x Hx; apply Hsub; right; exact Hx|exact Hwf|exact Hroot].
Qed.

Set Implicit Arguments.
(* what VerifyUncles has checked of a share s listed by b, anc being the ancestors it walked over *)
Record listed_ok (b : blk) (anc : list blk) (s : share) : Prop := {
  lo_new : ~ In (s_id s) (map s_id (flat_map b_uncles anc));
  lo_no_block : ~ In (s_id s) (map b_id anc ++ [b_id b]);
  lo_depth : length anc = u_depth (b_ptn b);
  lo_parent : exists p, In p anc /\ b_id p = s_parent s /\ s_num s = b_num p + 1
}.
Record accepted (db : list blk) (b : blk) : Prop := {
  ac_count : N.of_nat (length (b_uncles b)) <= u_maxcount (b_ptn b);
  ac_nodup : NoDup (map s_id (b_uncles b));
  ac_listed : forall s, In s (b_uncles b) -> listed_ok b (ancestors db (u_depth (b_ptn b)) (b_parent b)) s
}.
Unset Implicit Arguments.

Lemma else_ok (c : bool) (v e : uverdict) : v <> VOk -> (if c then v else e) = VOk -> c = false /\ e = VOk.
Proof. destruct c; [congruence|auto]. Qed.

(* lo_new is the duplicate test of the loop around [ucheck] *)
Lemma ucheck_ok : forall b anc s, ~ In (s_id s) (map s_id (flat_map b_uncles anc)) -> ucheck b anc s = VOk ->
  listed_ok b anc s.
Proof.
  intros b anc s Hnew H. unfold ucheck in H. cbv zeta in H.
  apply else_ok in H as [_ H]; [|discriminate].
  apply else_ok in H as [_ H]; [|discriminate].
  apply else_ok in H as [Ea H]; [|discriminate]. apply hmem_false in Ea.
  destruct (if u_postkaw (b_ptn b) then _ else _) as [ws|]; [|discriminate].
  apply else_ok in H as [_ H]; [|discriminate].
  apply else_ok in H as [_ H]; [|discriminate].
  apply else_ok in H as [El H]; [|discriminate]. apply negb_false_iff, Nat.eqb_eq in El.
  apply else_ok in H as [_ H]; [|discriminate].
  destruct (find_blk anc (s_parent s)) as [p|] eqn:Ef; [|discriminate].
  apply else_ok in H as [_ H]; [|discriminate].
  apply else_ok in H as [_ H]; [|discriminate].
  apply else_ok in H as [En _]; [|discriminate]. apply negb_false_iff, N.eqb_eq in En.
  apply find_blk_some in Ef as [Ef1 Ef2].
  exact {| lo_new := Hnew; lo_no_block := Ea; lo_depth := El; lo_parent := ex_intro _ p (conj Ef1 (conj Ef2 En)) |}.
Qed.

Lemma uloop_ok : forall b anc us ban, uloop b anc ban us = VOk ->
  NoDup (map s_id us)
  /\ forall s, In s us -> ~ In (s_id s) ban /\ ucheck b anc s = VOk.
Proof.
  intros b anc. induction us as [|s t IH]; intros ban H; [split; [constructor|intros s []]|].
  cbn [uloop] in H. destruct (hmem (s_id s) ban) eqn:Eb; [discriminate|]. apply hmem_false in Eb.
  destruct (ucheck b anc s) eqn:Ec; try discriminate. apply IH in H as [H1 H2]. split.
  - cbn [map]. constructor; [|exact H1]. intro Hin. apply in_map_iff in Hin as (s' & Hs' & Hin).
    apply (H2 s' Hin). left. symmetry. exact Hs'.
  - intros s' [<-|Hs']; [split; assumption|]. destruct (H2 s' Hs') as [Hnb Hc].
    split; [|exact Hc]. intro Hx. apply Hnb. right. exact Hx.
Qed.

Lemma verify_ok_spec db b : verify_uncles db b = VOk -> accepted db b.
Proof.
  intros H. unfold verify_uncles in H. rewrite uwalk_ancestors in H. cbn [app] in H.
  set (anc := ancestors db (u_depth (b_ptn b)) (b_parent b)) in *.
  destruct (u_maxcount (b_ptn b) <? N.of_nat (length (b_uncles b))) eqn:E; [discriminate|].
  apply N.ltb_ge in E.
  (* an empty uncle list is accepted without a walk, and the loop accepts it too *)
  assert (Hl : uloop b anc (map s_id (flat_map b_uncles anc) ++ [b_id b]) (b_uncles b) = VOk)
    by (destruct (b_uncles b); [reflexivity|exact H]).
  apply uloop_ok in Hl as [H1 H2]. split; [exact E|exact H1|].
  intros s Hs. destruct (H2 s Hs) as [Hb Hc]. apply ucheck_ok; [|exact Hc].
  intro Hx. apply Hb, in_or_app. left. exact Hx.
Qed.

Lemma listed_on_chain b rest s : uwf (b :: rest) -> uroot (b :: rest) -> verify_uncles rest b = VOk ->
  In s (b_uncles b) -> listed_ok b (firstn (u_depth (b_ptn b)) rest) s.
Proof.
  intros Hwf Hroot H Hs.
  rewrite <- (ancestors_chain _ rest rest b); [exact (ac_listed (verify_ok_spec _ _ H) s Hs)|apply uwf_nodup, (uwf_app_r [b]), Hwf|apply incl_refl|exact Hwf|].
  intro Hx. apply Hroot. right. exact Hx.
Qed.

Lemma verify_ok_parent_in_db b db : verify_uncles db b = VOk ->
  forall s, In s (b_uncles b) -> exists p, In p db /\ b_id p = s_parent s.
Proof.
  intros H s Hs. destruct (lo_parent (ac_listed (verify_ok_spec _ _ H) s Hs)) as (p & Hp1 & Hp2 & _).
  exists p. split; [exact (ancestors_in_db _ _ _ _ Hp1)|exact Hp2].
Qed.

Lemma lister_parent c s : uaccepted c -> In s (ushares c) ->
  exists l1 b l2 p, c = l1 ++ b :: l2 /\ In s (b_uncles b) /\ In p l2 /\ b_id p = s_parent s.
Proof.
  intros Hacc Hs. destruct (lister c s Hs) as (l1 & b & l2 & -> & Hsb).
  destruct (verify_ok_parent_in_db b l2 (uaccepted_at _ _ _ Hacc) s Hsb) as (p & Hp1 & Hp2).
  exists l1, b, l2, p. auto.
Qed.

Lemma no_reinclusion : forall b rest, uwf (b :: rest) -> uroot (b :: rest) ->
  verify_uncles rest b = VOk -> uaccepted rest ->
  forall s s', In s (b_uncles b) -> In s' (ushares rest) ->
    s_id s = s_id s' -> s_parent s = s_parent s' -> False.
Proof.
  intros b rest Hwf Hroot Hv Hacc s s' Hs Hs' Hid Hpar.
  pose proof (listed_on_chain b rest s Hwf Hroot Hv Hs) as K. destruct (lo_parent K) as (p & Hp1 & Hp2 & _).
  destruct (lister_parent rest s' Hacc Hs') as (l1 & bi & l2 & p' & -> & Hs'i & Hp'1 & Hp'2).
  assert (Hn : NoDup (map b_id (l1 ++ bi :: l2))) by apply uwf_nodup, (uwf_app_r [b]), Hwf.
  assert (p = p') as <-.
  { apply (NoDup_map_inj b_id _ p p' Hn); [eapply firstn_In; exact Hp1| |congruence].
    apply in_or_app. right. right. exact Hp'1. }
  (* the earlier lister stands above the share's parent, hence inside the window *)
  apply (lo_new K). rewrite Hid. apply in_map, in_flat_map. exists bi. split; [|exact Hs'i].
  exact (window_closed l1 bi l2 _ p Hn Hp1 Hp'1).
Qed.

Lemma listed_by_head_no_block b rest : uwf (b :: rest) -> uroot (b :: rest) -> verify_uncles rest b = VOk ->
  forall s bk, In s (b_uncles b) -> In bk (b :: rest) -> s_parent s = b_parent bk -> s_id s <> b_id bk.
Proof.
  intros Hwf Hroot Hv s bk Hs Hbk Hpar Heq.
  pose proof (listed_on_chain b rest s Hwf Hroot Hv Hs) as K. destruct (lo_parent K) as (p & Hp1 & Hp2 & _).
  (* bk is b itself or stands right above the share's parent, hence inside the window *)
  apply (lo_no_block K). rewrite Heq. destruct Hbk as [<-|Hbk]; apply in_or_app; [right; left; reflexivity|left].
  apply in_map. destruct (in_split _ _ Hbk) as (l1 & l2 & ->).
  destruct (parent_is_next (b :: l1) bk l2 p Hwf Hroot) as (l2' & ->);
    [right; eapply firstn_In; exact Hp1|congruence|].
  apply (window_closed l1 bk (p :: l2') _ p); [apply uwf_nodup, (uwf_app_r [b]), Hwf|exact Hp1|left; reflexivity].
Qed.

Lemma head_parent_not_listed b rest : uwf (b :: rest) -> uaccepted rest ->
  forall s, In s (ushares rest) -> s_parent s <> b_parent b.
Proof.
  intros Hwf Har s Hs Hpar.
  destruct (lister_parent rest s Har Hs) as (l1 & bi & l2 & p & -> & Hsi & Hp1 & Hp2).
  destruct Hwf as (_ & Hlink & Hwf). apply uwf_nodup in Hwf.
  (* the head of the chain below carries the hash b_parent b, and so does p, strictly below the head *)
  destruct l1 as [|a l1]; cbn [app map] in Hlink, Hwf; inversion Hwf as [|x l Hna _]; subst; apply Hna;
    rewrite <- Hlink, <- Hpar, <- Hp2; apply in_map.
  - exact Hp1.
  - apply in_or_app. right. right. exact Hp1.
Qed.

Lemma inclusion_window_ok :
  ((3 =? workshares_inclusion_depth) && (workshares_inclusion_depth <=? new_workshares_inclusion_depth)
   && (new_workshares_inclusion_depth <=? 4) && (max_workshare_count <=? new_max_workshare_count)
   && (kawpow_fork_block <=? inclusion_depth_change_block) && (controller_kick_in_block <=? kawpow_fork_block)) = true.
Proof. vm_compute. reflexivity. Qed.

(* either depth is the guard `WorkSharesInclusionDepth` of the payment rule or one more: the block that pays a due share
   lies above the guard, and above the guard `number - depth` does not truncate *)
Lemma u_depth_window ptn :
  workshares_inclusion_depth <= N.of_nat (u_depth ptn) <= workshares_inclusion_depth + 1.
Proof.
  pose proof inclusion_window_ok as P.
  apply andb_prop in P as [P _]. apply andb_prop in P as [P _]. apply andb_prop in P as [P _].
  apply andb_prop in P as [P H4]. apply andb_prop in P as [H3 Hle].
  apply N.eqb_eq in H3. apply N.leb_le in Hle, H4.
  unfold u_depth. destruct (inclusion_depth_change_block <=? ptn); rewrite N2Nat.id; lia.
Qed.

Lemma unumbered_pos : forall l1 b bi l2, unumbered (b :: l1 ++ bi :: l2) ->
  b_num b = b_num bi + N.of_nat (length l1) + 1.
Proof.
  induction l1 as [|a l1 IH]; intros b bi l2 H; [cbn in H |- *; lia|].
  destruct H as [H1 H2]. cbn in H1. specialize (IH a bi l2 H2). cbn [length]. lia.
Qed.

Lemma unumbered_window l top : unumbered (top :: l) -> forall n q, In q (firstn n l) ->
  b_num q < b_num top /\ b_num top <= b_num q + N.of_nat n.
Proof.
  intros Hn n q Hq. destruct (in_split _ _ Hq) as (l1 & l2 & E).
  pose proof (firstn_le_length n l) as Hl. rewrite E, app_length in Hl. cbn [length] in Hl.
  rewrite <- (firstn_skipn n l), E, <- app_assoc in Hn. rewrite (unumbered_pos l1 top q _ Hn). lia.
Qed.

Lemma unumbered_lt b rest : unumbered (b :: rest) -> forall b', In b' rest -> b_num b' < b_num b.
Proof. intros Hn b' Hb'. rewrite <- (firstn_all rest) in Hb'. apply (unumbered_window rest b Hn _ b' Hb'). Qed.

Lemma upaid_iff b rest s :
  In s (upaid b rest) <->
  workshares_inclusion_depth < b_num b /\ (u_depth (b_ptn b) <= length rest)%nat /\
  In s (flat_map b_uncles (firstn (u_depth (b_ptn b)) rest) ++ b_uncles b) /\
  s_num s = b_num b - N.of_nat (u_depth (b_ptn b)).
Proof.
  unfold upaid. destruct (N.leb_spec (b_num b) workshares_inclusion_depth); [cbn [In]; lia|].
  destruct (Nat.ltb_spec (length rest) (u_depth (b_ptn b))); [cbn [In]; lia|].
  rewrite filter_In, N.eqb_eq. tauto.
Qed.

Lemma upaid_in : forall b rest s, In s (upaid b rest) ->
  In s (ushares (b :: rest)) /\ b_num b = s_num s + N.of_nat (u_depth (b_ptn b)).
Proof.
  intros b rest s H. apply upaid_iff in H as (Hg & _ & Hin & Hn). destruct (u_depth_window (b_ptn b)) as [_ Hd]. split; [|lia].
  apply in_app_or in Hin as [Hin|Hin]; [apply in_ushares_tail; eapply in_flat_firstn; exact Hin|apply in_ushares_head; exact Hin].
Qed.

Lemma listed_share_numbers b rest s : uwf (b :: rest) -> uroot (b :: rest) -> unumbered (b :: rest) ->
  verify_uncles rest b = VOk -> In s (b_uncles b) ->
  1 <= s_num s <= b_num b /\ b_num b < s_num s + N.of_nat (u_depth (b_ptn b)) /\ (u_depth (b_ptn b) <= length rest)%nat.
Proof.
  intros Hwf Hroot Hnum Hv Hs.
  pose proof (listed_on_chain b rest s Hwf Hroot Hv Hs) as K. destruct (lo_parent K) as (p & Hp1 & _ & Hp3).
  pose proof (lo_depth K) as Hlen. destruct (unumbered_window rest b Hnum _ p Hp1). rewrite firstn_length in Hlen. lia.
Qed.

Lemma listed_below_paid b l1 bi l2 d s : uwf (bi :: l2) -> uroot (bi :: l2) -> verify_uncles l2 bi = VOk ->
  unumbered (b :: l1 ++ bi :: l2) -> u_depth (b_ptn b) = d -> u_depth (b_ptn bi) = d ->
  In s (b_uncles bi) -> b_num b = s_num s + N.of_nat d -> In s (upaid b (l1 ++ bi :: l2)).
Proof.
  intros Hwf Hroot Hv Hnum Hdb Hdi Hs Hdue.
  destruct (listed_share_numbers bi l2 s Hwf Hroot (unumbered_app_r (b :: l1) _ Hnum) Hv Hs) as (Hr1 & Hr2 & Hlen).
  rewrite Hdi in Hr2, Hlen. pose proof (unumbered_pos l1 b bi l2 Hnum) as Hpos.
  destruct (u_depth_window (b_ptn b)) as [H3 _]. rewrite Hdb in H3.
  (* the lister lies less than `depth` blocks below b, and `depth` blocks lie below the lister *)
  apply upaid_iff. rewrite Hdb, app_length. cbn [length]. repeat split; [lia|lia| |lia].
  apply in_or_app. left. apply in_flat_map. exists bi. split; [|exact Hs].
  rewrite firstn_app. apply in_or_app. right.
  replace (d - length l1)%nat with (S (d - length l1 - 1)) by lia. left. reflexivity.
Qed.

Lemma upaid_nodup : forall b rest, NoDup (map s_id (ushares (b :: rest))) -> NoDup (map s_id (upaid b rest)).
Proof.
  intros b rest H. unfold upaid.
  destruct (b_num b <=? workshares_inclusion_depth); [constructor|].
  destruct (length rest <? u_depth (b_ptn b))%nat; [constructor|].
  apply NoDup_map_filter. rewrite ushares_cons in H.
  rewrite map_app in *. apply NoDup_app_iff in H as (H1 & H2 & H3). apply NoDup_app_iff. repeat split; [|exact H1|].
  - unfold ushares in H2. rewrite <- (firstn_skipn (u_depth (b_ptn b)) rest), flat_map_app, map_app in H2.
    apply NoDup_app_iff in H2. apply H2.
  - intros x Hx1 Hx2. apply (H3 x Hx2). apply in_map_iff in Hx1 as (s & <- & Hs). apply in_map. eapply in_flat_firstn. exact Hs.
Qed.

Lemma upaid_all_in : forall c s, In s (upaid_all c) ->
  In s (ushares c) /\ exists b, In b c /\ b_num b = s_num s + N.of_nat (u_depth (b_ptn b)).
Proof.
  induction c as [|a c IH]; cbn [upaid_all]; intros s H; [destruct H|].
  apply in_app_or in H as [H|H].
  - apply upaid_in in H as [H1 H2]. split; [exact H1|]. exists a. split; [left; reflexivity|exact H2].
  - destruct (IH s H) as (H1 & b & Hb & H2). split; [apply in_ushares_tail, H1|]. exists b. split; [right; exact Hb|exact H2].
Qed.

Lemma upaid_all_nodup d : forall c, NoDup (map s_id (ushares c)) -> unumbered c ->
  (forall b, In b c -> u_depth (b_ptn b) = d) -> NoDup (map s_id (upaid_all c)).
Proof.
  induction c as [|b rest IH]; intros Hall Hnum Hd; [constructor|].
  cbn [upaid_all]. apply NoDup_map_app.
  - apply upaid_nodup. exact Hall.
  - rewrite ushares_cons, map_app in Hall. apply NoDup_app_iff in Hall as (_ & Hall & _).
    apply (IH Hall (unumbered_app_r [b] rest Hnum)). intros b0 Hb0. apply Hd. right. exact Hb0.
  - intros s s' Hs Hs' Hid.
    apply upaid_in in Hs as (Hin & Hn1). apply upaid_all_in in Hs' as (Hin' & b' & Hb' & Hn2).
    assert (s = s') as <- by exact (NoDup_map_inj s_id _ s s' Hall Hin (in_ushares_tail _ _ _ Hin') Hid).
    (* one share, paid `d` above its number by b and by b', which stand at different heights *)
    pose proof (unumbered_lt _ _ Hnum b' Hb') as Hlt.
    rewrite (Hd b (or_introl eq_refl)) in Hn1. rewrite (Hd b' (or_intror Hb')) in Hn2. lia.
Qed.

(* the last depth-3 block (8) and the first depth-4 block (9) both pay the share numbered 5 *)
Definition wit_share : share := mkShare 100 4 5 300000 false [0] 0 false PValid true.
Definition wit_chain : list blk :=
  [ mkBlk 9 8 9 inclusion_depth_change_block [];
    mkBlk 8 7 8 300000 [];
    mkBlk 7 6 7 300000 [];
    mkBlk 6 5 6 300000 [wit_share];
    mkBlk 5 4 5 300000 [];
    mkBlk 4 3 4 300000 [];
    mkBlk 3 2 3 300000 [];
    mkBlk 2 1 2 300000 [];
    mkBlk 1 0 1 300000 [] ].

Definition ex_share (id parent num : N) : share := mkShare id parent num 300000 false [0] 0 false PValid true.
Definition ex_base : list blk :=
  [ mkBlk 5 4 5 300000 []; mkBlk 4 3 4 300000 []; mkBlk 3 2 3 300000 []; mkBlk 2 1 2 300000 []; mkBlk 1 0 1 300000 [] ].
Definition ex_b6 : blk := mkBlk 6 5 6 300000 [ex_share 100 5 6].
Definition ex_b7_dup : blk := mkBlk 7 6 7 300000 [ex_share 100 5 6].
Definition ex_b7_fresh : blk := mkBlk 7 6 7 300000 [ex_share 101 5 6; ex_share 102 6 7].
