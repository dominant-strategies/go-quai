(* C14 — Transaction model: the encodings are normal forms of the generated schema, so that Transaction.ProtoEncode /
   ProtoDecode is a sound codec of ProtoTransaction ([tx_sound]) and the generic wire theorems apply to its bytes. *)
From Coq Require Import List NArith.
From GQ Require Import Lib.C14_Varint Lib.C14_BigEndian Lib.C14_ProtoWire
  Generated.C14Schemas Model.C14 Proofs.C14 Proofs.C14_Tx Proofs.C14_Tx2.
Import ListNotations.
Local Open Scope N_scope.

(* the descriptor of ProtoTransaction the model was written against; [tx_desc] checks it against the generated schema *)
Definition txd : msgdesc :=
  [mkField 1 KU64 LOpt 0; mkField 2 KBytes LOpt 0; mkField 3 KU64 LOpt 0; mkField 4 KBytes LOpt 0; mkField 5 KU64 LOpt 0;
   mkField 6 KBytes LOpt 0; mkField 7 KBytes LOpt 0; mkField 8 KBytes LOpt 0; mkField 9 (KMsg id_block_ProtoAccessList) LOpt 0;
   mkField 10 KBytes LOpt 0; mkField 11 KBytes LOpt 0; mkField 12 KBytes LOpt 0; mkField 13 (KMsg id_common_ProtoHash) LOpt 0;
   mkField 14 KU32 LOpt 0; mkField 15 (KMsg id_block_ProtoTxIns) LOpt 0; mkField 16 (KMsg id_block_ProtoTxOuts) LOpt 0;
   mkField 17 KBytes LOpt 0; mkField 18 KBytes LOpt 0; mkField 19 (KMsg id_common_ProtoHash) LOpt 0;
   mkField 20 (KMsg id_common_ProtoHash) LOpt 0; mkField 21 KU64 LOpt 0; mkField 22 KU64 LOpt 0].
Lemma tx_desc : nth_error sc (N.to_nat id_block_ProtoTransaction) = Some txd.
Proof. vm_compute. reflexivity. Qed.
Lemma txins_desc : nth_error sc (N.to_nat id_block_ProtoTxIns) = Some [mkField 1 (KMsg id_block_ProtoTxIn) LRep 0].
Proof. vm_compute. reflexivity. Qed.
Lemma txouts_desc : nth_error sc (N.to_nat id_block_ProtoTxOuts) = Some [mkField 1 (KMsg id_block_ProtoTxOut) LRep 0].
Proof. vm_compute. reflexivity. Qed.
Lemma txin_desc : nth_error sc (N.to_nat id_block_ProtoTxIn) =
  Some [mkField 1 (KMsg id_block_ProtoOutPoint) LOpt 0; mkField 2 KBytes LOpt 0].
Proof. vm_compute. reflexivity. Qed.

Definition oaddr_wf (o : option bytes) : Prop := match o with Some a => addr_nf a | None => True end.

(* The field numbers of a struct are checked against the descriptor once ([struct_keys_ok], by evaluation); what
   remains, entry by entry, is [val_ok] of the kind of its field. *)

Lemma work_fields_ok w : work_nf w -> Forall (field_val_ok txd) (work_entries w).
Proof.
  intros (Hpa & Hmi & Hn). unfold work_entries. repeat (apply Forall_cons || apply Forall_nil).
  - destruct (w_parent w) as [h|]; [|exact I]. exact (hash_msg_wf h Hpa).
  - destruct (w_mix w) as [h|]; [|exact I]. exact (hash_msg_wf h Hmi).
  - destruct (w_nonce w) as [n|]; [|exact I]. exact Hn.
Qed.

Lemma quai_wf q : quai_nf q -> wf_msg sc id_block_ProtoTransaction (build (quai_entries q)) = true.
Proof.
  intros (Hto & Hn & Hg & Hd & Hal & _ & Hw).
  apply (wf_msg_build _ _ _ tx_desc); [reflexivity|].
  apply Forall_app. split; [|exact (work_fields_ok _ Hw)]. repeat (apply Forall_cons || apply Forall_nil).
  - reflexivity.
  - destruct (q_to q) as [a|]; [|exact I]. exact (proj2 Hto).
  - exact Hn.
  - apply be_enc_wf.
  - exact Hg.
  - exact Hd.
  - apply be_enc_wf.
  - apply be_enc_wf.
  - exact (al_wf _ Hal).
  - apply be_enc_wf.
  - apply be_enc_wf.
  - apply be_enc_wf.
Qed.

Lemma ext_wf e : ext_nf e -> wf_msg sc id_block_ProtoTransaction (build (ext_entries e)) = true.
Proof.
  intros (Hto & Hg & Hd & Hal & Ho & Hi & Hs & Ht).
  apply (wf_msg_build _ _ _ tx_desc); [reflexivity|]. repeat (apply Forall_cons || apply Forall_nil).
  - reflexivity.
  - exact (proj2 Hto).
  - apply be_enc_wf.
  - exact Hg.
  - exact Hd.
  - exact (al_wf _ Hal).
  - exact (hash_msg_wf _ Ho).
  - eapply N.lt_trans; [apply N.mod_lt; discriminate|reflexivity].
  - exact (proj2 Hs).
  - exact Ht.
Qed.

Section Qi.
  Variable c d : bytes -> option bytes.

  Lemma txin_sound : codec_sound id_block_ProtoTxIn (txin_encode c) (txin_decode d) (txin_nf c d) (fun i => i).
  Proof.
    intros i (Hh & Hi & Hl & w & Hc & Hw & Hwf & Hd). unfold txin_encode, pub_to_wire. rewrite Hl. cbn [Nat.eqb]. rewrite Hc.
    destruct (outpoint_sound _ (conj Hh Hi)) as (o & Eo & Wo & Do). injection Eo as <-.
    eexists. split; [reflexivity|]. split.
    - apply (wf_msg_build _ _ [(1, Some _); (2, Some _)] txin_desc); [reflexivity|].
      repeat (apply Forall_cons || apply Forall_nil).
      + exact Wo.
      + exact Hwf.
    - unfold txin_decode, get_bytes. cbn [get_field fst snd N.eqb Pos.eqb as_msg as_bytes].
      rewrite Do. unfold pub_of_wire. rewrite Hw. cbn [Nat.eqb]. rewrite Hd. destruct i. reflexivity.
  Qed.

  (* the two lists come from [rep_sound], the rest is the struct *)
  Lemma qi_sound i : qi_nf c d i ->
    exists m, tx_encode c (TQi i) = Some m /\ wf_msg sc id_block_ProtoTransaction m = true /\
              tx_decode d m = DOk (TQi (qi_norm i)).
  Proof.
    intros (Hne & Hins & Houts & Hsig & Hsw & Hdw & Hw).
    destruct (rep_sound _ _ _ _ _ txin_sound _ txins_desc _ Hins) as (ms & E & Wi & Di).
    destruct (rep_sound _ _ _ _ _ txout_sound _ txouts_desc _ Houts) as (os & Eo & Wo & Do).
    rewrite all_some_total in Eo. injection Eo as <-. rewrite map_map in Wo, Do.
    exists (build (qi_entries i ms)). rewrite tx_encode_qi, E. split; [reflexivity|]. split.
    - apply (wf_msg_build _ _ _ tx_desc); [reflexivity|].
      apply Forall_app. split; [|exact (work_fields_ok _ Hw)]. repeat (apply Forall_cons || apply Forall_nil).
      + reflexivity.
      + exact Hdw.
      + apply be_enc_wf.
      + exact Wi.
      + exact Wo.
      + exact Hsw.
    - assert (Ew : work_decode (build (qi_entries i ms)) = i_work i) by (apply work_decode_build; [reflexivity|exact Hw]).
      revert Ew. unfold tx_decode, qi_entries. decode_struct. intros ->.
      rewrite Di, Do, Hsig. cbn [negb]. rewrite big_roundtrip, map_id.
      destruct (i_ins i) as [|x xs] eqn:Ei; [contradiction|]. unfold qi_norm. rewrite Ei. reflexivity.
  Qed.
End Qi.

Section Top.
  Variable c d : bytes -> option bytes.

  (* 20-byte addresses, 32-byte hashes, uint64 / uint16 scalars in range, a Quai signature that is absent (0,0,0) or
     passes ValidateSignatureValues; Qi: at least one input, valid uncompressed keys, denominations < 256, a
     parseable Schnorr signature *)
  Definition tx_nf (t : tx) : Prop :=
    match t with TQuai q => quai_nf q | TExt e => ext_nf e | TQi i => qi_nf c d i end.
  (* what comes back: the same object, except that a nil TxOut lock reads back as 0 *)
  Definition tx_norm (t : tx) : tx := match t with TQi i => TQi (qi_norm i) | _ => t end.

  Lemma tx_sound : codec_sound id_block_ProtoTransaction (tx_encode c) (tx_decode d) tx_nf tx_norm.
  Proof.
    intros [q|e|i] H.
    - exists (build (quai_entries q)). split; [reflexivity|]. split; [apply quai_wf; exact H|apply quai_tree_roundtrip; exact H].
    - exists (build (ext_entries e)). split; [reflexivity|]. split; [apply ext_wf; exact H|apply ext_tree_roundtrip; exact H].
    - exact (qi_sound c d i H).
  Qed.

  Lemma tx_identity_injective t1 t2 m1 m2 : tx_nf t1 -> tx_nf t2 ->
    tx_encode c t1 = Some m1 -> tx_encode c t2 = Some m2 -> len (encode m1) < u64 ->
    encode m1 = encode m2 -> tx_norm t1 = tx_norm t2.
  Proof. exact (codec_identity _ _ _ _ _ tx_sound t1 t2 m1 m2). Qed.
End Top.
