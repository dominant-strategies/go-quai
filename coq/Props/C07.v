(* C07 — Own blocks validate; any deviation from re-execution is rejected; a rejected block
   leaves no trace.
   Property theorems, each followed by [Print Assumptions].  Model: Model/C07.v
   Lemmas: Proofs/C07.v, Proofs/C07_Sel.v, Proofs/C07_Skip.v
   Generated data: Generated/C07Checks.v (comparison sites and write skeletons of the current source).

   Throughout: [exec] is ANY deterministic re-execution function (Process + the recomputations
   of ValidateState), [root]/[uroot]/[bhash] are ANY hash functions; nothing is assumed about
   them (collisions appear as explicit disjuncts). *)
From Coq Require Import List NArith Lia.
From GQ Require Import Lib.Lists Model.C07 Proofs.C07 Proofs.C07_Sel Proofs.C07_Skip.
Import ListNotations.
Local Open Scope N_scope.

(* === liveness direction: the worker's block passes the node's own validation === *)

(* For every state, header context, selected transaction list and uncle list on which execution
   succeeds, the block the worker assembles (declared := recomputed) is accepted by
   ValidateBody + Process + ValidateState, with the very state the worker computed.
   (uncles_ok / scope_ok: the worker only commits verified work shares, the pool only admits
   Qi outputs to active chains.) *)
Theorem assembled_block_validates :
  forall tx uncle hdr state root uroot uncles_ok scope_ok exec st h txs uncles b,
  assemble tx uncle hdr state root uroot exec st h txs uncles = Some b ->
  uncles_ok st h uncles = true -> scope_ok txs = true ->
  exists st' x, exec st h txs uncles = Some (st', x)
    /\ validate tx uncle hdr state root uroot uncles_ok scope_ok exec st b = Ok state st'
    /\ b_decl _ _ _ b = recomputed tx uncle root uroot txs uncles x /\ b_etxs _ _ _ b = x_emitted _ x.
Proof.
  intros * Ha Hu Hs.
  apply assemble_some in Ha. destruct Ha as (st' & x & Hx & ->). exists st', x.
  split; [exact Hx|]. split; [|split; reflexivity].
  apply validate_ok. cbn. repeat split; try assumption. exists x. split; [exact Hx | reflexivity].
Qed.
Print Assumptions assembled_block_validates.

(* The worker produces no block exactly when execution of the selected list fails. *)
Theorem assemble_fails_only_if_execution_fails :
  forall tx uncle hdr state root uroot exec st h txs uncles,
  assemble tx uncle hdr state root uroot exec st h txs uncles = None <-> exec st h txs uncles = None.
Proof.
  intros. unfold assemble. destruct (exec st h txs uncles) as [[s x]|]; split; intros H; try discriminate; reflexivity.
Qed.
Print Assumptions assemble_fails_only_if_execution_fails.

(* Chain level: the node's own block, offered to its own validation path on its own head,
   becomes the new head with the state the worker computed. *)
Theorem own_block_extends_own_chain :
  forall tx uncle hdr state root uroot uncles_ok scope_ok exec bhash h_parent h_num d h txs uncles b,
  assemble tx uncle hdr state root uroot exec (d_state _ d) h txs uncles = Some b ->
  uncles_ok (d_state _ d) h uncles = true -> scope_ok txs = true ->
  h_parent h = d_head _ d -> hash_of tx uncle hdr bhash b <> d_head _ d ->
  let o := offer tx uncle hdr state root uroot uncles_ok scope_ok exec bhash h_parent h_num d b in
  exists st', snd o = SOk /\ d_state _ (fst o) = st' /\ d_head _ (fst o) = hash_of tx uncle hdr bhash b
    /\ d_headnum _ (fst o) = h_num h /\ exists x, exec (d_state _ d) h txs uncles = Some (st', x).
Proof.
  intros * Ha Hu Hs Hp Hh o.
  edestruct assembled_block_validates as (st' & x & Hx & Hv & _); [exact Ha | exact Hu | exact Hs|].
  apply assemble_some in Ha. destruct Ha as (s & y & _ & ->).
  subst o. erewrite offer_accepts; [|exact Hv | exact Hh | exact Hp].
  exists st'. repeat split. exists x. exact Hx.
Qed.
Print Assumptions own_block_extends_own_chain.

(* === safety direction: acceptance pins every commitment === *)

(* Acceptance is equivalent to: body lists hash to the declared roots, and re-execution succeeds
   and recomputes exactly the declared commitments. *)
Theorem validate_accepts_iff_recomputation_matches :
  forall tx uncle hdr state root uroot uncles_ok scope_ok exec st b st',
  validate tx uncle hdr state root uroot uncles_ok scope_ok exec st b = Ok state st' <->
  uncles_ok st (b_hdr _ _ _ b) (b_uncles _ _ _ b) = true /\ scope_ok (b_txs _ _ _ b) = true
  /\ root (b_etxs _ _ _ b) = c_etx_hash (b_decl _ _ _ b)
  /\ exists x, exec st (b_hdr _ _ _ b) (b_txs _ _ _ b) (b_uncles _ _ _ b) = Some (st', x)
            /\ recomputed tx uncle root uroot (b_txs _ _ _ b) (b_uncles _ _ _ b) x = b_decl _ _ _ b.
Proof. exact validate_ok. Qed.
Print Assumptions validate_accepts_iff_recomputation_matches.

(* One conjunct per commitment field (the outbound ETX hash is pinned twice: to the list in the
   body and to the ETXs emitted by re-execution). *)
Theorem validate_pins_every_commitment :
  forall tx uncle hdr state root uroot uncles_ok scope_ok exec st b st',
  validate tx uncle hdr state root uroot uncles_ok scope_ok exec st b = Ok state st' ->
  exists x, exec st (b_hdr _ _ _ b) (b_txs _ _ _ b) (b_uncles _ _ _ b) = Some (st', x) /\
    let d := b_decl _ _ _ b in
    c_uncle_hash d = uroot (b_uncles _ _ _ b) /\
    c_tx_root d = root (b_txs _ _ _ b) /\
    c_etx_hash d = root (b_etxs _ _ _ b) /\
    c_etx_hash d = root (x_emitted _ x) /\
    c_receipt_root d = x_receipt_root _ x /\
    c_evm_root d = x_evm_root _ x /\
    c_utxo_root d = x_utxo_root _ x /\
    c_etxset_root d = x_etxset_root _ x /\
    c_gas_used d = x_gas_used _ x /\
    c_state_used d = x_state_used _ x /\
    c_state_size d = x_state_size _ x /\
    c_avg_fees d = x_avg_fees _ x /\
    c_total_fees d = x_total_fees _ x /\
    c_uncled_entropy d = x_uncled_entropy _ x.
Proof.
  intros * H.
  apply validate_ok in H. destruct H as (_ & _ & Hetx & x & Hx & Hr).
  exists x. split; [exact Hx|]. cbv zeta. rewrite <- Hr in *. repeat split. symmetry. exact Hetx.
Qed.
Print Assumptions validate_pins_every_commitment.

(* Every commitment field of the model has a comparison site in the CURRENT source
   (removing a comparison from ValidateBody / Process / ValidateState breaks this). *)
Theorem every_commitment_has_a_comparison_site : all_commitments_compared = true.
Proof. vm_compute. reflexivity. Qed.
Print Assumptions every_commitment_has_a_comparison_site.

(* ... and the comparison sites of the current source are exactly the reviewed ones: same
   functions, same order (the order of the model's checks), same compared operands. *)
Theorem comparison_sites_are_the_reviewed_ones : comparisons_as_reviewed = true.
Proof. vm_compute. reflexivity. Qed.
Print Assumptions comparison_sites_are_the_reviewed_ones.

Theorem reviewed_field_list_is_complete : forall f : field, In f all_fields.
Proof. exact all_fields_complete. Qed.
Print Assumptions reviewed_field_list_is_complete.

(* === single-component mutations === *)

(* Any change whatsoever of the declared commitments of an accepted block (one field or several)
   is rejected. *)
Theorem any_declared_deviation_is_rejected :
  forall tx uncle hdr state root uroot uncles_ok scope_ok exec st b st' d',
  validate tx uncle hdr state root uroot uncles_ok scope_ok exec st b = Ok state st' ->
  d' <> b_decl _ _ _ b ->
  exists c, validate tx uncle hdr state root uroot uncles_ok scope_ok exec st (with_decl tx uncle hdr b d') = Err state c.
Proof.
  intros * H Hd.
  edestruct same_body_same_declaration with (b' := with_decl tx uncle hdr b d') as [Hc|E];
    [exact H | reflexivity .. | exact Hc | destruct (Hd E)].
Qed.
Print Assumptions any_declared_deviation_is_rejected.

(* For each field: a block whose declared field differs from the recomputed value is rejected. *)
Theorem single_mutation_rejected :
  forall tx uncle hdr state root uroot uncles_ok scope_ok exec st b st' f v,
  validate tx uncle hdr state root uroot uncles_ok scope_ok exec st b = Ok state st' ->
  v <> get f (b_decl _ _ _ b) ->
  exists c, validate tx uncle hdr state root uroot uncles_ok scope_ok exec st
              (with_decl tx uncle hdr b (set f v (b_decl _ _ _ b))) = Err state c.
Proof.
  intros * H Hv.
  eapply any_declared_deviation_is_rejected; [exact H | apply set_changes, Hv].
Qed.
Print Assumptions single_mutation_rejected.

(* Body mutations with the roots left as they are: any altered / dropped / reordered / added
   transaction (any different list) is rejected, or the two lists collide under the root hash. *)
Theorem transaction_list_mutation_rejected :
  forall tx uncle hdr state root uroot uncles_ok scope_ok exec st b st' txs',
  validate tx uncle hdr state root uroot uncles_ok scope_ok exec st b = Ok state st' ->
  txs' <> b_txs _ _ _ b ->
  (exists c, validate tx uncle hdr state root uroot uncles_ok scope_ok exec st (with_txs tx uncle hdr b txs') = Err state c)
  \/ root txs' = root (b_txs _ _ _ b).
Proof.
  intros * H _.
  edestruct same_declaration_same_roots with (b' := with_txs tx uncle hdr b txs') as [Hc|E];
    [exact H | reflexivity | left; exact Hc | right; apply E].
Qed.
Print Assumptions transaction_list_mutation_rejected.

Theorem outbound_etx_list_mutation_rejected :
  forall tx uncle hdr state root uroot uncles_ok scope_ok exec st b st' l,
  validate tx uncle hdr state root uroot uncles_ok scope_ok exec st b = Ok state st' ->
  l <> b_etxs _ _ _ b ->
  (exists c, validate tx uncle hdr state root uroot uncles_ok scope_ok exec st (with_etxs tx uncle hdr b l) = Err state c)
  \/ root l = root (b_etxs _ _ _ b).
Proof.
  intros * H _.
  edestruct same_declaration_same_roots with (b' := with_etxs tx uncle hdr b l) as [Hc|E];
    [exact H | reflexivity | left; exact Hc | right; apply E].
Qed.
Print Assumptions outbound_etx_list_mutation_rejected.

Theorem uncle_list_mutation_rejected_or_collides :
  forall tx uncle hdr state root uroot uncles_ok scope_ok exec st b st' l,
  validate tx uncle hdr state root uroot uncles_ok scope_ok exec st b = Ok state st' ->
  l <> b_uncles _ _ _ b ->
  (exists c, validate tx uncle hdr state root uroot uncles_ok scope_ok exec st (with_uncles tx uncle hdr b l) = Err state c)
  \/ uroot l = uroot (b_uncles _ _ _ b).
Proof.
  intros * H _.
  edestruct same_declaration_same_roots with (b' := with_uncles tx uncle hdr b l) as [Hc|E];
    [exact H | reflexivity | left; exact Hc | right; apply E].
Qed.
Print Assumptions uncle_list_mutation_rejected_or_collides.

(* Body mutations with the root re-derived: the mutant is another candidate block. If it is
   accepted too, then re-execution of ITS list reproduces ITS declarations, hence wherever the
   two declarations agree (all fields but the transaction root, for a re-rooted mutant) the two
   blocks commit to the same recomputed results; and its hash differs or the header hash collides. *)
Theorem rerooted_mutant_accepted_only_with_same_results :
  forall tx uncle hdr state root uroot uncles_ok scope_ok exec st b st1 b' st2,
  validate tx uncle hdr state root uroot uncles_ok scope_ok exec st b = Ok state st1 ->
  validate tx uncle hdr state root uroot uncles_ok scope_ok exec st b' = Ok state st2 ->
  exists x x', exec st (b_hdr _ _ _ b) (b_txs _ _ _ b) (b_uncles _ _ _ b) = Some (st1, x)
    /\ exec st (b_hdr _ _ _ b') (b_txs _ _ _ b') (b_uncles _ _ _ b') = Some (st2, x')
    /\ forall f, get f (b_decl _ _ _ b') = get f (b_decl _ _ _ b) ->
         get f (recomputed tx uncle root uroot (b_txs _ _ _ b') (b_uncles _ _ _ b') x')
         = get f (recomputed tx uncle root uroot (b_txs _ _ _ b) (b_uncles _ _ _ b) x).
Proof.
  intros * H H'.
  apply validate_ok in H. apply validate_ok in H'.
  destruct H as (_ & _ & _ & x & Hx & Hr). destruct H' as (_ & _ & _ & x' & Hx' & Hr').
  exists x, x'. repeat split; try assumption. intros f Hf. rewrite Hr, Hr'. exact Hf.
Qed.
Print Assumptions rerooted_mutant_accepted_only_with_same_results.

Theorem different_commitments_different_block_hash :
  forall hdr (bhash : hdr -> commitments -> N) h d d',
  d <> d' -> bhash h d <> bhash h d' \/ (bhash h d = bhash h d' /\ d <> d').
Proof. intros * Hd. destruct (N.eq_dec (bhash h d) (bhash h d')) as [E|E]; [right; split; assumption | left; exact E]. Qed.
Print Assumptions different_commitments_different_block_hash.

(* === a rejected block leaves no trace === *)

(* BodyDb.Append: on error the database is the one before. *)
Theorem rejected_block_no_trace :
  forall tx uncle hdr state root exec d b c,
  snd (append tx uncle hdr state root exec d b) = Err state c -> fst (append tx uncle hdr state root exec d b) = d.
Proof. intros *. unfold append. destruct (apply _ _ _ _ _ _ _ b); [discriminate | reflexivity]. Qed.
Print Assumptions rejected_block_no_trace.

(* HeaderChain.SetCurrentHeader writes the canonical hash BEFORE processing and deletes the
   record of that number on error: the net effect of a rejected block is the identity, provided
   there was no canonical record above the head (wf) and the block carries its parent's number + 1. *)
Theorem rejected_block_no_trace_set_current_header :
  forall tx uncle hdr state root exec bhash h_parent h_num d b c,
  wf state d -> child_numbered tx uncle hdr state h_parent h_num d b ->
  snd (set_current_header tx uncle hdr state root exec bhash h_parent h_num d b) = SErr c ->
  fst (set_current_header tx uncle hdr state root exec bhash h_parent h_num d b) = d.
Proof.
  intros * Hwf Hnum E.
  eapply outcome_rejected; [apply sch_outcome | exact Hwf | exact Hnum | rewrite E; discriminate].
Qed.
Print Assumptions rejected_block_no_trace_set_current_header.

(* The full path (ValidateBody, then SetCurrentHeader): whatever is not accepted changes nothing. *)
Theorem unaccepted_offer_changes_nothing :
  forall tx uncle hdr state root uroot uncles_ok scope_ok exec bhash h_parent h_num d b,
  wf state d -> child_numbered tx uncle hdr state h_parent h_num d b ->
  snd (offer tx uncle hdr state root uroot uncles_ok scope_ok exec bhash h_parent h_num d b) <> SOk ->
  fst (offer tx uncle hdr state root uroot uncles_ok scope_ok exec bhash h_parent h_num d b) = d.
Proof. intros *. eapply outcome_rejected, offer_outcome. Qed.
Print Assumptions unaccepted_offer_changes_nothing.

(* wf is an invariant of the path (accepted or not). *)
Theorem no_canonical_record_above_head_is_invariant :
  forall tx uncle hdr state root uroot uncles_ok scope_ok exec bhash h_parent h_num d b,
  wf state d -> child_numbered tx uncle hdr state h_parent h_num d b ->
  wf state (fst (offer tx uncle hdr state root uroot uncles_ok scope_ok exec bhash h_parent h_num d b)).
Proof. intros *. eapply outcome_wf, offer_outcome. Qed.
Print Assumptions no_canonical_record_above_head_is_invariant.

(* The precondition is necessary: the modelled code deletes (does not restore) the canonical
   record, so with a stale record at that number a rejected block DOES leave a trace.
   Full statement without wf:  forall d b c, snd (sch d b) = SErr c -> fst (sch d b) = d  -- refuted: *)
Theorem rejected_block_no_trace_without_wf_refuted :
  ~ wf unit w_db /\ snd (w_sch w_db w_block) = SErr VExec /\ fst (w_sch w_db w_block) <> w_db
  /\ canon_get 1 (d_canon _ w_db) = Some 99 /\ canon_get 1 (d_canon _ (fst (w_sch w_db w_block))) = None.
Proof.
  split.
  - intros H. specialize (H 1 99 (or_introl eq_refl)). cbn in H. lia.
  - vm_compute. repeat split. discriminate.
Qed.
Print Assumptions rejected_block_no_trace_without_wf_refuted.

(* For every history of offered blocks: the final database is the one obtained by offering only
   the accepted ones (rejected blocks, duplicates and non-children are invisible), and the
   invariant holds at the end. *)
Theorem history_ignores_rejected_blocks :
  forall tx uncle hdr state root uroot uncles_ok scope_ok exec bhash h_parent h_num numof bs d,
  inv state numof d ->
  Forall (numbered tx uncle hdr bhash h_parent h_num numof) bs ->
  run tx uncle hdr state root uroot uncles_ok scope_ok exec bhash h_parent h_num d bs
  = run tx uncle hdr state root uroot uncles_ok scope_ok exec bhash h_parent h_num d
      (accepted tx uncle hdr state root uroot uncles_ok scope_ok exec bhash h_parent h_num d bs)
  /\ inv state numof
       (run tx uncle hdr state root uroot uncles_ok scope_ok exec bhash h_parent h_num d bs).
Proof.
  intros until numof.
  induction bs as [|b bs IH]; intros d Hi Hf; [split; [reflexivity | exact Hi]|].
  inversion Hf as [|b0 bs0 Hb Hbs]; subst. rewrite run_cons, accepted_cons.
  destruct (offer_step tx uncle hdr state root uroot uncles_ok scope_ok exec bhash h_parent h_num numof d b Hi Hb)
    as [Hi' Hrej].
  destruct offer as [d' r] eqn:Eo. cbn [fst snd] in *.
  destruct r; [|rewrite Hrej by discriminate; apply IH; assumption ..].
  rewrite run_cons, Eo. apply IH; assumption.
Qed.
Print Assumptions history_ignores_rejected_blocks.

(* === the write structure of the current source === *)

Theorem bodydb_append_writes_batch_only_after_apply : append_writes_batch_only_after_apply = true.
Proof. vm_compute. reflexivity. Qed.
Print Assumptions bodydb_append_writes_batch_only_after_apply.

Theorem set_current_header_deletes_canonical_hash_on_error : canonical_hash_deleted_on_error = true.
Proof. vm_compute. reflexivity. Qed.
Print Assumptions set_current_header_deletes_canonical_hash_on_error.

Theorem apply_validates_before_writing : apply_validates_before_any_write = true.
Proof. vm_compute. reflexivity. Qed.
Print Assumptions apply_validates_before_writing.

Theorem validation_path_writes_only_to_the_batch : no_direct_write_on_validation_path = true.
Proof. vm_compute. reflexivity. Qed.
Print Assumptions validation_path_writes_only_to_the_batch.

(* === the worker's arbitration between conflicting pool transactions ===
   (why execution of the selected list cannot fail on a spent outpoint: the hypothesis
   "exec succeeds" of assembled_block_validates, for the spend-once part of exec) *)

(* For EVERY committed UTXO set and EVERY pool content in every processing order (any number of
   mutually conflicting transactions, partial overlaps, transactions rejected for other reasons
   after they reserved inputs): the list selected by the worker's input loop names every outpoint at
   most once and only existing ones - under the code as it is (rejected transactions keep their
   reservations) and under a clean-up that releases exactly what the rejected transaction inserted. *)
Theorem worker_selection_spends_each_outpoint_once :
  forall p utxo pool, p = KeepAll \/ p = ReleaseOwn ->
  NoDup (spent_by (wselect p utxo pool)) /\ (forall x, In x (spent_by (wselect p utxo pool)) -> In x utxo).
Proof.
  intros p utxo pool Hp.
  pose proof (fold_left_inv (sel_inv utxo) (wstep p utxo) pool (fun acc t _ => wstep_inv p utxo acc t Hp) _
                (sel_inv_start utxo)) as H.
  exact (conj (sel_once _ _ H) (sel_exist _ _ H)).
Qed.
Print Assumptions worker_selection_spends_each_outpoint_once.

(* ... hence the validator's sequential spend check (ProcessQiTx: look up, delete) accepts it. *)
Theorem worker_selection_passes_validator_spend_check :
  forall p utxo pool, p = KeepAll \/ p = ReleaseOwn -> vspend utxo (wselect p utxo pool) = true.
Proof.
  intros p utxo pool Hp. destruct (worker_selection_spends_each_outpoint_once p utxo pool Hp) as [H1 H2].
  apply vspend_ok; assumption.
Qed.
Print Assumptions worker_selection_passes_validator_spend_check.

(* Any body that names every outpoint once, and only existing ones, passes that check (what the
   harness monitor own-block/outpoint-spent-twice evaluates on the real block). *)
Theorem spend_once_body_passes_validator_spend_check :
  forall body utxo, NoDup (spent_by body) -> (forall x, In x (spent_by body) -> memN x utxo = true) ->
  vspend utxo body = true.
Proof. intros body utxo Hn Hin. apply vspend_ok; [exact Hn|]. intros x Hx. apply memN_In, Hin, Hx. Qed.
Print Assumptions spend_once_body_passes_validator_spend_check.

(* A clean-up that also releases the contested outpoint is refuted: with three pool transactions on
   one outpoint the worker selects two of them and the node rejects its own block (harness corpus
   chain qi-conflict-clusters replays this witness and its generalisations on the real worker). *)
Theorem release_of_contested_outpoint_refuted :
  exists utxo pool, vspend utxo (wselect ReleaseNamed utxo pool) = false
    /\ ~ NoDup (spent_by (wselect ReleaseNamed utxo pool)).
Proof.
  exists [7], [mkP [7] true; mkP [7] true; mkP [7] true]. split; [vm_compute; reflexivity|].
  vm_compute. intro H. inversion H as [|a l Hn Hd]; subst. apply Hn. left. reflexivity.
Qed.
Print Assumptions release_of_contested_outpoint_refuted.

(* ... and it takes at least three: with two conflicting transactions that clean-up is harmless. *)
Theorem release_of_contested_outpoint_needs_three_conflicts :
  forall x r1 r2, vspend [x] (wselect ReleaseNamed [x] [mkP [x] r1; mkP [x] r2]) = true.
Proof.
  intros x r1 r2. destruct r1, r2; cbv -[N.eqb]; repeat (rewrite N.eqb_refl; cbv -[N.eqb]); reflexivity.
Qed.
Print Assumptions release_of_contested_outpoint_needs_three_conflicts.

(* The CURRENT source is the KeepAll policy: env.deletedUtxos is created empty with the block
   environment, touched in processQiTx only, by a look-up that rejects followed by an insertion;
   nothing deletes from it, resets it or hands it to other code. *)
Theorem worker_reservation_set_is_insert_only : worker_reservation_insert_only = true.
Proof. vm_compute. reflexivity. Qed.
Print Assumptions worker_reservation_set_is_insert_only.

(* === skipped pool transactions, minimum inclusion of the inbound ETX queue === *)

(* worker.commitTransaction with the snapshot / revert around ApplyTransaction: for ANY execution function
   (which may write to the state and then fail), ANY state and ANY pool content in ANY order, the worker's
   pending state after filling the block is exactly the state the validator reaches by re-executing the
   included transactions only, and none of them fails there. *)
Theorem worker_pending_state_is_reexecution_state :
  forall (S T : Type) (apply : S -> T -> S * bool) pool st,
  vexec S T apply st (snd (wfill S T apply Revert st pool)) = Some (fst (wfill S T apply Revert st pool)).
Proof.
  intros S T apply. induction pool as [|t r IH]; intro st; [reflexivity|].
  rewrite wfill_cons. destruct (apply st t) as [st' []] eqn:Ha.
  - cbn [fst snd vexec]. rewrite Ha. apply IH.
  - apply IH.
Qed.
Print Assumptions worker_pending_state_is_reexecution_state.

(* the included list is a sub-list of the pool content (nothing is invented) *)
Theorem worker_includes_only_pool_transactions :
  forall (S T : Type) (apply : S -> T -> S * bool) p pool st, incl (snd (wfill S T apply p st pool)) pool.
Proof.
  intros S T apply p. induction pool as [|t r IH]; intro st; [apply incl_refl|].
  rewrite wfill_cons. destruct (apply st t) as [st' []].
  - cbn [snd]. apply incl_cons; [left; reflexivity | apply incl_tl, IH].
  - apply incl_tl, IH.
Qed.
Print Assumptions worker_includes_only_pool_transactions.

(* without the revert the statement is false: buy gas, then fail on the value (state = (nonce, balance)) *)
Theorem skip_without_revert_refuted :
  exists (pool : list (N * N * N)) (st : N * N),
    vexec _ _ toy_apply st (snd (wfill _ _ toy_apply KeepEffects st pool))
    <> Some (fst (wfill _ _ toy_apply KeepEffects st pool)).
Proof. exists [(0, 10, 80); (1, 10, 50)], (0, 100). vm_compute. discriminate. Qed.
Print Assumptions skip_without_revert_refuted.

(* … and invisible as long as no pool transaction fails in ApplyTransaction (why ordinary traffic and the
   existing tests do not see it) *)
Theorem skip_policies_agree_without_failures :
  forall (S T : Type) (apply : S -> T -> S * bool) pool st,
  (forall st' t, In t pool -> snd (apply st' t) = true) ->
  wfill S T apply KeepEffects st pool = wfill S T apply Revert st pool.
Proof.
  intros S T apply. induction pool as [|t r IH]; intros st H; [reflexivity|].
  pose proof (H st t (or_introl eq_refl)) as Hok. rewrite !wfill_cons.
  destruct (apply st t) as [st' ok]. cbn [snd] in Hok. subst ok.
  rewrite IH; [reflexivity|]. intros st'' t' Hin. apply H. right. exact Hin.
Qed.
Print Assumptions skip_policies_agree_without_failures.

(* Process' range rule, gas regime, with the queue head probed after the block's pops: a block that includes
   the first k ETXs of the queue q passes iff it drains the queue or reaches the minimum, and stays below the
   maximum *)
Theorem accepted_block_drains_queue_or_reaches_minimum_gas :
  forall q k minG maxG, (k <= List.length q)%nat ->
  rule_gas AfterPops q k minG maxG = true ->
  (k = List.length q \/ minG <= gas_of q k) /\ gas_of q k <= maxG.
Proof.
  intros q k minG maxG Hk H. apply rule_gas_true in H. rewrite (drained_iff q k Hk) in H. exact H.
Qed.
Print Assumptions accepted_block_drains_queue_or_reaches_minimum_gas.

Theorem block_draining_queue_or_reaching_minimum_gas_is_accepted :
  forall q k minG maxG, (k = List.length q \/ minG <= gas_of q k) -> gas_of q k <= maxG ->
  rule_gas AfterPops q k minG maxG = true.
Proof.
  intros q k minG maxG H H2. apply rule_gas_true. split; [|exact H2].
  destruct H as [->|H]; [left; apply drained_iff; reflexivity | right; exact H].
Qed.
Print Assumptions block_draining_queue_or_reaching_minimum_gas_is_accepted.

(* count regime (block number <= TimeToStartTx) *)
Theorem accepted_block_drains_queue_or_reaches_minimum_count :
  forall q k minC maxC, (k <= List.length q)%nat ->
  rule_count AfterPops q k minC maxC = true ->
  (k = List.length q \/ minC <= N.of_nat k) /\ N.of_nat k <= maxC.
Proof.
  intros q k minC maxC Hk H. apply rule_count_true in H. rewrite (drained_iff q k Hk) in H. exact H.
Qed.
Print Assumptions accepted_block_drains_queue_or_reaches_minimum_count.

(* with the queue index read before the loop (the slot is deleted by the first pop) the lower bound is void
   for every block that pops at least one ETX, in both regimes; concrete: 1 of 4 queued ETXs *)
Theorem queue_probe_before_pops_refuted :
  exists q k minG maxG,
    (1 <= k < List.length q)%nat /\ gas_of q k < minG
    /\ rule_gas AfterPops q k minG maxG = false /\ rule_gas BeforePops q k minG maxG = true
    /\ rule_count AfterPops q k 50 100 = false /\ rule_count BeforePops q k 50 100 = true.
Proof.
  exists [21000; 21000; 21000; 21000], 1%nat, 1000000, 2000000. vm_compute.
  repeat split; try reflexivity; lia.
Qed.
Print Assumptions queue_probe_before_pops_refuted.

Theorem queue_probe_before_pops_accepts_any_nonempty_prefix :
  forall q k minG maxG minC maxC, (1 <= k)%nat -> gas_of q k <= maxG -> N.of_nat k <= maxC ->
  rule_gas BeforePops q k minG maxG = true /\ rule_count BeforePops q k minC maxC = true.
Proof.
  intros q k minG maxG minC maxC Hk Hg Hc.
  split; [apply rule_gas_true | apply rule_count_true]; (split; [left; apply unavailable_before_pops, Hk | assumption]).
Qed.
Print Assumptions queue_probe_before_pops_accepts_any_nonempty_prefix.

(* … while a block ignoring a non-empty queue altogether is rejected either way (why the simple negative
   test does not tell the two apart) *)
Theorem block_ignoring_nonempty_queue_rejected_under_both_probes :
  forall p q minG maxG minC maxC, q <> [] -> 0 < minG -> 0 < minC ->
  rule_gas p q 0 minG maxG = false /\ rule_count p q 0 minC maxC = false.
Proof.
  intros p q minG maxG minC maxC Hq Hg Hc. unfold rule_gas, rule_count. rewrite (available_at_zero p q Hq).
  apply N.ltb_lt in Hg, Hc. cbn. rewrite Hg, Hc. split; reflexivity.
Qed.
Print Assumptions block_ignoring_nonempty_queue_rejected_under_both_probes.

(* generated from the current source: worker.commitTransaction takes a snapshot before ApplyTransaction and
   the error branch directly after the call reverts to that very snapshot before returning the error *)
Theorem worker_reverts_skipped_transaction : worker_skip_reverts = true.
Proof. vm_compute. reflexivity. Qed.
Print Assumptions worker_reverts_skipped_transaction.

(* generated from the current source: Process probes the queue head (GetOldestIndex, ReadETX) after the loop
   that pops the block's ETXs, directly before the two range rules, whose conditions are the reviewed ones *)
Theorem process_probes_queue_after_pops : queue_probed_after_pops = true.
Proof. vm_compute. reflexivity. Qed.
Print Assumptions process_probes_queue_after_pops.

(* === non-vacuity === *)

(* a concrete instance: transactions are numbers, the root of a list is its sum + length*1000,
   execution adds the transactions to the state and fails on a 0 transaction *)
Definition ex_root (l : list N) : N := fold_right N.add 0 l + 1000 * N.of_nat (List.length l).
Definition ex_exec (st : N) (h : N * N) (txs uncles : list N) : option (N * exec_out N) :=
  if existsb (N.eqb 0) txs then None
  else let s := st + fold_right N.add 0 txs in
       Some (s, mkX N (filter (fun t => 5 <? t) txs) (s + 1) (s + 2) (s + 3) (s + 4) (21000 * N.of_nat (List.length txs)) 7 s 11 (2 * s) 0).
Definition ex_validate := validate N N (N * N) N ex_root ex_root (fun _ _ _ => true) (fun _ => true) ex_exec.
Definition ex_block : block N N (N * N) :=
  match assemble N N (N * N) N ex_root ex_root ex_exec 100 (7, 1) [3; 9; 4] [] with
  | Some b => b
  | None => mkBlock N N (N * N) (0, 0) [] [] [] (mkC 0 0 0 0 0 0 0 0 0 0 0 0 0)
  end.

Example assembled_block_validates_nonvacuous :
  ex_validate 100 ex_block = Ok N 116 /\ b_etxs _ _ _ ex_block = [9] /\ c_gas_used (b_decl _ _ _ ex_block) = 63000.
Proof. vm_compute. repeat split; reflexivity. Qed.

Example single_mutation_rejected_nonvacuous :
  ex_validate 100 (with_decl N N (N * N) ex_block (set FGasUsed 63001 (b_decl _ _ _ ex_block))) = Err N VGas
  /\ ex_validate 100 (with_decl N N (N * N) ex_block (set FTotalFees 0 (b_decl _ _ _ ex_block))) = Err N VTotal
  /\ ex_validate 100 (with_decl N N (N * N) ex_block (set FEtxHash 5 (b_decl _ _ _ ex_block))) = Err N VEtxBody
  /\ ex_validate 100 (with_txs N N (N * N) ex_block [9; 3; 4]) = Ok N 116
  /\ ex_validate 100 (with_txs N N (N * N) ex_block [3; 9]) = Err N VTxRoot
  /\ ex_validate 100 (with_txs N N (N * N) ex_block [3; 9; 0; 4]) = Err N VTxRoot.
Proof. vm_compute. repeat split; reflexivity. Qed.

(* reordering [3;9;4] -> [9;3;4] collides under this toy root (sum): the collision disjunct of
   transaction_list_mutation_rejected is inhabited; with a re-derived root a dropped transaction is
   rejected by a recomputed commitment instead of the root *)
Example rerooted_drop_rejected_nonvacuous :
  ex_validate 100 (with_decl N N (N * N) (with_txs N N (N * N) ex_block [3; 9])
                     (set FTxRoot (ex_root [3; 9]) (b_decl _ _ _ ex_block))) = Err N VTotal.
Proof. vm_compute. reflexivity. Qed.

Example rejected_block_no_trace_nonvacuous :
  let d := mkDb N 100 [(0, 50)] 50 0 in
  let sch := set_current_header N N (N * N) N ex_root ex_exec (fun h c => 1 + fst h + c_evm_root c) fst snd in
  let bad := with_decl N N (N * N) (mkBlock N N (N * N) (50, 1) [3; 9; 4] [9] [] (b_decl _ _ _ ex_block)) (set FEvmRoot 1 (b_decl _ _ _ ex_block)) in
  let good := mkBlock N N (N * N) (50, 1) [3; 9; 4] [9] [] (b_decl _ _ _ ex_block) in
  sch d bad = (d, SErr VEvmRoot) /\ snd (sch d good) = SOk /\ d_canon _ (fst (sch d good)) = [(1, 169); (0, 50)].
Proof. vm_compute. repeat split; reflexivity. Qed.

(* the arbitration on a concrete pool: triple spend of 7, a partial overlap that keeps 9 reserved
   (the transaction naming 9 then 7 is rejected at 7; the later spend of 9 alone is then rejected
   too under KeepAll but selected under ReleaseOwn), an independent spend, a missing outpoint *)
Example worker_selection_nonvacuous :
  let pool := [mkP [7] true; mkP [7] true; mkP [9; 7] true; mkP [7] true; mkP [9] true; mkP [5] true; mkP [4] true; mkP [8] false; mkP [8] true] in
  map p_ins (wselect KeepAll [5; 7; 8; 9] pool) = [[7]; [5]]
  /\ map p_ins (wselect ReleaseOwn [5; 7; 8; 9] pool) = [[7]; [9]; [5]; [8]]
  /\ map p_ins (wselect ReleaseNamed [5; 7; 8; 9] pool) = [[7]; [9; 7]; [5]; [8]]
  /\ vspend [5; 7; 8; 9] (wselect KeepAll [5; 7; 8; 9] pool) = true
  /\ vspend [5; 7; 8; 9] (wselect ReleaseNamed [5; 7; 8; 9] pool) = false.
Proof. vm_compute. repeat split; reflexivity. Qed.

(* skipped transactions on a concrete pool: the second transaction can pay its gas but not its value after
   the first one; with the revert the pending state (1, 10) is what re-execution of [first] gives, without
   it the pending balance is 0 *)
Example worker_pending_state_nonvacuous :
  let pool := [(0, 10, 80); (1, 10, 50); (1, 5, 1)] in
  wfill _ _ toy_apply Revert (0, 100) pool = ((2, 4), [(0, 10, 80); (1, 5, 1)])
  /\ vexec _ _ toy_apply (0, 100) [(0, 10, 80); (1, 5, 1)] = Some (2, 4)
  /\ fst (wfill _ _ toy_apply KeepEffects (0, 100) pool) = (1, 0)
  /\ snd (wfill _ _ toy_apply KeepEffects (0, 100) pool) = [(0, 10, 80)].
Proof. vm_compute. repeat split; reflexivity. Qed.

Example minimum_inclusion_nonvacuous :
  rule_gas AfterPops [400000; 400000; 400000; 21000] 3 1000000 2000000 = true
  /\ rule_gas AfterPops [400000; 400000; 400000; 21000] 2 1000000 2000000 = false
  /\ rule_gas AfterPops [21000; 21000] 2 1000000 2000000 = true
  /\ rule_gas AfterPops [1500000; 600000] 2 1000000 2000000 = false.
Proof. vm_compute. repeat split; reflexivity. Qed.
