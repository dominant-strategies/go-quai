(* C19 -- lifetime eviction (tx_pool.go:loop, case <-evict.C) as part of the histories:
   exact effect of evicting one account's pending list (what goes, and everything that must
   not change; for a queue that is Ops.evict_queued with evict_queue_queues), preservation of
   every invariant of the property by an eviction tick for ANY set of expired accounts (the
   expiry test is wall clock: parameters), and the invariants over histories extended by
   eviction ticks. *)
From Coq Require Import List NArith Lia.
From GQ Require Import Lib.Lists Model.C19 Proofs.C19_Lists Proofs.C19_Moves Proofs.C19_Struct Proofs.C19_State Proofs.C19_Ops
  Proofs.C19_Heap Proofs.C19_QPay Proofs.C19.
Import ListNotations.
Local Open Scope N_scope.

Lemma evict_list_view c L p :
  p_st (evict_list c L p) = p_st p /\
  (forall b x, In x (aget b (p_pend (evict_list c L p))) -> In x (aget b (p_pend p))) /\
  (forall b, (forall t, In t L -> t_from t <> b) ->
     aget b (p_pend (evict_list c L p)) = aget b (p_pend p) /\ pn_get (evict_list c L p) b = pn_get p b).
Proof.
  (* the three clauses are an invariant of the fold; the third uses that the transaction removed is one of L *)
  unfold evict_list. pattern (fold_left (fun s t => remove_tx c t true s) L p). apply fold_left_inv; [|repeat split; auto].
  intros q t Ht [A [B C]]. destruct (remove_tx_truncates c t true q) as [A' [B' C']]. split; [congruence|]. split.
  - intros b x Hx. apply B. destruct (N.eq_dec b (t_from t)) as [->|Hb]; [|rewrite <- (proj1 (B' b Hb)); exact Hx].
    destruct C' as [[E _]|[n [_ [E _]]]]; rewrite E in Hx; [exact Hx|]. apply filter_In in Hx. apply Hx.
  - intros b Hb. destruct (C b Hb) as [C1 C2]. destruct (B' b) as [C1' C2']; [intros E; apply (Hb t Ht); auto|]. split; congruence.
Qed.

Lemma evict_pending_spec c a p : Inv0 p ->
  aget a (p_pend (evict_pending c a p)) = [] /\
  (forall b, b <> a -> aget b (p_pend (evict_pending c a p)) = aget b (p_pend p) /\ pn_get (evict_pending c a p) b = pn_get p b) /\
  (forall b, aget b (p_queue (evict_pending c a p)) = aget b (p_queue p)) /\
  (forall x, in_all x (evict_pending c a p) <-> in_all x p /\ ~ In x (aget a (p_pend p))) /\
  p_st (evict_pending c a p) = p_st p.
Proof.
  intros H0. change (evict_pending c a p) with (evict_list c (aget a (p_pend p)) p).
  set (L := aget a (p_pend p)). set (p' := evict_list c L p).
  assert (H' : Inv0 p') by exact (evict_list_inv0 c L p H0).
  assert (HA : forall x, in_all x p' <-> in_all x p /\ ~ In x L) by (intros x; apply evict_list_in_all; exact H0).
  destruct (evict_list_view c L p) as [Vst [Vsub Vfr]]. fold p' in Vst, Vsub, Vfr.
  assert (Lown : forall t, In t L -> t_from t = a) by (apply (proj2 (ir_pend _ _ _ H0 a))).
  assert (E1 : aget a (p_pend p') = []).
  { destruct (aget a (p_pend p')) as [|x r] eqn:E; [reflexivity|exfalso].
    assert (Hx : In x (aget a (p_pend p'))) by (rewrite E; left; reflexivity).
    destruct (proj1 (listed_iff p' a x H') (or_introl Hx)) as [_ Ix]. apply HA in Ix. apply (proj2 Ix). apply Vsub. exact Hx. }
  assert (E2 : forall b, b <> a -> aget b (p_pend p') = aget b (p_pend p) /\ pn_get p' b = pn_get p b).
  { intros b Hb. apply Vfr. intros t Ht E. apply Hb. rewrite <- E. apply Lown. exact Ht. }
  split; [exact E1|]. split; [exact E2|]. split; [|split; [exact HA|exact Vst]].
  (* a queue is what the index holds of the account beyond its pending list *)
  intros b. apply sorted_ext; [apply (ir_queue _ _ _ H' b)|apply (ir_queue _ _ _ H0 b)|].
  intros x. rewrite (queue_is_rest p' b x H'), (queue_is_rest p b x H0), HA. unfold L.
  destruct (N.eq_dec b a) as [->|Hb]; [rewrite E1; cbn [In]; tauto|].
  destruct (E2 b Hb) as [-> _]. split; [tauto|]. intros [Fx [Ix Np]]. repeat split; auto.
  intros Hl. apply Hb. rewrite <- Fx. apply Lown, Hl.
Qed.

Lemma evict_queue_IWT c a p : IWT p -> IWT (evict_queue c a p).
Proof.
  intros [H0 [HW HT]]. change (evict_queue c a p) with (evict_list c (aget a (p_queue p)) p).
  destruct (kept_remove_txs c _ (kept_Wa c) true (aget a (p_queue p)) p (conj H0 HW)) as [H' W'].
  split; [exact H'|]. split; [exact W'|].
  (* the pending side did not move *)
  destruct (evict_queued c a _ p H0 (fun t Ht => Ht)) as [[E1 [E2 E3]] _].
  intros b. unfold pn_get, st_nonce. rewrite E1, E2, E3. apply (HT b).
Qed.

Lemma evict_pending_IWT c a p : IWT p -> IWT (evict_pending c a p).
Proof.
  intros [H0 [HW HT]].
  destruct (kept_remove_txs c _ (kept_Wa c) true (aget a (p_pend p)) p (conj H0 HW)) as [H' W'].
  change (evict_list c (aget a (p_pend p)) p) with (evict_pending c a p) in H', W'.
  split; [exact H'|]. split; [exact W'|].
  destruct (evict_pending_spec c a p H0) as [E1 [E2 [_ [_ E3]]]].
  intros b. destruct (N.eq_dec b a) as [->|Hb].
  - rewrite E1. apply (w_pn_empty _ _ (W' a)). exact E1.
  - destruct (E2 b Hb) as [A B]. rewrite A, B. unfold st_nonce. rewrite E3. apply (HT b).
Qed.

Lemma evict_tick_InvAll M c qexp pexp p : InvAll M p -> InvAll M (evict_tick c qexp pexp p).
Proof.
  intros [A B C D]. constructor.
  - apply (fold_pres IWT (fun s a => evict_pending c a s) pexp); [intros a q; apply evict_pending_IWT|].
    apply (fold_pres IWT (fun s a => evict_queue c a s) qexp); [intros a q; apply evict_queue_IWT|exact A].
  - apply (hk_move (fun _ _ => False) p); [apply mv_evict_tick, mv_refl|exact B].
  - apply (ap_move c p); [apply mv_evict_tick, mv_refl|exact C].
  - apply (al_move M (fun _ _ => False) p); [intros r t []|apply mv_evict_tick, mv_refl|exact D].
Qed.

Lemma xstep_InvAll c p x : InvAll (c_gslots c + c_gqueue c) p -> InvAll (c_gslots c + c_gqueue c) (xstep c p x).
Proof. destruct x as [o qo|q e]; cbn [xstep]; [apply step_InvAll|apply evict_tick_InvAll]. Qed.

Lemma run_xhist_InvAll c h : pres (InvAll (c_gslots c + c_gqueue c)) (fun p => run_xhist c p h).
Proof. apply fold_pres. intros x p. apply xstep_InvAll. Qed.
