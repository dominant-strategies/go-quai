(* C04 (e): recovery of a bundle the dominant node missed.  Whatever the subordinate answers when it is
   asked again (valid, unfiltered, foreign, garbage, nothing), and however often a collection is retried:
   the answer of CollectSubRollup / CollectNewlyConfirmedEtxs is a function of the VALIDATED store alone
   (the fetched data is never used directly), the store only ever gains bundles that pass the commitment
   check of their own header, entries never change, and the content of a successful sub rollup is what the
   headers of the manifest commit to. *)
From Coq Require Import List NArith Bool.
From GQ Require Import Model.C04.
Import ListNotations.
Local Open Scope N_scope.

Lemma ns_eqb_eq : forall a b, ns_eqb a b = true -> a = b.
Proof.
  induction a as [|x a IH]; destruct b as [|y b]; cbn; intros H; try discriminate; try reflexivity.
  apply andb_true_iff in H. destruct H as [Hx Hr]. apply N.eqb_eq in Hx. subst. f_equal. auto.
Qed.

Lemma lookup_pending_snoc w b h :
  lookup_pending (mkRW (rw_genesis w) (rw_blocks w) (rw_pending w ++ [b])) h =
  match lookup_pending w h with
  | Some l => Some l
  | None => if fst b =? h then Some (snd b) else None
  end.
Proof.
  unfold lookup_pending. cbn [rw_pending]. induction (rw_pending w) as [|y l IH]; cbn [app find].
  - destruct (fst b =? h); reflexivity.
  - destruct (fst y =? h); [reflexivity|exact IH].
Qed.

Section Rec.
Variable cm : list (N * list N).
Variable T : N.

Definition store_validated (w : rworld) : Prop :=
  forall h l, lookup_pending w h = Some l -> bundle_valid cm w (h, l) = true.
Definition store_extends (w w' : rworld) : Prop :=
  rw_genesis w' = rw_genesis w /\ rw_blocks w' = rw_blocks w /\
  forall h l, lookup_pending w h = Some l -> lookup_pending w' h = Some l.

Lemma bundle_valid_genesis w w' b : rw_genesis w' = rw_genesis w -> bundle_valid cm w' b = bundle_valid cm w b.
Proof. intros H. unfold bundle_valid, is_genesis. rewrite H. reflexivity. Qed.

Definition safe_step (w w' : rworld) : Prop :=
  store_extends w w' /\ (store_validated w -> store_validated w').

Lemma safe_step_refl w : safe_step w w.
Proof. repeat split; auto. Qed.

Lemma safe_step_trans a b c : safe_step a b -> safe_step b c -> safe_step a c.
Proof.
  intros [[G1 [B1 P1]] V1] [[G2 [B2 P2]] V2]. repeat split; try congruence; auto.
Qed.

Lemma add_validated_safe w b : safe_step w (add_validated cm w b).
Proof.
  unfold add_validated. destruct (bundle_valid cm w b) eqn:V; [|apply safe_step_refl].
  destruct (lookup_pending w (fst b)) eqn:E; [apply safe_step_refl|].
  split.
  - repeat split; auto. intros h l H. rewrite lookup_pending_snoc, H. reflexivity.
  - intros Hv h l H. rewrite lookup_pending_snoc in H. rewrite (bundle_valid_genesis w) by reflexivity.
    destruct (lookup_pending w h) eqn:F.
    + apply Hv. congruence.
    + destruct (N.eqb_spec (fst b) h) as [<-|]; [|discriminate]. injection H as <-. destruct b. exact V.
Qed.

Lemma add_validated_stores w h l : bundle_valid cm w (h, l) = true -> lookup_pending w h = None ->
  lookup_pending (add_validated cm w (h, l)) h = Some l.
Proof.
  intros V E. unfold add_validated. rewrite V. cbn [fst]. rewrite E, lookup_pending_snoc, E. cbn [fst snd].
  rewrite N.eqb_refl. reflexivity.
Qed.

Lemma fetch_safe answers st key h : safe_step (fs_world st) (fs_world (fetch cm T answers st key h)).
Proof.
  unfold fetch. destruct (assoc (fs_retries st) key); [|apply safe_step_refl].
  destruct (n <? T); [apply safe_step_refl|].
  destruct (assoc answers h); [apply add_validated_safe|apply safe_step_refl].
Qed.

Lemma sub_rollup_f_spec answers st key : forall m acc,
  match sub_rollup (fs_world st) m with
  | Some r => sub_rollup_f cm T answers st key m acc = (st, Some (acc ++ r))
  | None => exists h, In h m /\ lookup_pending (fs_world st) h = None
                      /\ sub_rollup_f cm T answers st key m acc = (fetch cm T answers st key h, None)
  end.
Proof.
  induction m as [|h m IH]; intros acc; cbn [sub_rollup sub_rollup_f].
  - rewrite app_nil_r. reflexivity.
  - destruct (lookup_pending (fs_world st) h) as [l|] eqn:E; [|exists h; cbn; auto].
    specialize (IH (acc ++ l)). destruct (sub_rollup (fs_world st) m) as [r|].
    + rewrite IH, app_assoc. reflexivity.
    + destruct IH as (h' & Hin & Hn & Hf). exists h'. cbn. auto.
Qed.

(* [reads_store missing answers st pure r]: r is the result of a call made in state st, pure the answer of the pure
   function over the store of st, missing the answer "pending ETXs not found" *)
Inductive reads_store {A : Type} (missing : A) (answers : list (N * bundle)) (st : fstate) : A -> fstate * A -> Prop :=
| reads_done r : r <> missing -> reads_store missing answers st r (st, r)
| reads_missing key h : lookup_pending (fs_world st) h = None ->
    reads_store missing answers st missing (fetch cm T answers st key h, missing).

Lemma sub_rollup_f_answer answers st key m :
  reads_store None answers st (sub_rollup (fs_world st) m) (sub_rollup_f cm T answers st key m []).
Proof.
  pose proof (sub_rollup_f_spec answers st key m []) as S. destruct (sub_rollup (fs_world st) m) as [r|].
  - rewrite S. apply reads_done. discriminate.
  - destruct S as (h & _ & Hn & ->). apply reads_missing, Hn.
Qed.

Lemma nc_walk_f_answer answers ctx loc border : forall fuel st cur acc,
  reads_store RErrPending answers st (nc_walk fuel (fs_world st) ctx loc border cur acc)
    (nc_walk_f cm T answers fuel st ctx loc border cur acc).
Proof.
  induction fuel as [|f IH]; intros st cur acc; cbn [nc_walk_f nc_walk].
  - apply reads_done. discriminate.
  - destruct (lookup_block (fs_world st) (rb_parent cur)) as [p|]; [|apply reads_done; discriminate].
    destruct (is_genesis (fs_world st) (rb_parent cur)); [apply reads_done; discriminate|].
    destruct (walk_stops ctx loc p); [apply reads_done; discriminate|].
    destruct (sub_rollup_f_answer answers st (rb_hash p) (rb_manifest p)) as [[roll|] Hr|key h Hn];
      [apply IH|contradiction|apply reads_missing, Hn].
Qed.

Lemma newly_confirmed_f_answer answers st ctx b border :
  reads_store RErrPending answers st (newly_confirmed (fs_world st) ctx b border)
    (newly_confirmed_f cm T answers st ctx b border).
Proof.
  unfold newly_confirmed_f, newly_confirmed.
  destruct (sub_rollup_f_answer answers st (rb_hash b) (rb_manifest b)) as [[roll|] Hr|key h Hn];
    [apply nc_walk_f_answer|contradiction|apply reads_missing, Hn].
Qed.

Lemma reads_store_answer {A} {missing : A} {answers st pure r} : reads_store missing answers st pure r -> snd r = pure.
Proof. intros []; reflexivity. Qed.

Lemma reads_store_safe {A} {missing : A} {answers st pure r} :
  reads_store missing answers st pure r -> safe_step (fs_world st) (fs_world (fst r)).
Proof. intros []; [apply safe_step_refl|apply fetch_safe]. Qed.

Lemma run_round_safe answers ctx st q :
  safe_step (fs_world st) (fs_world (fst (run_round cm T answers ctx st q))).
Proof.
  unfold run_round. destruct (lookup_block (fs_world st) (fst q)) as [b|]; [|apply safe_step_refl].
  destruct (snd q =? 9).
  - pose proof (reads_store_safe (sub_rollup_f_answer answers st (rb_hash b) (rb_manifest b))) as S.
    destruct (sub_rollup_f cm T answers st (rb_hash b) (rb_manifest b) []) as [st' [l|]]; exact S.
  - pose proof (reads_store_safe (newly_confirmed_f_answer answers st ctx b (snd q))) as S.
    destruct (newly_confirmed_f cm T answers st ctx b (snd q)) as [st' r]. exact S.
Qed.

Lemma run_rounds_safe ctx : forall rs st,
  safe_step (fs_world st) (fs_world (fst (run_rounds cm T ctx st rs))).
Proof.
  induction rs as [|[answers q] rs IH]; intros st; cbn [run_rounds]; [apply safe_step_refl|].
  pose proof (run_round_safe answers ctx st q) as S.
  destruct (run_round cm T answers ctx st q) as [st' o]. specialize (IH st').
  destruct (run_rounds cm T ctx st' rs) as [st'' os]. apply (safe_step_trans _ _ _ S IH).
Qed.

Definition committed_of (h : N) : list N := match assoc cm h with Some c => c | None => [] end.

Lemma validated_entry_is_committed w h x : store_validated w ->
  lookup_pending w h = Some x -> is_genesis w h = false -> map retx_id x = committed_of h.
Proof.
  intros Hv E Hg. specialize (Hv h x E). unfold bundle_valid in Hv. cbn [fst snd] in Hv.
  rewrite Hg, orb_false_r in Hv. unfold committed_of.
  destruct (assoc cm h); [apply ns_eqb_eq; exact Hv|discriminate].
Qed.

End Rec.
