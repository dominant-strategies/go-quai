(* C08 -- lemmas about Model/C08.v, and the predicates the property theorems of Props/C08.v are stated with. *)
From Coq Require Import String.
From Coq Require Import List ZArith Bool Lia.
From GQ Require Import Lib.Lists Generated.C08Fields Model.C08.
Import ListNotations.
Local Open Scope Z_scope.

Definition mem (s : string) (l : list string) : bool := existsb (String.eqb s) l.
Definition subset (a b : list string) : bool := forallb (fun x => mem x b) a.

(* reviewed exclusion list: the PoW solution fields and the merge-mining proof itself *)
Definition seal_exclusions : list string := ["Nonce"; "MixHash"; "AuxPow"]%string.
Definition struct_caches : list string := ["PowHash"; "PowDigest"]%string.
Definition hdr_struct_caches : list string := ["Hash"; "SealHash"]%string.

(* every wire field of the work object header is either excluded by review or written by SealEncode; what the
   full encoder always writes SealEncode always writes; what it writes after the fork SealEncode writes after the
   fork; no sealed field is conditional on anything but the fork predicate; the exclusions are really excluded *)
Definition seal_covers_all_but_nonce_mix_auxpow : bool :=
  forallb (fun f => mem f seal_exclusions || mem f (seal_fields_always ++ seal_fields_postfork)) (map snd woh_proto_fields)
  && forallb (fun f => mem f seal_exclusions || mem f seal_fields_always) enc_fields_always
  && forallb (fun f => mem f seal_exclusions || mem f (seal_fields_always ++ seal_fields_postfork)) enc_fields_postfork
  && forallb (fun f => negb (mem f (seal_fields_always ++ seal_fields_postfork ++ seal_fields_other))) seal_exclusions
  && match seal_fields_other with [] => true | _ => false end
  && match enc_fields_other with [] => true | _ => false end
  && forallb (fun f => mem f struct_caches || mem f (enc_fields_always ++ enc_fields_postfork)) woh_struct_fields.

(* SealHash hashes SealEncode; the only field it clears is the primary coinbase, only after the fork, and then the
   coinbase bytes are appended to the outer hash *)
Definition seal_hash_coinbase_rebound : bool :=
  seal_hash_uses_seal_encode
  && subset seal_hash_nils ["PrimaryCoinbase"]%string
  && seal_hash_nils_guarded
  && (match seal_hash_nils with [] => true | _ => seal_hash_appends_coinbase end).

(* the body header: Hash() hashes SealEncode() and SealEncode writes every struct field *)
Definition body_header_hash_covers_all_fields : bool :=
  hdr_hash_uses_seal_encode
  && forallb (fun f => mem f hdr_struct_caches || mem f (hdr_seal_fields_always ++ hdr_seal_fields_cond)) hdr_struct_fields
  && match hdr_seal_nils with [] => true | _ => false end.

Definition params_ok : bool :=
  (big2e256 =? 2 ^ 256) && (big2e32 =? 2 ^ 32)
  && (0 <? expected_workshares_per_block)
  && (0 <? workshares_threshold_diff)
  && (0 <? kawpow_fork_block) && (0 <=? kawpow_transition_period)
  && (ravencoin_diff_cutoff_start <? ravencoin_diff_cutoff_end)
  && (ravencoin_diff_cutoff_range =? ravencoin_diff_cutoff_end - ravencoin_diff_cutoff_start)
  && (0 <? ravencoin_diff_percentage)
  && (merkle_size =? 2) && (merkle_nonce =? 0) && (hash_length =? 32)
  && (powid_progpow =? 0) && (powid_kawpow =? 1) && (powid_sha_btc =? 2) && (powid_sha_bch =? 3) && (powid_scrypt =? 4).

Lemma two256_val : two256 = 2 ^ 256.
Proof. reflexivity. Qed.
Lemma two256_pos : 0 < two256.
Proof. rewrite two256_val. lia. Qed.
Lemma big2e32_pos : 0 < big2e32.
Proof. reflexivity. Qed.
Lemma expected_workshares_per_block_pos : 0 < expected_workshares_per_block.
Proof. reflexivity. Qed.
Lemma workshares_threshold_diff_pos : 0 < workshares_threshold_diff.
Proof. reflexivity. Qed.

Lemma go_div_pos : forall x y, 0 < y -> go_div x y = x / y.
Proof. intros x y Hy. unfold go_div. destruct (Z.ltb_spec y 0); [lia | reflexivity]. Qed.

Lemma go_div_zero_l : forall k, go_div 0 k = 0.
Proof. intro k. unfold go_div. destruct (k <? 0); rewrite Zdiv_0_l; reflexivity. Qed.

Lemma le_div_iff : forall h X d, 0 < d -> (h <= X / d <-> h * d <= X).
Proof.
  intros h X d Hd. pose proof (Z.div_mod X d ltac:(lia)) as E.
  pose proof (Z.mod_pos_bound X d Hd) as B. split; intro L; nia.
Qed.

Definition bytes_ok (b : bytes) : Prop := Forall (fun x => 0 <= x < 256) b.

Lemma of_be_bound : forall b, bytes_ok b -> 0 <= of_be b < 256 ^ Z.of_nat (length b).
Proof.
  unfold of_be. induction b as [|x b IH] using rev_ind; intro Hb.
  - cbn. lia.
  - apply Forall_app in Hb. destruct Hb as [Hb Hx]. inversion Hx as [|? ? Hx' _]; subst. specialize (IH Hb).
    rewrite fold_left_app, app_length, Nat.add_1_r, Nat2Z.inj_succ, Z.pow_succ_r by lia. cbn [fold_left]. nia.
Qed.

(* the acceptance predicate of verifySeal *)
Definition seal_ok (d : Z) (hash : bytes) : Prop := 0 < d /\ of_be hash <= two256 / d.

Lemma verify_seal_ok_iff : forall e h,
  verify_seal e h = SealOk <->
  e_fake e = false /\ eng_err e h = false /\ seal_ok (h_diff h) (eng_hash e h).
Proof.
  intros e h. unfold verify_seal, seal_ok, target.
  destruct (e_fake e); [intuition discriminate|].
  destruct (Z.leb_spec (h_diff h) 0); [intuition (discriminate || lia)|].
  destruct (eng_err e h); [intuition discriminate|].
  rewrite go_div_pos by lia.
  destruct (Z.gtb_spec (of_be (eng_hash e h)) (two256 / h_diff h)); [intuition (discriminate || lia) | intuition].
Qed.

Lemma verify_seal_err : forall e h, e_fake e = false -> eng_err e h = true -> seal_err (verify_seal e h) = true.
Proof.
  intros e h F E. unfold verify_seal. rewrite F. destruct (h_diff h <=? 0); [reflexivity|]. rewrite E. reflexivity.
Qed.

Lemma seal_ok_mul : forall d hash, seal_ok d hash <-> 0 < d /\ of_be hash * d <= two256.
Proof. intros d hash. unfold seal_ok. split; intros [P L]; split; auto; apply (le_div_iff _ _ _ P); exact L. Qed.

Lemma seal_ok_difficulty_one : forall hash, bytes_ok hash -> length hash = 32%nat -> seal_ok 1 hash.
Proof.
  intros hash Hb Hl. unfold seal_ok. rewrite Z.div_1_r. pose proof (of_be_bound hash Hb) as B. rewrite Hl in B.
  change (256 ^ Z.of_nat 32) with two256 in B. lia.
Qed.

Lemma seal_ok_difficulty_2e256 : forall hash, seal_ok two256 hash <-> of_be hash <= 1.
Proof. intros hash. unfold seal_ok. pose proof two256_pos. rewrite Z.div_same by lia. intuition. Qed.

Lemma seal_ok_difficulty_above_2e256 : forall d hash, two256 < d -> (seal_ok d hash <-> of_be hash <= 0).
Proof. intros d hash L. unfold seal_ok. pose proof two256_pos. rewrite Z.div_small by lia. intuition lia. Qed.

Lemma div_two256_antitone : forall d1 d2, 0 < d1 <= d2 -> two256 / d2 <= two256 / d1.
Proof. intros d1 d2 L. pose proof two256_pos. apply Z.div_le_compat_l; lia. Qed.

Lemma seal_ok_antitone : forall d1 d2 hash, 0 < d1 <= d2 -> seal_ok d2 hash -> seal_ok d1 hash.
Proof. intros d1 d2 hash L [P Q]. split; [lia|]. pose proof (div_two256_antitone d1 d2 L). lia. Qed.

Lemma seal_ok_monotone : forall d hash hash', of_be hash' <= of_be hash -> seal_ok d hash -> seal_ok d hash'.
Proof. intros d hash hash' L [P Q]. split; [exact P | lia]. Qed.

Definition with_diff (h : hdr) (d : Z) : hdr :=
  mkHdr (h_ptn h) d (h_aux h) (h_shaD h) (h_shaC h) (h_shaT h) (h_scrD h) (h_scrC h) (h_scrT h) (h_kawD h) (h_donor_pow h).
Definition with_hashes (e : env) (a b : bytes) : env := mkEnv (e_fake e) (e_wsthr e) a (e_err0 e) b (e_err1 e).

Definition ws_threshold (d k : Z) : Z := two256 / d * 2 ^ k.

Lemma calc_ws_threshold_spec : forall d k t,
  calc_ws_threshold d k = ThrOk t <-> 0 < k /\ d <> 0 /\ t = go_div two256 d * 2 ^ k.
Proof.
  intros d k t. unfold calc_ws_threshold.
  destruct (Z.leb_spec k 0); [split; [discriminate | lia]|].
  destruct (Z.eqb_spec d 0); [split; [discriminate | tauto]|].
  split; [intros E; inversion E; auto | intros (_ & _ & ->); reflexivity].
Qed.

Lemma ws_threshold_mono : forall d d' k k', 0 < d <= d' -> 0 <= k <= k' -> ws_threshold d' k <= ws_threshold d k'.
Proof.
  intros d d' k k' Hd Hk. unfold ws_threshold. pose proof two256_pos. pose proof (div_two256_antitone d d' Hd).
  assert (0 <= two256 / d') by (apply Z.div_pos; lia).
  assert (0 < 2 ^ k) by (apply Z.pow_pos_nonneg; lia).
  assert (2 ^ k <= 2 ^ k') by (apply Z.pow_le_mono_r; lia). nia.
Qed.

Lemma seal_ok_under_threshold : forall d hash k, seal_ok d hash -> 0 <= k -> of_be hash <= ws_threshold d k.
Proof.
  intros d hash k [P L] Hk. pose proof (ws_threshold_mono d d 0 k ltac:(lia) ltac:(lia)) as M. unfold ws_threshold in *. lia.
Qed.

Inductive threshold_outcome (err : bool) (x d k : Z) : thr_out -> Prop :=
| ToOff : k <= 0 -> threshold_outcome err x d k (WBool false)
| ToPanic : 0 < k -> d = 0 -> threshold_outcome err x d k WPanic
| ToMet : 0 < k -> d <> 0 -> err = false -> x <= go_div two256 d * 2 ^ k -> threshold_outcome err x d k (WBool true)
| ToMissed : 0 < k -> d <> 0 -> (err = false -> go_div two256 d * 2 ^ k < x) -> threshold_outcome err x d k (WBool false).

Lemma check_work_threshold_outcome : forall e h k,
  threshold_outcome (eng_err e h) (of_be (eng_hash e h)) (h_diff h) k (check_work_threshold e h k).
Proof.
  intros e h k. unfold check_work_threshold, calc_ws_threshold.
  destruct (Z.leb_spec k 0); [apply ToOff; assumption|].
  destruct (Z.eqb_spec (h_diff h) 0); [apply ToPanic; assumption|].
  destruct (eng_err e h); [apply ToMissed; auto; discriminate|].
  destruct (Z.leb_spec (of_be (eng_hash e h)) (go_div two256 (h_diff h) * 2 ^ k)); [apply ToMet | apply ToMissed]; auto.
Qed.

Lemma check_work_threshold_true_iff : forall e h k, 0 < h_diff h ->
  (check_work_threshold e h k = WBool true <->
   0 < k /\ eng_err e h = false /\ of_be (eng_hash e h) <= ws_threshold (h_diff h) k).
Proof.
  intros e h k Hd. unfold ws_threshold. rewrite <- (go_div_pos two256 _ Hd).
  destruct (check_work_threshold_outcome e h k) as [O|K Z|K N E L|K N G].
  - split; [discriminate | lia].
  - lia.
  - tauto.
  - split; [discriminate | intros (_ & E & L); specialize (G E); lia].
Qed.

Lemma check_work_threshold_err : forall e h k, eng_err e h = true -> check_work_threshold e h k <> WBool true.
Proof.
  intros e h k E. destruct (check_work_threshold_outcome e h k); try discriminate. congruence.
Qed.

Definition shares_nonneg (h : hdr) : Prop := 0 <= h_shaC h /\ 0 <= h_shaT h /\ 0 <= h_scrC h /\ 0 <= h_scrT h.

(* the last step of CalculateKawpowShareDiff: d itself, or d scaled by B / kst with kst >= B *)
Lemma kawpow_share_diff_tail : forall n B d kst, 0 < n -> 0 < B -> 0 <= d ->
  let r := if kst <? B then d else go_div (d * B) kst in
  0 <= r <= d /\ (kst <= (n + 1) * B -> d / (n + 1) <= r).
Proof.
  intros n B d kst Hn HB Hd r. subst r.
  pose proof (Z.mul_div_le d (n + 1) ltac:(lia)) as M.
  assert (Q : 0 <= d / (n + 1)) by (apply Z.div_pos; lia).
  destruct (Z.ltb_spec kst B); [nia|].
  rewrite go_div_pos by lia. split; [split|intro U].
  - apply Z.div_pos; [apply Z.mul_nonneg_nonneg|]; lia.
  - apply Z.div_le_upper_bound; [lia | nia].
  - apply Z.div_le_lower_bound; [lia | nia].
Qed.

Lemma kawpow_share_diff_range : forall h, 0 <= h_diff h ->
  0 <= kawpow_share_diff h <= h_diff h /\
  (kawpow_fork_block <= u64 (h_ptn h) -> shares_nonneg h ->
   h_diff h / (expected_workshares_per_block + 1) <= kawpow_share_diff h).
Proof.
  intros h Hd. unfold kawpow_share_diff. cbv zeta. pose proof expected_workshares_per_block_pos as En.
  assert (Q : h_diff h / (expected_workshares_per_block + 1) <= h_diff h) by (apply Z.div_le_upper_bound; nia).
  destruct (Z.ltb_spec (u64 (h_ptn h)) kawpow_fork_block); [lia|].
  remember (Z.min (h_shaC h) (h_shaT h) + Z.min (h_scrC h) (h_scrT h)) as nonk eqn:En0.
  destruct (expected_workshares_per_block * big2e32 <=? nonk); [lia|].
  destruct (h_kawD h) as [kd|]; [|lia].
  destruct (kd <=? 0); [lia|].
  remember (if ravencoin_diff_cutoff_start <=? _ then _ else _) as kst eqn:Ek.
  destruct (kawpow_share_diff_tail expected_workshares_per_block big2e32 (h_diff h) kst En big2e32_pos Hd) as [R L].
  split; [exact R|]. intros _ (A & B & C & D). apply L.
  assert (0 <= nonk) by (subst nonk; lia). rewrite Ek. destruct (ravencoin_diff_cutoff_start <=? _); lia.
Qed.

Lemma kawpow_share_diff_bounds : forall h,
  kawpow_fork_block <= u64 (h_ptn h) -> 0 <= h_diff h -> shares_nonneg h ->
  h_diff h / (expected_workshares_per_block + 1) <= kawpow_share_diff h <= h_diff h.
Proof. intros h Hf Hd Hs. destruct (kawpow_share_diff_range h Hd) as [[_ U] L]. split; [exact (L Hf Hs) | exact U]. Qed.

Lemma kawpow_share_diff_pos : forall h,
  kawpow_fork_block <= u64 (h_ptn h) -> expected_workshares_per_block + 1 <= h_diff h -> shares_nonneg h ->
  0 < kawpow_share_diff h.
Proof.
  intros h Hf Hd Hs. pose proof expected_workshares_per_block_pos.
  pose proof (kawpow_share_diff_bounds h Hf ltac:(lia) Hs) as [L _].
  assert (1 <= h_diff h / (expected_workshares_per_block + 1)) by (apply Z.div_le_lower_bound; lia). lia.
Qed.

Lemma kawpow_share_diff_zero : forall h, h_diff h = 0 -> kawpow_share_diff h = 0.
Proof. intros h D0. destruct (kawpow_share_diff_range h ltac:(lia)) as [R _]. lia. Qed.

(* D: what CheckIfValidWorkShare divides 2^256 by; T: the share target *)
Inductive share_outcome (err : bool) (x D T : Z) : ws_class -> Prop :=
| SoPanic : D = 0 -> share_outcome err x D T WsPanic
| SoValid : D <> 0 -> err = false -> x <= T -> share_outcome err x D T WsValid
| SoSub : D <> 0 -> err = false -> T < x -> share_outcome err x D T WsSub
| SoInvalid : D <> 0 -> (err = false -> T < x) -> share_outcome err x D T WsInvalid.

Lemma share_outcome_panic : forall {err x D T c}, share_outcome err x D T c -> (c = WsPanic <-> D = 0).
Proof. intros err x D T c O. destruct O; split; intro; (discriminate || contradiction || auto). Qed.

Lemma share_outcome_valid : forall {err x D T c}, share_outcome err x D T c ->
  (c = WsValid <-> D <> 0 /\ err = false /\ x <= T).
Proof.
  intros err x D T c O. destruct O as [Z|N E L|N E L|N G].
  - split; [discriminate | tauto].
  - split; auto.
  - split; [discriminate | lia].
  - split; [discriminate | intros (_ & E & L); specialize (G E); lia].
Qed.

Lemma sub_or_invalid_outcome : forall e h D T, D <> 0 -> h_diff h <> 0 ->
  (eng_err e h = false -> T < of_be (eng_hash e h)) ->
  share_outcome (eng_err e h) (of_be (eng_hash e h)) D T (sub_or_invalid e h).
Proof.
  intros e h D T N Nd G. unfold sub_or_invalid.
  destruct (check_work_threshold_outcome e h (e_wsthr e)); [apply SoInvalid | contradiction | apply SoSub | apply SoInvalid]; auto.
Qed.

(* the two epochs differ in D and T only *)
Lemma check_valid_ws_outcome : forall e h,
  let pre := u64 (h_ptn h) <? kawpow_fork_block in
  share_outcome (eng_err e h) (of_be (eng_hash e h))
    (if pre then h_diff h else kawpow_share_diff h)
    (if pre then go_div two256 (h_diff h) * 2 ^ workshares_threshold_diff else go_div two256 (kawpow_share_diff h))
    (check_valid_ws e h).
Proof.
  intros e h pre. subst pre. unfold check_valid_ws. destruct (u64 (h_ptn h) <? kawpow_fork_block).
  - destruct (check_work_threshold_outcome e h workshares_threshold_diff) as [O|K Z|K N E L|K N G].
    + pose proof workshares_threshold_diff_pos. lia.
    + apply SoPanic. exact Z.
    + apply SoValid; assumption.
    + apply sub_or_invalid_outcome; assumption.
  - cbv zeta. destruct (Z.eqb_spec (kawpow_share_diff h) 0) as [|N]; [apply SoPanic; assumption|].
    (* so the sub-share rule cannot panic here *)
    assert (Nd : h_diff h <> 0) by (intro D; apply N, kawpow_share_diff_zero, D).
    destruct (eng_err e h) eqn:E; [apply SoInvalid; [assumption | discriminate]|].
    destruct (Z.leb_spec (of_be (eng_hash e h)) (go_div two256 (kawpow_share_diff h)));
      [apply SoValid; auto | rewrite <- E; apply sub_or_invalid_outcome; auto].
Qed.

Lemma check_valid_ws_err : forall e h, eng_err e h = true -> check_valid_ws e h = WsInvalid \/ check_valid_ws e h = WsPanic.
Proof. intros e h E. pose proof (check_valid_ws_outcome e h) as O. rewrite E in O. inversion O; auto; discriminate. Qed.

Lemma donor_share_cases : forall h d, donor_share h d = WsInvalid \/ donor_share h d = WsValid.
Proof.
  intros h d. unfold donor_share. destruct d as [sd|]; auto. destruct (sd =? 0); auto.
  destruct (of_be (h_donor_pow h) <? go_div two256 sd); auto.
Qed.

Lemma donor_share_valid : forall h d, donor_share h d = WsValid ->
  exists sd, d = Some sd /\ sd <> 0 /\ of_be (h_donor_pow h) < go_div two256 sd.
Proof.
  intros h d V. unfold donor_share in V. destruct d as [sd|]; [|discriminate].
  destruct (Z.eqb_spec sd 0); [discriminate|].
  destruct (Z.ltb_spec (of_be (h_donor_pow h)) (go_div two256 sd)); [eauto | discriminate].
Qed.

Inductive class_outcome (e : env) (h : hdr) : ws_class -> Prop :=
| ClEngine : class_outcome e h (if seal_err (verify_seal e h) then check_valid_ws e h else WsBlock)
| ClDonor : forall id d, h_aux h = Some id -> (id =? powid_kawpow) = false -> class_outcome e h (donor_share h d)
| ClNone : class_outcome e h WsInvalid.

Lemma classify_outcome : forall e h, class_outcome e h (classify e h).
Proof.
  intros e h. unfold classify.
  destruct (negb (activated h) || transition_progpow h); [apply ClEngine|].
  destruct (h_aux h) as [id|] eqn:A; [|apply ClNone].
  destruct (id =? powid_kawpow) eqn:K; [apply ClEngine|].
  destruct ((id =? powid_sha_bch) || (id =? powid_sha_btc)); [exact (ClDonor e h id _ A K)|].
  destruct (id =? powid_scrypt); [exact (ClDonor e h id _ A K) | apply ClNone].
Qed.

Lemma bytes_eqb_eq : forall a b, bytes_eqb a b = true <-> a = b.
Proof.
  induction a as [|x a IH]; destruct b as [|y b]; cbn [bytes_eqb]; split; intro E; try discriminate; auto.
  - apply andb_prop in E. destruct E as [E1 E2]. apply Z.eqb_eq in E1. apply IH in E2. congruence.
  - inversion E; subst. rewrite Z.eqb_refl. cbn. apply IH. reflexivity.
Qed.

Lemma parse_push_sound : forall s d r, parse_push s = Some (d, r) ->
  exists op, s = op :: d ++ r /\ op <= 75 /\ length d = Z.to_nat op.
Proof.
  intros s d r P. unfold parse_push in P. destruct s as [|op t]; [discriminate|].
  destruct (Z.leb_spec op 75); [|discriminate].
  destruct (Nat.ltb_spec (length t) (Z.to_nat op)) as [|L]; [discriminate|].
  inversion P; subst. exists op. rewrite firstn_skipn. repeat split; auto.
  apply firstn_length_le. exact L.
Qed.

Lemma parse_commit_sound : forall ss hd pl r2, parse_commit ss = Some (hd, pl, r2) ->
  exists op1, ss = op1 :: hd ++ 44 :: pl ++ r2 /\ (length hd <= 5)%nat /\ length hd = Z.to_nat op1 /\
              length pl = 44%nat /\ firstn 4 pl = magic.
Proof.
  intros ss hd pl r2 P. unfold parse_commit in P. destruct ss as [|b t]; [discriminate|].
  destruct (parse_push (b :: t)) as [[hd' r1]|] eqn:P1; [|discriminate].
  destruct (Nat.ltb_spec 5 (length hd')) as [|L5]; [discriminate|].
  destruct (parse_push r1) as [[pl' r2']|] eqn:P2; [|discriminate].
  destruct (Nat.eqb_spec (length pl') 44) as [L44|]; [|discriminate].
  destruct (bytes_eqb (firstn 4 pl') magic) eqn:M; [|discriminate]. apply bytes_eqb_eq in M.
  injection P as <- <- <-.
  apply parse_push_sound in P1. destruct P1 as (op1 & E1 & _ & Len1).
  apply parse_push_sound in P2. destruct P2 as (op2 & E2 & _ & Len2).
  assert (op2 = 44) by lia. subst op2.
  exists op1. rewrite E1, E2. repeat split; auto.
Qed.

(* op1 :: hd is the height push; 44 pushes the commitment: magic, seal hash, merkle size and nonce (sz) *)
Lemma extract_seal_hash_sound : forall ss h, extract_seal_hash ss = Some h ->
  exists op1 hd sz rest, ss = op1 :: hd ++ 44 :: magic ++ h ++ sz ++ rest /\
    (length hd <= 5)%nat /\ length hd = Z.to_nat op1 /\ length h = 32%nat /\ length sz = 8%nat.
Proof.
  intros ss h E. unfold extract_seal_hash in E.
  destruct (parse_commit ss) as [[[hd pl] r2]|] eqn:P; [|discriminate].
  (* not by injection, which would unfold firstn 32 *)
  assert (Eh : h = firstn 32 (skipn 4 pl)) by congruence. clear E. subst h.
  apply parse_commit_sound in P. destruct P as (op1 & Es & L5 & Lh & L44 & M).
  exists op1, hd, (skipn 32 (skipn 4 pl)), r2.
  split; [|split; [exact L5|split; [exact Lh|split]]].
  - rewrite Es, <- M, (app_assoc (firstn 32 _)), firstn_skipn, (app_assoc (firstn 4 pl)), firstn_skipn. reflexivity.
  - rewrite firstn_length, skipn_length. lia.
  - rewrite !skipn_length. lia.
Qed.

Lemma take_le_rest : forall n bs v r, take_le n bs = Some (v, r) -> r = skipn n bs.
Proof. intros n bs v r T. unfold take_le in T. destruct (length bs <? n)%nat; inversion T; reflexivity. Qed.

Lemma read_varint_rest : forall bs v r, read_varint bs = Some (v, r) -> exists j, (1 <= j)%nat /\ r = skipn j bs.
Proof.
  intros bs v r R. unfold read_varint in R. destruct bs as [|b t]; [discriminate|].
  destruct (b =? 253); [apply take_le_rest in R; exists 3%nat; split; [lia | exact R]|].
  destruct (b =? 254); [apply take_le_rest in R; exists 5%nat; split; [lia | exact R]|].
  destruct (b =? 255); [apply take_le_rest in R; exists 9%nat; split; [lia | exact R]|].
  inversion R; subst. exists 1%nat. split; [lia | reflexivity].
Qed.

Lemma skipn_plus : forall (A : Type) (b a : nat) (l : list A), skipn a (skipn b l) = skipn (b + a) l.
Proof.
  induction b as [|b IH]; intros a l; cbn [Nat.add skipn]; [reflexivity|].
  destruct l as [|x l]; [destruct a; reflexivity | apply IH].
Qed.

(* 42 = version (4) + input count (>= 1) + previous outpoint (36) + script length (>= 1) *)
Lemma extract_script_sig_sound : forall tx ss, extract_script_sig tx = Some ss ->
  exists pre post, tx = pre ++ ss ++ post /\ (ss <> [] -> (42 <= length pre)%nat).
Proof.
  intros tx ss E. unfold extract_script_sig in E.
  destruct (read_varint (skipn 4 tx)) as [[c r1]|] eqn:R1; [|discriminate].
  destruct (read_varint (skipn 36 r1)) as [[n r2]|] eqn:R2; [|discriminate].
  apply read_varint_rest in R1. destruct R1 as (j1 & J1 & E1).
  apply read_varint_rest in R2. destruct R2 as (j2 & J2 & E2).
  assert (Er2 : r2 = skipn (4 + j1 + 36 + j2) tx).
  { rewrite E2, E1. rewrite !skipn_plus. f_equal. lia. }
  destruct (n =? 0).
  - inversion E; subst ss. exists tx, []. split; [rewrite app_nil_r; reflexivity | intro N; congruence].
  - destruct (len r2 <? n) eqn:L; [discriminate|]. inversion E; subst ss.
    exists (firstn (4 + j1 + 36 + j2) tx), (skipn (Z.to_nat n) r2). split.
    + rewrite firstn_skipn, Er2, firstn_skipn. reflexivity.
    + intro NE. rewrite firstn_length.
      assert (length tx > 4 + j1 + 36 + j2 \/ length tx <= 4 + j1 + 36 + j2)%nat as [G|G] by lia; [lia|].
      exfalso. apply NE. rewrite Er2. rewrite skipn_all2 by lia. apply firstn_nil.
Qed.

Lemma coinbase_commitment_is_in_tx : forall tx ss h,
  extract_script_sig tx = Some ss -> extract_seal_hash ss = Some h ->
  exists pre post, tx = pre ++ magic ++ h ++ post /\ (44 <= length pre)%nat /\ length h = 32%nat.
Proof.
  intros tx ss h E1 E2.
  apply extract_seal_hash_sound in E2. destruct E2 as (op1 & hd & sz & rest & Es & _ & _ & Lh & _).
  apply extract_script_sig_sound in E1. destruct E1 as (pre & post & Et & Lp).
  assert (NE : ss <> []) by (rewrite Es; discriminate). specialize (Lp NE).
  exists (pre ++ op1 :: hd ++ [44]), (sz ++ rest ++ post). repeat split; auto.
  - rewrite Et, Es. cbn [app]. rewrite <- !app_assoc. cbn [app]. rewrite <- !app_assoc. reflexivity.
  - rewrite app_length. cbn [length]. rewrite app_length. cbn [length]. lia.
Qed.

Lemma all_zero_zeros : forall l, all_zero l = true -> l = zeros (length l).
Proof.
  intros l A. apply Forall_eq_repeat, (forallb_Forall (Z.eqb 0)); [|exact A]. intros x E. apply Z.eqb_eq, E.
Qed.

Lemma validate_prevout_sound : forall tx, validate_prevout tx = true ->
  exists c r1, read_varint (skipn 4 tx) = Some (c, r1) /\ c = 1 /\ (32 <= length r1)%nat /\
               firstn 32 r1 = zeros 32.
Proof.
  intros tx V. unfold validate_prevout in V.
  destruct (read_varint (skipn 4 tx)) as [[c r1]|]; [|discriminate].
  destruct (Z.eqb_spec c 1) as [C|]; [|discriminate].
  destruct (Nat.ltb_spec (length r1) 32) as [|L]; [discriminate|].
  destruct (all_zero (firstn 32 r1)) eqn:Z0; [|discriminate].
  exists c, r1. repeat split; auto.
  apply all_zero_zeros in Z0. rewrite firstn_length_le in Z0 by lia. exact Z0.
Qed.

Definition collision (H : bytes -> bytes) : Prop := exists a b, a <> b /\ H a = H b.

Lemma hash_inj_or_collision : forall (H : bytes -> bytes) a b, H a = H b -> a = b \/ collision H.
Proof.
  intros H a b E. destruct (list_eq_dec Z.eq_dec a b) as [Q|Q]; [left; exact Q | right; exists a, b; auto].
Qed.

Lemma norm32_length : forall b, length (norm32 b) = 32%nat.
Proof. intros b. unfold norm32, zeros. rewrite firstn_length, app_length, repeat_length. lia. Qed.

Lemma app_inv_length_r : forall (a b c d : bytes), length b = length d -> a ++ b = c ++ d -> a = c /\ b = d.
Proof.
  intros a b c d L E. apply app_inv_length; [|exact E].
  apply (f_equal (@length Z)) in E. rewrite !app_length in E. lia.
Qed.

Section Merkle.
  Variable H : bytes -> bytes.

  Lemma merkle_from_snoc : forall br c s, merkle_from H c (br ++ [s]) = H (merkle_from H c br ++ norm32 s).
  Proof. intros br c s. unfold merkle_from. rewrite fold_left_app. reflexivity. Qed.

  Lemma merkle_from_suffix : forall br1 br2 c1 c2, (length br1 <= length br2)%nat ->
    merkle_from H c1 br1 = merkle_from H c2 br2 ->
    (exists pre suf, br2 = pre ++ suf /\ c1 = merkle_from H c2 pre /\ map norm32 br1 = map norm32 suf) \/ collision H.
  Proof.
    induction br1 as [|s1 br1 IH] using rev_ind; intros br2 c1 c2 L E.
    - left. exists br2, []. rewrite app_nil_r. split; [reflexivity | split; [exact E | reflexivity]].
    - destruct br2 as [|x br2 _] using rev_ind; [rewrite app_length in L; cbn in L; lia|].
      rewrite !merkle_from_snoc in E. rewrite !app_length in L. cbn in L.
      destruct (hash_inj_or_collision H _ _ E) as [Q|C]; [|right; exact C].
      apply app_inv_length_r in Q; [|rewrite !norm32_length; reflexivity]. destruct Q as [Q1 Q2].
      destruct (IH br2 c1 c2 ltac:(lia) Q1) as [(pre & suf & -> & P & M)|C]; [|right; exact C].
      left. exists pre, (suf ++ [x]). rewrite app_assoc, !map_app, M. cbn [map]. rewrite Q2. auto.
  Qed.

  Lemma merkle_from_inj : forall br1 br2 c1 c2, length br1 = length br2 ->
    merkle_from H c1 br1 = merkle_from H c2 br2 ->
    (c1 = c2 /\ map norm32 br1 = map norm32 br2) \/ collision H.
  Proof.
    intros br1 br2 c1 c2 L E.
    destruct (merkle_from_suffix br1 br2 c1 c2 ltac:(lia) E) as [(pre & suf & -> & P & M)|C]; [left | right; exact C].
    apply (f_equal (@length bytes)) in M as Lm. rewrite !map_length in Lm. rewrite app_length in L.
    destruct pre; [split; [exact P | exact M] | cbn in L; lia].
  Qed.

  Lemma merkle_root_in_range : forall id tx br, powid_kawpow <= id <= powid_scrypt ->
    merkle_root H id tx br = merkle_from H (H tx) br.
  Proof.
    intros id tx br Hid. unfold merkle_root.
    destruct (Z.leb_spec powid_kawpow id); [|lia]. destruct (Z.leb_spec id powid_scrypt); [reflexivity | lia].
  Qed.

  Lemma merkle_root_binding_same_len : forall id tx1 tx2 br1 br2,
    powid_kawpow <= id <= powid_scrypt -> length br1 = length br2 ->
    merkle_root H id tx1 br1 = merkle_root H id tx2 br2 ->
    (tx1 = tx2 /\ map norm32 br1 = map norm32 br2) \/ collision H.
  Proof.
    intros id tx1 tx2 br1 br2 Hid L E. rewrite !merkle_root_in_range in E by exact Hid.
    destruct (merkle_from_inj br1 br2 (H tx1) (H tx2) L E) as [[Q M]|C]; [|right; exact C].
    destruct (hash_inj_or_collision H tx1 tx2 Q) as [T|C]; [left; auto | right; exact C].
  Qed.

  Lemma merkle_from_is_hash : forall pre c, exists y, merkle_from H (H c) pre = H y.
  Proof.
    destruct pre as [|p pre _] using rev_ind; intro c.
    - exists c. reflexivity.
    - rewrite merkle_from_snoc. eexists. reflexivity.
  Qed.

  (* the leaf under the shorter branch equals the other leaf, or is the inner node the longer branch reaches at that
     depth: a hash output followed by a 32-byte sibling *)
  Lemma merkle_from_leaf_binding : forall tx1 tx2 br1 br2, (length br1 <= length br2)%nat ->
    merkle_from H (H tx1) br1 = merkle_from H (H tx2) br2 ->
    tx1 = tx2 \/ collision H \/ (exists y s, tx1 = H y ++ norm32 s).
  Proof.
    intros tx1 tx2 br1 br2 L E.
    destruct (merkle_from_suffix br1 br2 (H tx1) (H tx2) L E) as [(pre & suf & _ & P & _)|C]; [|auto].
    destruct pre as [|p pre _] using rev_ind.
    - destruct (hash_inj_or_collision H tx1 tx2 P); auto.
    - rewrite merkle_from_snoc in P. destruct (merkle_from_is_hash pre tx2) as (y & Ey). rewrite Ey in P.
      destruct (hash_inj_or_collision H _ _ P); eauto.
  Qed.

  Lemma merkle_root_binding : forall id tx1 tx2 br1 br2,
    powid_kawpow <= id <= powid_scrypt ->
    merkle_root H id tx1 br1 = merkle_root H id tx2 br2 ->
    tx1 = tx2 \/ collision H \/
    (exists y s, tx1 = H y ++ norm32 s) \/ (exists y s, tx2 = H y ++ norm32 s).
  Proof.
    intros id tx1 tx2 br1 br2 Hid E. rewrite !merkle_root_in_range in E by exact Hid.
    destruct (Nat.le_ge_cases (length br1) (length br2)) as [L|L].
    - destruct (merkle_from_leaf_binding tx1 tx2 br1 br2 L E) as [?|[?|?]]; auto.
    - symmetry in E. destruct (merkle_from_leaf_binding tx2 tx1 br2 br1 L E) as [?|[?|?]]; auto.
  Qed.

  (* an inner node is 64 bytes long: a leaf of another length is none *)
  Lemma merkle_root_binds_leaf_not_64_bytes : forall id tx1 tx2 br1 br2,
    (forall x, length (H x) = 32%nat) -> powid_kawpow <= id <= powid_scrypt ->
    length tx1 <> 64%nat -> length tx2 <> 64%nat ->
    merkle_root H id tx1 br1 = merkle_root H id tx2 br2 -> tx1 = tx2 \/ collision H.
  Proof.
    intros id tx1 tx2 br1 br2 Hlen Hid L1 L2 E.
    destruct (merkle_root_binding id tx1 tx2 br1 br2 Hid E) as [T|[C|[(y & s & N)|(y & s & N)]]]; auto;
      apply (f_equal (@length Z)) in N; rewrite app_length, Hlen, norm32_length in N; lia.
  Qed.
End Merkle.

Lemma pow_id_valid_postfork : forall ptn id,
  pow_id_valid ptn (Some id) = true -> kawpow_fork_block <= u64 ptn -> id = powid_kawpow.
Proof.
  intros ptn id PV F. unfold pow_id_valid in PV. cbn [is_some] in PV.
  destruct (Z.ltb_spec (u64 ptn) kawpow_fork_block); [lia|].
  destruct (Z.leb_spec kawpow_fork_block (u64 ptn)); [|lia]. cbn [andb] in PV.
  destruct (Z.eqb_spec id powid_kawpow); [assumption | discriminate].
Qed.

Section Aux.
  Variable H : bytes -> bytes.

  Definition script_of (a : auxpow) : bytes := match extract_script_sig (a_tx a) with Some s => s | None => [] end.

  Lemma committing_coinbase_length : forall a s,
    extract_seal_hash (script_of a) = Some s -> (80 <= length (a_tx a))%nat.
  Proof.
    intros a s E. unfold script_of in E. destruct (extract_script_sig (a_tx a)) as [ss|] eqn:Q; [|discriminate].
    destruct (coinbase_commitment_is_in_tx _ _ _ Q E) as (pre & post & Et & Lp & Lh).
    rewrite Et, !app_length. cbn [magic length]. lia.
  Qed.

  Definition commits_to (a : auxpow) (seal : bytes) : Prop :=
    let id := a_powid a in
    ((id = powid_kawpow \/ id = powid_sha_btc \/ id = powid_sha_bch) -> extract_seal_hash (script_of a) = Some seal) /\
    (id = powid_scrypt ->
       (32 <= length (a_aux2 a))%nat /\ all_zero (firstn 32 (a_aux2 a)) = false /\
       extract_seal_hash (script_of a) = Some (aux_merkle_root H (firstn 32 (a_aux2 a)) seal) /\
       extract_size_nonce (script_of a) = Some (merkle_size, merkle_nonce)).

  Set Implicit Arguments.
  Record section_accepted (se ia : bool) (time : Z) (seal : bytes) (a : auxpow) : Prop := {
    sa_sig_time : exists st, extract_sig_time (script_of a) = Some st /\ st <= a_donor_time a /\ st <= time;
    sa_commits : commits_to a seal;
    sa_donor_root : merkle_root H (a_powid a) (a_tx a) (a_branch a) = a_donor_root a;
    sa_prevout : validate_prevout (a_tx a) = true;
    sa_signed : a_sig_ok a = true \/ (se = true /\ is_sha_or_scrypt (a_powid a) = true /\ ia = true) }.
  Unset Implicit Arguments.

  Lemma auxpow_section_outcome : forall se ia time seal a,
    match auxpow_section H se ia time seal a with
    | Accept => section_accepted se ia time seal a
    | Reject => True
    | Panic => False
    end.
  Proof.
    intros se ia time seal a. unfold auxpow_section. fold (script_of a).
    destruct (extract_sig_time (script_of a)) as [st|] eqn:ST; [|exact I].
    destruct (Z.ltb_spec (a_donor_time a) st); [exact I|].
    destruct (Z.ltb_spec time st); [exact I|].
    destruct (extract_seal_hash (script_of a)) as [cs|] eqn:CS; [|exact I].
    set (ac := if negb (bytes_eqb (merkle_root H _ _ _) _) then Reject else _).
    (* every branch that has checked the commitment ends in the same three tests *)
    assert (T : commits_to a seal ->
                match ac with Accept => section_accepted se ia time seal a | Reject => True | Panic => False end).
    { intro C. subst ac.
      destruct (bytes_eqb _ (a_donor_root a)) eqn:M; [|exact I]. apply bytes_eqb_eq in M.
      destruct (validate_prevout (a_tx a)) eqn:V; [|exact I].
      destruct (a_sig_ok a) eqn:S; [split; eauto|].
      destruct (se && is_sha_or_scrypt (a_powid a) && ia) eqn:X; [|exact I].
      apply andb_prop in X. destruct X as [X X3]. apply andb_prop in X. destruct X as [X1 X2].
      split; eauto. }
    destruct ((a_powid a =? powid_kawpow) || (a_powid a =? powid_sha_btc) || (a_powid a =? powid_sha_bch)) eqn:K.
    - destruct (bytes_eqb seal cs) eqn:SE; [|exact I]. apply bytes_eqb_eq in SE. subst cs.
      apply T. split; [intros _; exact CS|]. intro Sc. rewrite Sc in K. discriminate K.
    - assert (N : ~ (a_powid a = powid_kawpow \/ a_powid a = powid_sha_btc \/ a_powid a = powid_sha_bch)).
      { intros [E|[E|E]]; rewrite E in K; discriminate K. }
      destruct (Z.eqb_spec (a_powid a) powid_scrypt) as [SC|SC]; [|apply T; split; tauto].
      destruct (Nat.ltb_spec (length (a_aux2 a)) 32); [exact I|].
      destruct (all_zero (firstn 32 (a_aux2 a))) eqn:AZ; [exact I|].
      destruct (bytes_eqb (aux_merkle_root H (firstn 32 (a_aux2 a)) seal) cs) eqn:AR; [|exact I].
      apply bytes_eqb_eq in AR. subst cs.
      destruct (extract_size_nonce (script_of a)) as [[sz nn]|] eqn:SN; [|exact I].
      destruct (Z.eqb_spec sz merkle_size) as [Es|]; [|exact I].
      destruct (Z.eqb_spec nn merkle_nonce) as [En|]; [|exact I].
      subst sz nn. apply T. split; tauto.
  Qed.

  Lemma auxpow_section_accept : forall se ia time seal a,
    auxpow_section H se ia time seal a = Accept -> section_accepted se ia time seal a.
  Proof.
    intros se ia time seal a A. pose proof (auxpow_section_outcome se ia time seal a) as O.
    rewrite A in O. exact O.
  Qed.
End Aux.

Section WoHash.
  (* blake3 (trusted primitive) *)
  Variable B3 : bytes -> bytes.
  (* wo.go WoProgpowHash: blake3(mixHash | sealHash | nonce) with 32 + 32 + 8 bytes *)
  Definition wo_progpow_hash (mix seal nonce : bytes) : bytes := B3 (mix ++ seal ++ nonce).
End WoHash.

(* the harness corpus replays these witnesses on the real code *)

Definition env0 : env := mkEnv false 4 [1] false [1] false.

Lemma workshare_threshold_total_refuted : exists e h k, check_work_threshold e h k = WPanic.
Proof.
  exists env0, (mkHdr 10 0 None None 0 0 None 0 0 None []), workshares_threshold_diff.
  vm_compute. reflexivity.
Qed.

Lemma valid_workshare_total_refuted :
  exists e h, 0 < h_diff h /\ kawpow_fork_block <= h_ptn h /\ check_valid_ws e h = WsPanic.
Proof.
  (* difficulty 5 after the fork: the share difficulty 5*2^32/(9*2^32) rounds to 0 and 2^256 is divided by it *)
  exists env0, (mkHdr (kawpow_fork_block + 5) 5 None (Some 1) 0 0 (Some 1) 0 0 (Some (2 ^ 60)) []).
  vm_compute. repeat split; discriminate || reflexivity.
Qed.

(* an SHA share with an out-of-scope primary coinbase is accepted by the VerifyUncles rules without a valid
   template signature *)
Definition unsigned_share_tx : bytes :=
  [1;0;0;0] ++ [1] ++ zeros 32 ++ [255;255;255;255] ++ [53] ++
  ([1;7] ++ [44] ++ magic ++ repeat 171 32 ++ [1;0;0;0;0;0;0;0] ++ [0] ++ [4;9;0;0;0]) ++ [255;255;255;255] ++ [0;0;0;0;0].

Lemma uncle_signature_required_refuted :
  exists H e h time seal a,
    a_sig_ok a = false /\ verify_uncle_c08 H e h true true time seal (Some a) = Accept.
Proof.
  exists (fun _ => zeros 32), env0,
    (mkHdr (kawpow_fork_block + kawpow_transition_period + 1) 1000 (Some powid_sha_btc) (Some 1) 0 0 (Some 1) 0 0 (Some 1) [5]),
    9, (repeat 171 32),
    (mkAux powid_sha_btc unsigned_share_tx 9 (zeros 32) [] [] false).
  vm_compute. split; reflexivity.
Qed.
