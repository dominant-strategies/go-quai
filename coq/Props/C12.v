(* C12 — A failed or reverted call frame leaves no trace.
   Property theorems, each followed by [Print Assumptions]; the refuted ones have vm_compute witnesses.
   Model: Model/C12.v   Lemmas: Lib/C12_Laws.v, Proofs/C12.v, Proofs/C12_Evm.v, Proofs/C12_Inventory.v, Proofs/C12_Layers.v, Proofs/C12_Fin.v (model Model/C12_Fin.v)   Generated: Generated/C12Journal.v

   Reading guide.  [step fx x o] is one call on the StateDB (mutator, Snapshot, RevertToSnapshot);
   [fx = false] is the code of /repo, [fx = true] the proposed repair of StateDB.Suicide.
   [m_core] = accounts (nonce, balance, code, storage, size counter, suicided, deleted), refund,
   logs, preimages, access list, transient storage; [m_jr] = the journal; [s_revs] = validRevisions.
   [benign fx o m] excludes exactly: Suicide of a live account whose storage-size counter is non-zero
   (finding F8), and only when fx = false. *)
From Coq Require Import List NArith ZArith Bool Lia.
From GQ Require Import Lib.SMap Lib.Lists Lib.C12_Laws Model.C12 Proofs.C12 Proofs.C12_Evm Proofs.C12_Inventory Proofs.C12_Layers Generated.C12Journal.
From GQ Require Import Model.C12_Fin Proofs.C12_Fin.
From GQ Require Model.C12_All.   (* case type of the correspondence check: built with this cone *)
Import ListNotations.

(* Every mutator only appends to the journal, and reverting what it appended gives back exactly
   the journalled state it started from. *)
Theorem mutator_is_undone_by_its_entries : forall o m,
  WFc (m_core m) -> benign code_fx o m = true ->
  exists es, m_jr (fst (mutate code_fx o m)) = es ++ m_jr m /\
    rewind_core (length (m_jr m)) (m_core (fst (mutate code_fx o m))) (m_jr (fst (mutate code_fx o m)))
    = Some (m_core m, m_jr m).
Proof. exact (mutate_ext code_fx). Qed.
Print Assumptions mutator_is_undone_by_its_entries.

(* Reachable states satisfy the invariant all other theorems assume (well-formed maps, revision
   ids increasing and below nextRevisionId, journal indices monotone, every valid revision rewinds
   without a nil dereference to a well-formed state). *)
Theorem reachable_states_invariant : forall c d n ops,
  WFc c -> all_benign code_fx (fresh c d n) ops = true -> Inv (run code_fx (fresh c d n) ops).
Proof. intros c d n ops W B. exact (Inv_run code_fx ops (fresh c d n) (Inv_fresh c d n W) B). Qed.
Print Assumptions reachable_states_invariant.

(* FULL STATEMENT (refuted below for the code as it is):
     forall x ops, Inv x -> let id := s_next x in
       let x2 := run false (fst (step false x OSnapshot)) ops in In id (map fst (s_revs x2)) ->
       m_core (s_m (fst (step false x2 (ORevert id)))) = m_core (s_m x)
   Proved for every history [ops] (any mutators, arbitrarily nested snapshots and reverts, including
   reverts that panic) all of whose steps are benign: the revert succeeds, and the accounts, refund,
   logs, preimages, access list, transient storage, the journal itself and validRevisions are exactly
   those at the snapshot. *)
Theorem revert_restores_partial : forall x ops,
  Inv x ->
  let id := s_next x in
  let x1 := fst (step code_fx x OSnapshot) in
  all_benign code_fx x1 ops = true ->
  let x2 := run code_fx x1 ops in
  In id (map fst (s_revs x2)) ->
  snd (step code_fx x2 (ORevert id)) = OutNone /\
  m_core (s_m (fst (step code_fx x2 (ORevert id)))) = m_core (s_m x) /\
  m_jr (s_m (fst (step code_fx x2 (ORevert id)))) = m_jr (s_m x) /\
  s_revs (fst (step code_fx x2 (ORevert id))) = s_revs x.
Proof. exact (revert_restores_gen code_fx). Qed.
Print Assumptions revert_restores_partial.

(* F8: the faithful model violates the full statement: account [16] has size counter 3; Snapshot,
   Suicide, RevertToSnapshot leaves the counter at 0 (balance and flag are restored). *)
Definition f8_core : core :=
  mkCore [([16%N], mkAcct 1 100 [1%N; 2%N] [([1%N], 1%N); ([2%N], 2%N); ([3%N], 3%N)] 3 false false)] 0 [] 0 [] [] [] [].
Definition f8_state : sdb := fresh f8_core [] 0.

Lemma f8_inv : Inv f8_state.
Proof. apply Inv_fresh. apply wf_coreb_WFc. vm_compute. reflexivity. Qed.

Theorem revert_restores_refuted : exists x ops,
  Inv x /\ In (s_next x) (map fst (s_revs (run false (fst (step false x OSnapshot)) ops))) /\
  m_core (s_m (fst (step false (run false (fst (step false x OSnapshot)) ops) (ORevert (s_next x))))) <> m_core (s_m x) /\
  option_map a_size (get [16%N] (objs (m_core (s_m (fst (step false (run false (fst (step false x OSnapshot)) ops) (ORevert (s_next x)))))))) = Some 0%Z.
Proof.
  exists f8_state, [OSuicide [16%N]]. split; [|split; [|split]].
  - exact f8_inv.
  - vm_compute. left. reflexivity.
  - vm_compute. intros H. discriminate H.
  - vm_compute. reflexivity.
Qed.
Print Assumptions revert_restores_refuted.

(* With the proposed repair (suicideChange records and restores the size counter) the full
   statement holds for EVERY history: F8 is the only defect of the journal with respect to [m_core]. *)
Theorem revert_restores_with_fix : forall x ops,
  Inv x ->
  let id := s_next x in
  let x2 := run true (fst (step true x OSnapshot)) ops in
  In id (map fst (s_revs x2)) ->
  snd (step true x2 (ORevert id)) = OutNone /\
  m_core (s_m (fst (step true x2 (ORevert id)))) = m_core (s_m x) /\
  m_jr (s_m (fst (step true x2 (ORevert id)))) = m_jr (s_m x) /\
  s_revs (fst (step true x2 (ORevert id))) = s_revs x.
Proof.
  intros x ops I id x2 Hin.
  exact (revert_restores_gen true x ops I (all_benign_fixed _ ops) Hin).
Qed.
Print Assumptions revert_restores_with_fix.

(* Siblings: whatever an earlier, completed part of the transaction did (ops1, with its own nested
   frames) is exactly what remains after a later frame (ops2) is reverted. *)
Theorem siblings_untouched : forall c d n ops1 ops2,
  WFc c ->
  let y := run code_fx (fresh c d n) ops1 in
  all_benign code_fx (fresh c d n) ops1 = true ->
  let id := s_next y in
  let y1 := fst (step code_fx y OSnapshot) in
  all_benign code_fx y1 ops2 = true ->
  In id (map fst (s_revs (run code_fx y1 ops2))) ->
  m_core (s_m (fst (step code_fx (run code_fx y1 ops2) (ORevert id)))) = m_core (s_m y) /\
  m_jr (s_m (fst (step code_fx (run code_fx y1 ops2) (ORevert id)))) = m_jr (s_m y).
Proof.
  intros c d n ops1 ops2 W y B1 id y1 B2 Hin.
  pose proof (Inv_run code_fx ops1 (fresh c d n) (Inv_fresh c d n W) B1) as I.
  destruct (revert_restores_gen code_fx y ops2 I B2 Hin) as (_ & E1 & E2 & _). split; assumption.
Qed.
Print Assumptions siblings_untouched.

(* Call frames (core/vm/evm.go: snapshot at entry, RevertToSnapshot on error): a frame is a mutator
   or a call/creation with a body of frames and an ending; [exec] threads a flag that stays true while
   every operation is a benign mutator.  A frame whose ending makes the EVM revert, at any nesting depth
   and whatever its sub-frames did, leaves accounts, refund, logs, preimages, access list, transient
   storage, journal and validRevisions exactly as at its entry.
   FULL STATEMENT = the same for every ending with [ending_failed e = true] and without the flag:
   refuted by [revert_restores_refuted] (SELFDESTRUCT of an account with a non-zero size counter) and by
   [failed_creation_leaves_no_trace_refuted] (code-store out of gas). *)
Theorem failed_frame_leaves_no_trace_partial : forall y body e,
  ending_reverts code_create_oog_reverts e = true ->
  Inv y -> snd (exec code_fx code_create_oog_reverts (FCall body e) (y, true)) = true ->
  let y' := fst (exec code_fx code_create_oog_reverts (FCall body e) (y, true)) in
  m_core (s_m y') = m_core (s_m y) /\ m_jr (s_m y') = m_jr (s_m y) /\ s_revs y' = s_revs y /\ Inv y'.
Proof.
  intros y body e R I H. cbn [exec fst snd] in *. rewrite R in *.
  destruct (failed_call code_fx y true _ (body_framed _ _ body _) I H) as (Ec & Ej & Er & _ & I').
  auto.
Qed.
Print Assumptions failed_frame_leaves_no_trace_partial.

(* EVM.create exempts ErrCodeStoreOutOfGas from the revert: a creation that fails in the code deposit
   keeps the new account (nonce 1, endowment) and everything its init code did. *)
Theorem failed_creation_leaves_no_trace_refuted : exists y body,
  Inv y /\ ending_failed EndCodeStoreOOG = true /\
  snd (exec false false (FCall body EndCodeStoreOOG) (y, true)) = true /\
  m_core (s_m (fst (exec false false (FCall body EndCodeStoreOOG) (y, true)))) <> m_core (s_m y).
Proof.
  exists f8_state, [FOp (OCreateAccount [17%N]); FOp (OSetNonce [17%N] 1); FOp (OSetState [17%N] [1%N] 7%N)].
  split; [exact f8_inv|].
  vm_compute. repeat split; try reflexivity. intros H. discriminate H.
Qed.
Print Assumptions failed_creation_leaves_no_trace_refuted.

(* with upstream's behaviour (revert on every error) every failed ending is covered by the theorem *)
Theorem every_failed_ending_reverts_with_fix : forall e, ending_failed e = true -> ending_reverts true e = true.
Proof. intros [] H; try reflexivity; discriminate H. Qed.
Print Assumptions every_failed_ending_reverts_with_fix.

(* Any frame preserves the invariant, so the theorem above applies again to the caller. *)
Theorem frames_preserve_invariant : forall f y b,
  Inv y -> snd (exec code_fx code_create_oog_reverts f (y, b)) = true ->
  Inv (fst (exec code_fx code_create_oog_reverts f (y, b))) /\
  (s_next y <= s_next (fst (exec code_fx code_create_oog_reverts f (y, b))))%N.
Proof.
  intros f y b I H. destruct (exec_framed code_fx code_create_oog_reverts f (y, b) H) as (_ & K).
  destruct (K I) as (I' & N' & _). split; assumption.
Qed.
Print Assumptions frames_preserve_invariant.

(* RevertToSnapshot of a valid revision never panics (no missing object is dereferenced by any
   journalEntry.revert) and consumes the revision: it can be reverted at most once. *)
Theorem revert_of_valid_revision_succeeds_once : forall x id,
  Inv x -> In id (map fst (s_revs x)) ->
  snd (step code_fx x (ORevert id)) = OutNone /\
  ~ In id (map fst (s_revs (fst (step code_fx x (ORevert id))))).
Proof.
  intros x id I Hin. apply in_map_iff in Hin as ([id' n] & E & Hin). cbn in E. subst id'.
  destruct (in_split _ _ Hin) as (l1 & l2 & Er).
  destruct (Inv_at x id n l1 l2 I Er) as (Old & _ & c & j & R & _).
  cbn [step]. rewrite Er, search_rev_found by (intros r Hr; apply Old, Hr). rewrite N.eqb_refl. unfold rewind. rewrite R.
  cbn [fst snd s_revs Nat.add]. split; [reflexivity|]. rewrite firstn_app_length.
  intros H. apply in_map_iff in H as (r & E & Hr). pose proof (proj1 (Old r Hr)). lia.
Qed.
Print Assumptions revert_of_valid_revision_succeeds_once.

(* An id that is not a valid revision: "revision id cannot be reverted", and nothing changes. *)
Theorem revert_of_invalid_revision_is_inert : forall x id,
  ~ In id (map fst (s_revs x)) -> step code_fx x (ORevert id) = (x, OutPanic).
Proof.
  intros x id Nin. destruct (step_revert code_fx x id) as [P|(l1 & n & l2 & E & _)]; [exact P|].
  exfalso. apply Nin. rewrite E, map_app. apply in_elt.
Qed.
Print Assumptions revert_of_invalid_revision_is_inert.

(* journal.dirties is the image of the journal (one count per entry whose dirtied() is an address),
   for histories without the storage-size setters and without a zero-value credit to the RIPEMD
   address. *)
Theorem dirties_are_journal_image_partial : forall c d n ops,
  dpos d -> forallb dirt_safe ops = true ->
  let x := run code_fx (fresh c d n) ops in
  m_dirt (s_m x) = dirt_of d (m_jr (s_m x)).
Proof.
  intros c d n ops P S x.
  apply (DI_run d code_fx ops (fresh c d n) P S). split; [reflexivity|constructor].
Qed.
Print Assumptions dirties_are_journal_image_partial.

(* FULL STATEMENT: journal.dirties after the revert = journal.dirties at the snapshot.  Proved for the
   same histories; refuted below for the size setters (sizeChange.revert calls the journalling setter). *)
Theorem dirties_restored_partial : forall d0 x ops,
  Inv x -> dpos d0 -> DI d0 (s_m x) -> forallb dirt_safe ops = true ->
  let id := s_next x in
  let x1 := fst (step code_fx x OSnapshot) in
  all_benign code_fx x1 ops = true ->
  let x2 := run code_fx x1 ops in
  In id (map fst (s_revs x2)) ->
  m_dirt (s_m (fst (step code_fx x2 (ORevert id)))) = m_dirt (s_m x).
Proof.
  intros d0 x ops I P D S id x1 B x2 Hin.
  destruct (revert_restores_gen code_fx x ops I B Hin) as (_ & _ & Ej & _). fold id x1 x2 in Ej.
  assert (D2 : DI d0 (s_m x2)) by (apply DI_run; [exact P|exact S|exact D]).
  pose proof (DI_step d0 code_fx x2 (ORevert id) P eq_refl D2) as [D3 _].
  rewrite D3, Ej. symmetry. apply D.
Qed.
Print Assumptions dirties_restored_partial.

Theorem dirties_restored_refuted : code_rejournal = true -> exists x ops,
  Inv x /\ all_benign false (fst (step false x OSnapshot)) ops = true /\
  m_core (s_m (fst (step false (run false (fst (step false x OSnapshot)) ops) (ORevert (s_next x))))) = m_core (s_m x) /\
  m_dirt (s_m (fst (step false (run false (fst (step false x OSnapshot)) ops) (ORevert (s_next x))))) <> m_dirt (s_m x).
Proof.
  intros Hrj.
  first [ exfalso; vm_compute in Hrj; discriminate Hrj
        | exists f8_state, [OAddSize [16%N]];
          split; [exact f8_inv
                 |split; [vm_compute; reflexivity
                         |split; [vm_compute; reflexivity|vm_compute; intros H; discriminate H]]] ].
Qed.
Print Assumptions dirties_restored_refuted.

(* The analytics counters SupplyAdded/SupplyRemoved are not journalled: a reverted credit stays
   counted (not part of any commitment; recorded as a limit, not as a finding). *)
Theorem supply_counters_restored_refuted : exists x ops,
  s_added (fst (step false (run false (fst (step false x OSnapshot)) ops) (ORevert (s_next x)))) <> s_added x.
Proof. exists f8_state, [OAddBalance [16%N] 5]. vm_compute. intros H. discriminate H. Qed.
Print Assumptions supply_counters_restored_refuted.

(* ---- EVM layer: ETXCache, CoinbaseDeletedHashes, CoinbasesDeleted and the lockup deletions staged in
   EVM.Batch (core/vm/evm.go snapshot/revertToSnapshot/UndoCoinbasesDeleted, contracts.go
   ClaimCoinbaseLockup).  [eexec fixd f st]: fixd = false is /repo, true the proposed repair. ---- *)

(* The pending outbound ETXs, the deleted-lockup hashes and the undo map are restored by a failing
   frame, for every call tree. *)
Theorem evm_side_lists_restored : forall body st,
  let st' := eexec code_fixd (ECall body true) st in
  e_etxs st' = e_etxs st /\ e_hashes st' = e_hashes st /\ e_deleted st' = e_deleted st /\ e_db st' = e_db st.
Proof. exact (failed_call_lists code_fixd). Qed.
Print Assumptions evm_side_lists_restored.

(* The outbound set: after any call tree without lockup claims the ETX cache holds, after what it held
   before, exactly the sends of the frames that ended well together with every frame around them, in
   program order - nothing sent inside a frame that failed, at any depth, whatever came after it. *)
Theorem outbound_set_is_kept_sends_partial : forall f st,
  no_claim f = true -> e_etxs (eexec code_fixd f st) = e_etxs st ++ kept f.
Proof. exact (eexec_kept code_fixd). Qed.
Print Assumptions outbound_set_is_kept_sends_partial.

Example outbound_set_nonvacuous :
  let t := ECall [EEmit 1; ECall [EEmit 2; ECall [EEmit 3] false] true; ECall [EEmit 4] false; EEmit 5] false in
  no_claim t = true /\ kept t = [1%N; 4%N; 5%N] /\ e_etxs (eexec code_fixd t (mkEvm [9%N] [] [] [] [])) = [9%N; 1%N; 4%N; 5%N].
Proof. vm_compute. auto. Qed.

(* FULL STATEMENT: forall body st k, lk_view (eexec false (ECall body true) st) k = lk_view st k
   (a failing frame leaves every lockup record as readable as before).  Proved for call trees that
   contain no claim; refuted below. *)
Theorem lockup_records_restored_partial : forall body st k,
  good st -> (code_fixd = true \/ forallb no_claim body = true) ->
  lk_view (eexec code_fixd (ECall body true) st) k = lk_view st k.
Proof.
  intros body st k G H. destruct code_fixd eqn:E; [apply failed_frame_lockups_fixed; exact G|].
  destruct H as [H|H]; [discriminate|].
  pose proof (no_claim_batch (ECall body true) st H) as B.
  destruct (failed_call_lists false body st) as (_ & _ & _ & D).
  unfold lk_view. rewrite B, D. reflexivity.
Qed.
Print Assumptions lockup_records_restored_partial.

(* F9: a claim inside a frame that then fails: the payout ETX and the undo record are dropped, the
   deletion staged in the batch stays; after the (failed) transaction and the block's batch write the
   record is gone although nothing was paid. *)
Definition f9_state : evmst := mkEvm [] [] [] [] [([1%N], [3%N; 232%N])].
Definition f9_tx : eframe := ECall [ECall [EClaim [1%N] 7 9] false] true.

Theorem lockup_records_restored_refuted : exists body st k,
  good st /\ lk_view st k <> None /\
  lk_view (eexec false (ECall body true) st) k = None /\
  e_etxs (eexec false (ECall body true) st) = [] /\
  get k (evm_commit (evm_tx false (ECall body true) st)) = None.
Proof.
  exists [ECall [EClaim [1%N] 7 9] false], f9_state, [1%N].
  split; [apply good_start|]. vm_compute. repeat split; try reflexivity. discriminate.
Qed.
Print Assumptions lockup_records_restored_refuted.

(* After a failed top-level frame UndoCoinbasesDeleted (applyTransaction) finds an empty map: it cannot
   repair anything. *)
Theorem undo_after_failed_transaction_is_noop : forall body st,
  e_deleted st = [] ->
  e_batch (evm_undo (eexec code_fixd (ECall body true) st)) = e_batch (eexec code_fixd (ECall body true) st).
Proof.
  intros body st E. destruct (failed_call_lists code_fixd body st) as (_ & _ & D & _). unfold evm_undo. cbn [e_batch].
  rewrite D, E. reflexivity.
Qed.
Print Assumptions undo_after_failed_transaction_is_noop.

(* With the proposed repair (revertToSnapshot puts back every record whose undo entry it drops) the
   full statement holds for every call tree, from every consistent EVM state. *)
Theorem lockup_records_restored_with_fix : forall body st k,
  good st -> lk_view (eexec true (ECall body true) st) k = lk_view st k.
Proof. exact failed_frame_lockups_fixed. Qed.
Print Assumptions lockup_records_restored_with_fix.

(* ---- the model's inventory is the source's inventory (generated from /repo on every run) ---- *)
Theorem journal_kinds_covered : journal_kinds_covered_b journal_kinds = true.
Proof. vm_compute. reflexivity. Qed.
Print Assumptions journal_kinds_covered.

Theorem statedb_mutators_covered : journalling_covered_b statedb_class statedb_journalling = true.
Proof. vm_compute. reflexivity. Qed.
Print Assumptions statedb_mutators_covered.

Theorem object_mutators_covered : journalling_covered_b object_class object_journalling = true.
Proof. vm_compute. reflexivity. Qed.
Print Assumptions object_mutators_covered.

Theorem evm_interface_covered : evm_interface_covered_b evm_statedb_interface statedb_journalling = true.
Proof. vm_compute. reflexivity. Qed.
Print Assumptions evm_interface_covered.

(* Every function of *EVM that runs code in a frame (Call, CallCode, DelegateCall, StaticCall, create -
   exactly these) takes the full EVM snapshot and reverts to it, and only snapshot()/revertToSnapshot()
   touch the bare StateDB revision: [ECall] models all call kinds. *)
Theorem evm_frames_covered : evm_frames_covered_b evm_frame_functions vm_raw_revision_users = true.
Proof. vm_compute. reflexivity. Qed.
Print Assumptions evm_frames_covered.

(* Every field of struct EVM assigned in package vm is one of the lists restored by revertToSnapshot or a
   classified non-effect; evmSnapshot has the four fields the model's [evm_revert] uses. *)
Theorem evm_side_state_covered : evm_side_state_covered_b evm_assigned_fields evm_snapshot_fields = true.
Proof. vm_compute. reflexivity. Qed.
Print Assumptions evm_side_state_covered.

(* the tables used by those checks describe the model *)
Theorem mutators_append_only_declared_kinds : forall fx o m,
  exists es, m_jr (fst (mutate fx o m)) = es ++ m_jr m /\ Forall (fun e => In (kind_of e) (op_kinds o)) es.
Proof. intros fx o m. exact (wrote_kinds _ _ _ m _ (mutate_wrote fx o m)). Qed.
Print Assumptions mutators_append_only_declared_kinds.

Theorem kind_tables_describe_model : forall e d,
  kind_dirties (kind_of e) = (match dirtied e with Some _ => true | None => false end) /\
  (kind_rejournals (kind_of e) = false -> undo_dirt e d = match dirtied e with Some a => ddec a d | None => d end).
Proof.
  intros e d. split; [destruct e; reflexivity|].
  destruct e; cbn [kind_rejournals kind_of undo_dirt dirtied]; intros H; try rewrite H; reflexivity.
Qed.
Print Assumptions kind_tables_describe_model.

(* ---- non-vacuity ---- *)
(* a benign history with nested frames, a reset of a live account, storage clearing, access list,
   transient storage, logs and refund, on a well-formed state; the outer snapshot stays valid *)
Definition nv_ops : list op :=
  [OAddBalance [17%N] 5; OSnapshot; OCreateAccount [16%N]; OSetState [16%N] [1%N] 7%N; OALSlot [16%N] [2%N];
   OSnapshot; OSetTransient [16%N] [1%N] 4%N; OAddLog 9; ORevert 2; OAddRefund 3; OSetState [17%N] [1%N] 1%N;
   OSetState [17%N] [1%N] 0%N; OSetNonce [17%N] 4].

Example revert_restores_nonvacuous :
  Inv f8_state /\
  all_benign code_fx (fst (step code_fx f8_state OSnapshot)) nv_ops = true /\
  In (s_next f8_state) (map fst (s_revs (run code_fx (fst (step code_fx f8_state OSnapshot)) nv_ops))) /\
  length (m_jr (s_m (run code_fx (fst (step code_fx f8_state OSnapshot)) nv_ops))) = 10 /\
  forallb dirt_safe nv_ops = true.
Proof.
  split; [exact f8_inv|].
  vm_compute. repeat split; auto.
Qed.

Example mutator_is_undone_nonvacuous :
  WFc f8_core /\ benign code_fx (OSetState [16%N] [2%N] 0%N) (mkM f8_core [] []) = true /\
  m_jr (fst (mutate code_fx (OSetState [16%N] [2%N] 0%N) (mkM f8_core [] []))) = [EStorage [16%N] [2%N] 2%N].
Proof. split; [exact (inv_wf _ f8_inv)|]. vm_compute. auto. Qed.

Example with_fix_nonvacuous :
  In 0%N (map fst (s_revs (run true (fst (step true f8_state OSnapshot)) [OSuicide [16%N]]))) /\
  m_jr (s_m (run true (fst (step true f8_state OSnapshot)) [OSuicide [16%N]])) = [ESuicide [16%N] false 100 (Some 3%Z)].
Proof. vm_compute. auto. Qed.

(* a call tree: a failing call containing a failing and a successful sub-call *)
Definition nv_tree : list frame :=
  [FOp (OAddBalance [17%N] 5);
   FCall [FOp (OSetState [16%N] [1%N] 0%N); FCall [FOp (OSetNonce [16%N] 9)] EndFail; FOp (OAddLog 1)] EndOk;
   FCall [FOp (OCreateAccount [16%N]); FOp (OSetTransient [16%N] [1%N] 2%N)] EndFail;
   FOp (OALSlot [17%N] [3%N])].

Example failed_frame_nonvacuous :
  ending_reverts code_create_oog_reverts EndFail = true /\
  snd (exec code_fx code_create_oog_reverts (FCall nv_tree EndFail) (f8_state, true)) = true /\
  s_next (fst (exec code_fx code_create_oog_reverts (FCall nv_tree EndFail) (f8_state, true))) = 4%N /\
  length (m_jr (s_m (fst (fold_left (fun acc g => exec code_fx code_create_oog_reverts g acc) nv_tree (fst (step code_fx f8_state OSnapshot), true))))) = 6.
Proof. vm_compute. auto. Qed.

Example evm_nonvacuous :
  good f9_state /\ lk_view f9_state [1%N] = Some [3%N; 232%N] /\
  e_etxs (eexec false (ECall [ECall [EClaim [1%N] 7 9] false] false) f9_state) = [7%N] /\
  lk_view (eexec true f9_tx f9_state) [1%N] = Some [3%N; 232%N] /\
  forallb no_claim [EEmit 4; ECall [EEmit 5] true] = true.
Proof. split; [apply good_start|]. vm_compute. auto. Qed.


(* ================= storage of a slot over the transactions of a block =================
   [lslot] = the three caches a live state object keeps for one slot: dirtyStorage (current transaction),
   pendingStorage (earlier transactions of the block), originStorage (cache of the trie value), the trie
   value, the slot's storageChange entries, membership in stateObjectsPending.  [l_block true b s] runs
   transactions (trees of frames writing the slot) separated by Finalize or IntermediateRoot.
   [alpha s] = (value GetState returns, value GetCommittedState returns, trie value, journal, pending flag). *)

(* Generated from core/state: storageChange.revert is exactly obj.setState(ch.key, ch.prevalue) and
   stateObject.setState is exactly s.dirtyStorage[key] = value.  The theorems below are about this
   variant ([plain = true]); the correspondence cases CL run the variant the source has. *)
Theorem storage_revert_is_plain_write : code_storage_revert_plain = true.
Proof. vm_compute. reflexivity. Qed.
Print Assumptions storage_revert_is_plain_write.

(* Whatever the earlier transactions of the block did, the caches satisfy the invariant the next
   theorems assume (origin entry = trie value; pending entries only for accounts in
   stateObjectsPending; a written slot has its origin cached; journal entries imply a dirty entry;
   rewinding the whole journal gives the committed value). *)
Theorem storage_caches_invariant_reachable : forall b0 b pre,
  LInv (l_frames true pre (l_block true b (l_fresh b0))).
Proof. intros b0 b pre. exact (proj2 (sim_inv _ _ (sim_frames pre _ _ (sim_block b _ _ (LInv_sim _ (LInv_fresh b0)))))). Qed.
Print Assumptions storage_caches_invariant_reachable.

(* The three-level lookup refines a flat slot: running any block on the caches and then reading
   (visible value, committed value, trie value, journal) is running the block on the flat slot. *)
Theorem storage_caches_refine_flat_slot : forall b s, LInv s ->
  alpha (l_block true b s) = f_block b (alpha s) /\ LInv (l_block true b s).
Proof.
  intros b s I. exact (sim_inv _ _ (sim_block b s _ (LInv_sim s I))).
Qed.
Print Assumptions storage_caches_refine_flat_slot.

(* Storage clause over multi-transaction histories: a frame that fails - in any transaction of the
   block, after any frames of that transaction, whatever its sub-frames did - leaves the value GetState
   returns, the value that will be committed, the trie, the journal and the pending flag exactly as at
   frame entry: in particular it does not resurrect what an earlier transaction left in pendingStorage,
   and keeps what a sibling frame that completed earlier wrote. *)
Theorem failed_frame_restores_slot_in_any_transaction : forall s body, LInv s ->
  alpha (l_exec true (LCall body true) s) = alpha s /\ LInv (l_exec true (LCall body true) s).
Proof.
  intros s body I. destruct (sim_inv _ _ (sim_exec (LCall body true) s _ (LInv_sim s I))) as (A & I').
  split; [|exact I']. rewrite A. apply f_failed.
Qed.
Print Assumptions failed_frame_restores_slot_in_any_transaction.

(* Erasure: a block equals the block without its failed frames (nested ones included), for every
   block-start value: same visible value, committed value, trie value afterwards. *)
Theorem block_equals_block_without_failed_frames : forall b0 b,
  alpha (l_block true b (l_fresh b0)) = alpha (l_block true (erase_block b) (l_fresh b0)).
Proof.
  intros b0 b. pose proof (LInv_sim _ (LInv_fresh b0)) as H.
  rewrite (proj1 (sim_block b _ _ H)), (proj1 (sim_block (erase_block b) _ _ H)).
  symmetry. apply f_erase_block.
Qed.
Print Assumptions block_equals_block_without_failed_frames.

(* Why the obligation storage_revert_is_plain_write matters: with the origin-aware revert (drop the
   dirty entry when the restored value equals originStorage[key]) the statement is false.  Block-start
   value 0; transaction 1 writes 5; transaction 2: a frame that completes writes 0, a frame that writes
   9 fails: the slot reads 5. *)
Theorem origin_aware_storage_revert_refuted :
  exists b0 b pre body, let s := l_frames false pre (l_block false b (l_fresh b0)) in
    l_vis s = 0%N /\ l_vis (l_exec false (LCall body true) s) = 5%N.
Proof.
  exists 0%N, [([LSet 5%N], false)], [LCall [LSet 0%N] false], [LSet 9%N]. vm_compute. split; reflexivity.
Qed.
Print Assumptions origin_aware_storage_revert_refuted.

Example slot_across_transactions_nonvacuous :
  let s := l_frames true [LCall [LSet 0%N] false] (l_block true [([LSet 5%N], false)] (l_fresh 0%N)) in
  l_pending s = Some 5%N /\ l_origin s = Some 0%N /\ l_dirty s = Some 0%N /\ l_jr s = [5%N] /\
  l_vis (l_exec true (LCall [LSet 9%N; LCall [LSet 5%N] true] true) s) = 0%N /\
  erase_block [([LSet 5%N], false); ([LCall [LSet 0%N] false; LCall [LSet 9%N] true], true)]
    = [([LSet 5%N], false); ([LCall [LSet 0%N] false], true)].
Proof. vm_compute. repeat split; reflexivity. Qed.


(* ---------- one account over the transactions of a block: Finalize / IntermediateRoot / Commit and the
   snapshot-side bookkeeping (Model/C12_Fin.v) ----------
   [fa_op snap o] = CreateAccount / AddBalance / SetNonce / SetCode / Suicide on the account (createObject with
   createObjectChange or resetObjectChange{prev, prevdestruct}, getStateObject hiding an object deleted by an
   earlier transaction); [snap] = the StateDB reads through a snapshot layer (snapDestructs / snapAccounts are
   kept); [fa_finalize] / [fa_root] = StateDB.Finalize(true) / IntermediateRoot(true); [fa_commit] = what
   Commit hands to the database and to snaps.Update for the address.  A state is object, snapDestructs and
   snapAccounts membership, journal, journal.dirties, stateObjectsPending / stateObjectsDirty membership,
   account trie entry. *)

(* Every mutator only appends journal entries; undoing them gives back EXACTLY the state it started from,
   all eight components. *)
Theorem account_mutator_is_undone_by_its_entries : forall snap o s, FInv s ->
  (exists k, length (fa_jr (fa_op snap o s)) = k + length (fa_jr s) /\ fa_pop snap k (fa_op snap o s) = s)
  /\ FInv (fa_op snap o s).
Proof. intros snap o s I. destruct (keeps_op snap o s I) as (A & I' & _). split; assumption. Qed.
Print Assumptions account_mutator_is_undone_by_its_entries.

(* Whatever the earlier transactions and the earlier frames of this transaction did, the state satisfies
   the invariants the next theorems assume: an address without object is not in stateObjectsDirty (so the
   delete in createObjectChange.revert is a no-op), and journal.dirties[addr] is the number of pending
   entries whose dirtied() is not nil (no leak, no underflow, through every revert and every boundary). *)
Theorem account_invariants_reachable : forall snap base b pre,
  FInv (fa_frames snap pre (fa_block snap b (fa_fresh base)))
  /\ DInv (fa_frames snap pre (fa_block snap b (fa_fresh base))).
Proof.
  intros snap base b pre.
  destruct (Inv_block snap b (fa_fresh base) (FInv_fresh base)) as (I & D).
  destruct (keeps_frames snap pre _ I) as (_ & I' & D').
  split; [exact I'|exact (D' (D (DInv_fresh base)))].
Qed.
Print Assumptions account_invariants_reachable.

(* The property for the account clauses over whole blocks: a frame that fails - in any transaction, after
   any frames, whatever its sub-frames did (re-creations over a live / deleted / absent account,
   self-destructs, nested failing and completing frames), with or without a snapshot layer - leaves the
   object, snapDestructs, snapAccounts, the journal, journal.dirties, the pending / dirty sets and the
   account trie exactly as at frame entry. *)
Theorem failed_frame_restores_account_and_snapshot_bookkeeping : forall snap base b pre body,
  let s := fa_frames snap pre (fa_block snap b (fa_fresh base)) in
  fa_exec snap (FFCall body true) s = s.
Proof. intros snap base b pre body s. apply fa_failed. apply account_invariants_reachable. Qed.
Print Assumptions failed_frame_restores_account_and_snapshot_bookkeeping.

(* Siblings: what the frames that completed before did is exactly what remains. *)
Theorem account_siblings_untouched : forall snap s pre body, FInv s ->
  fa_frames snap (pre ++ [FFCall body true]) s = fa_frames snap pre s.
Proof.
  intros snap s pre body I. rewrite fa_frames_app. apply fa_failed. apply (keeps_frames snap pre s I).
Qed.
Print Assumptions account_siblings_untouched.

(* A revert leaves no trace at the next Commit: a block and the block without its failed frames (nested
   ones included; [ferase] removes them, see the next theorem) reach the same state after every
   transaction boundary, and Commit writes the same account entry, the same destruct mark and the same
   snapshot account entry. *)
Theorem account_block_equals_block_without_failed_frames : forall snap base b,
  fa_block snap (ferase_block b) (fa_fresh base) = fa_block snap b (fa_fresh base)
  /\ fa_commit snap (fa_block snap (ferase_block b) (fa_fresh base)) = fa_commit snap (fa_block snap b (fa_fresh base)).
Proof.
  intros snap base b. rewrite (fa_erase_block snap b _ (FInv_fresh base)). split; reflexivity.
Qed.
Print Assumptions account_block_equals_block_without_failed_frames.

Theorem erased_frames_never_fail : forall f, forallb no_fail (ferase f) = true.
Proof.
  induction f as [o|body fails IHb] using fframe_ind'; [reflexivity|].
  destruct fails; [reflexivity|]. cbn [ferase forallb no_fail negb andb]. rewrite andb_true_r.
  induction IHb as [|g l Hg _ IH]; [reflexivity|]. cbn [flat_map]. rewrite forallb_app, Hg, IH. reflexivity.
Qed.
Print Assumptions erased_frames_never_fail.

(* The snapshot layer only adds bookkeeping: object, journal length, dirties, pending / dirty sets, account
   trie entry and the account entry written by Commit are the same with and without it, for every block. *)
Theorem snapshot_layer_does_not_change_account_result : forall b base,
  fa_obj (fa_block true b (fa_fresh base)) = fa_obj (fa_block false b (fa_fresh base))
  /\ fa_trie (fa_block true b (fa_fresh base)) = fa_trie (fa_block false b (fa_fresh base))
  /\ fst (fst (fa_commit true (fa_block true b (fa_fresh base)))) = fst (fst (fa_commit false (fa_block false b (fa_fresh base)))).
Proof.
  intros b base. pose proof (nosnap_block true b (fa_fresh base)) as E.
  change (nosnap (fa_fresh base)) with (fa_fresh base) in E.
  rewrite <- E. repeat split. unfold fa_commit. cbn [fst]. rewrite <- (nosnap_root true). reflexivity.
Qed.
Print Assumptions snapshot_layer_does_not_change_account_result.

(* Non-vacuity, and the two shapes the prevdestruct field exists for.  Parent state: balance 7.
   (1) transaction 1 self-destructs (Finalize marks the destruct); in transaction 2 a frame re-creates the
   account, credits it and fails: the object is the deleted one again and the mark is STILL there;
   (2) no earlier destruct: the failed re-creation's mark is removed again;  (3) the journal of the failed
   frame held three entries. *)
Example account_block_nonvacuous :
  let base := Some (0%N, 7%Z, false) in
  let s1 := fa_block true [([FFOp FSuicide], false)] (fa_fresh base) in
  let body := [FFOp FCreate; FFOp (FCredit 4%Z); FFOp (FSetNonce 1%N)] in
  fa_destruct s1 = true /\ fa_obj s1 = Some (mkO 0 0 false true true)
  /\ fa_destruct (fa_frames true body s1) = true /\ length (fa_jr (fa_frames true body s1)) = 3
  /\ fa_exec true (FFCall body true) s1 = s1
  /\ fa_destruct (fa_frames true body (fa_fresh base)) = true
  /\ fa_exec true (FFCall body true) (fa_fresh base) = fa_fresh base
  /\ fa_commit true (fa_block true [([FFOp FSuicide], false); ([FFCall body true; FFOp (FCredit 4%Z)], false)] (fa_fresh base))
     = (Some (0%N, 4%Z, false), true, true).
Proof. vm_compute. repeat split; reflexivity. Qed.
