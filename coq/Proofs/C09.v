(* C09 — the predicates the theorems of Props/C09.v are stated with beyond the model's (zone_block, valid_chain, the two
   collisions, matured, terminus_view, accepted_by, ...) and the lemmas behind those theorems: difficulty retarget, CalcOrder,
   entropy accumulation, what verifyHeader's acceptance says, the CalcOrder memo, the expansion number, the block store. *)
From Coq Require Import List ZArith Bool Lia.
From GQ Require Import Lib.Key Lib.SMap Lib.Lists Generated.C09Params Model.C09 Proofs.C09_Log.
Import ListNotations.
Local Open Scope Z_scope.

Lemma ctx_values : ctx_prime = 0 /\ ctx_region = 1 /\ ctx_zone = 2.
Proof. repeat split; reflexivity. Qed.

Lemma retarget_floor dl mind pd pt gpt : mind <= retarget dl mind pd pt gpt.
Proof. unfold retarget. cbv zeta. destruct (_ <? mind) eqn:E; lia. Qed.

Definition adjustment (dl pd td : Z) : Z :=
  (dl - td) * pd * Z.log2 pd / (dl * difficulty_adjustment_factor * difficulty_adjustment_period).

Lemma adjustment_divisor_pos dl : 0 < dl -> 0 < dl * difficulty_adjustment_factor * difficulty_adjustment_period.
Proof.
  intros Hdl. assert (0 < difficulty_adjustment_factor) by reflexivity.
  assert (0 < difficulty_adjustment_period) by reflexivity. nia.
Qed.

Lemma retarget_eq dl mind pd pt gpt : 0 < dl ->
  retarget dl mind pd pt gpt = Z.max mind (pd + adjustment dl pd (Z.min max_time_diff_between_blocks (pt - gpt))).
Proof.
  intros Hdl. unfold retarget, adjustment. cbv zeta.
  assert (0 < difficulty_adjustment_factor) by reflexivity. assert (0 < difficulty_adjustment_period) by reflexivity.
  rewrite !Z.div_div, Z.mul_assoc by nia.
  destruct (Z.ltb_spec max_time_diff_between_blocks (pt - gpt)); [rewrite Z.min_l by lia|rewrite Z.min_r by lia];
    cbv iota; destruct (_ <? mind) eqn:E; lia.
Qed.

Lemma adjustment_antitone dl pd td td' : 0 < dl -> 0 <= pd -> td <= td' -> adjustment dl pd td' <= adjustment dl pd td.
Proof.
  intros Hdl Hpd Ht. apply Z.div_le_mono; [apply adjustment_divisor_pos; exact Hdl|].
  pose proof (Z.log2_nonneg pd). assert (0 <= pd * Z.log2 pd) by nia. nia.
Qed.

Lemma adjustment_at_limit dl pd : adjustment dl pd dl = 0.
Proof. unfold adjustment. rewrite Z.sub_diag. reflexivity. Qed.

Lemma adjustment_at_zero dl pd : 0 < dl ->
  adjustment dl pd 0 = pd * Z.log2 pd / (difficulty_adjustment_factor * difficulty_adjustment_period).
Proof.
  intros Hdl. unfold adjustment. rewrite Z.sub_0_r, <- !Z.mul_assoc. apply Z.div_mul_cancel_l; [discriminate|lia].
Qed.

(* floor division: (- w) / D >= - (w / D) - 1 *)
Lemma adjustment_lower_bound dl pd td : 0 < dl ->
  - (pd * Z.log2 pd * (td - dl) / (dl * difficulty_adjustment_factor * difficulty_adjustment_period)) - 1
    <= adjustment dl pd td.
Proof.
  intros Hdl. unfold adjustment.
  set (D := dl * difficulty_adjustment_factor * difficulty_adjustment_period).
  assert (HD : 0 < D) by (apply adjustment_divisor_pos; exact Hdl).
  set (w := pd * Z.log2 pd * (td - dl)). replace ((dl - td) * pd * Z.log2 pd) with (- w) by (subst w; ring).
  apply Z.div_le_lower_bound; [exact HD|].
  pose proof (Z.div_mod w D ltac:(lia)). pose proof (Z.mod_pos_bound w D HD). lia.
Qed.

Lemma calc_order_ok_inv h ie o : calc_order h = CoOk ie o -> num64 h <> 0 ->
  ie = intrinsic_entropy (h_pow h) /\ 0 < h_pow h <= big2e256 / h_diff h /\ 2 <= h_diff h /\
  (o = ctx_prime \/ o = ctx_region \/ o = ctx_zone) /\
  (o = ctx_prime ->
   let zt := intrinsic_entropy (crop_hash (big2e256 / h_diff h)) in
   let pet := prime_entropy_target (h_expansion h) in
   zt + bits_to_bigbits pet < ie /\ pet * zt / big2 < h_pd_r h + h_pd_z h + ie).
Proof.
  unfold calc_order. intros H Hn.
  destruct (Z.eqb_spec (num64 h) 0); [contradiction|].
  destruct (Z.leb_spec (h_diff h) 0); [discriminate|].
  destruct (Z.ltb_spec (big2e256 / h_diff h) (h_pow h)); [discriminate|].
  destruct (Z.leb_spec (h_pow h) 0); [discriminate|].
  destruct (Z.leb_spec (crop_hash (big2e256 / h_diff h)) 0) as [Hc|Hc]; [discriminate|].
  assert (Hd : 2 <= h_diff h).
  { (* difficulty 1: the target 2^256 is cropped to the zero hash *)
    destruct (Z.eq_dec (h_diff h) 1) as [E|NE]; [|lia].
    rewrite E in Hc. unfold crop_hash in Hc. rewrite Z.div_1_r, Z.mod_same in Hc by discriminate. lia. }
  (* prime order is the answer of the first branch only, taken when both of its tests succeed *)
  cbv zeta in *. destruct (_ && _) eqn:P in H; [|destruct (_ && _) in H]; injection H as <- <-.
  - apply andb_prop in P. rewrite !Z.ltb_lt in P. repeat split; auto; lia.
  - repeat split; auto; lia || discriminate.
  - repeat split; auto; lia || discriminate.
Qed.

Lemma calc_order_entropy_pos h ie o : calc_order h = CoOk ie o -> num64 h <> 0 -> 2 ^ mant_bits <= ie.
Proof.
  intros H Hn. destruct (calc_order_ok_inv h ie o H Hn) as (E & Hp & Hd & _). subst ie.
  apply intrinsic_entropy_lower_bound with (d := h_diff h); lia.
Qed.

Lemma calc_order_genesis_number h : num64 h = 0 -> calc_order h = CoOk 0 ctx_prime.
Proof. intros H. unfold calc_order. rewrite H. reflexivity. Qed.

Lemma total_zone_order h ie : h_genesis h = false -> calc_order h = CoOk ie ctx_zone ->
  total_entropy ctx_zone h = h_pe_z h + ie + h_ws h.
Proof. intros Hg H. unfold total_entropy, total_entropy_of. rewrite Hg, H. cbn. lia. Qed.

Lemma delta_zone_order h ie : h_genesis h = false -> calc_order h = CoOk ie ctx_zone ->
  delta_entropy ctx_zone h = h_pd_z h + ie + h_ws h.
Proof. intros Hg H. unfold delta_entropy, delta_entropy_of. rewrite Hg, H. cbn. lia. Qed.

Lemma uncled_delta_zone_order h ie : h_genesis h = false -> calc_order h = CoOk ie ctx_zone ->
  uncled_delta_entropy h = h_pud_z h + h_uncled h.
Proof. intros Hg H. unfold uncled_delta_entropy, uncled_delta_entropy_of. rewrite Hg, H. reflexivity. Qed.

Lemma total_region_order ctx h ie : h_genesis h = false -> calc_order h = CoOk ie ctx_region ->
  total_entropy ctx h = h_pe_r h + h_pd_z h + ie + (if ctx =? ctx_zone then h_ws h else 0).
Proof. intros Hg H. unfold total_entropy, total_entropy_of. rewrite Hg, H. cbn. destruct (ctx =? ctx_zone); lia. Qed.

Lemma total_prime_order ctx h ie : h_genesis h = false -> calc_order h = CoOk ie ctx_prime ->
  total_entropy ctx h = h_pe_p h + h_pd_r h + h_pd_z h + ie + (if ctx =? ctx_zone then h_ws h else 0).
Proof. intros Hg H. unfold total_entropy, total_entropy_of. rewrite Hg, H. cbn. destruct (ctx =? ctx_zone); lia. Qed.

Lemma expected_parent_deltas p ie o : calc_order p = CoOk ie o ->
  expected_parent_delta p = (if o <? ctx_zone then 0 else delta_entropy ctx_zone p) /\
  expected_parent_uncled_delta p = (if o <? ctx_zone then 0 else uncled_delta_entropy p).
Proof.
  intros H. unfold expected_parent_delta, expected_parent_delta_of, delta_entropy,
    expected_parent_uncled_delta, expected_parent_uncled_delta_of, uncled_delta_entropy.
  rewrite H. split; reflexivity.
Qed.

Lemma valid_child_fast_eq e p c : valid_child_fast e p c = valid_child e p c.
Proof. reflexivity. Qed.

Lemma opt_eqb_iff a b : opt_eqb a b = true <-> a = Some b.
Proof. destruct a as [x|]; cbn; [rewrite Z.eqb_eq|]; split; congruence. Qed.

Lemma rule_parent_order_iff p : rule_parent_order p = true <-> exists ie o, calc_order p = CoOk ie o /\ o <= ctx_zone.
Proof.
  unfold rule_parent_order, rule_parent_order_of. destruct (calc_order p) as [ie o| |]; cbn [order_of].
  - rewrite Z.leb_le. split; [intros H; exists ie, o; auto|intros (? & ? & [= <- <-] & H); exact H].
  - split; [discriminate|intros (? & ? & [=] & _)].
  - split; [discriminate|intros (? & ? & [=] & _)].
Qed.

Set Implicit Arguments.
(* what verifyHeader's acceptance says, rule by rule *)
Record accepted (e : env) (p c : header) : Prop := {
  acc_time : h_time p <= h_time c <= e_now e + allowed_future_block_time;
  acc_difficulty : expected_difficulty e p = Some (h_diff c);
  acc_parent_order : exists ie o, calc_order p = CoOk ie o /\ o <= ctx_zone;
  acc_parent_entropy : h_pe_z c = expected_parent_entropy p;
  acc_parent_delta : h_pd_z c = expected_parent_delta p;
  acc_parent_uncled_delta : h_pud_z c = expected_parent_uncled_delta p;
  acc_expansion : expected_expansion e p = Some (h_expansion c);
  acc_gas : h_gas_limit c = expected_gas_limit e p /\ h_gas_used c <= h_gas_limit c <= 2 ^ 63 - 1;
  acc_state : h_state_limit c = expected_state_limit p /\ h_state_used c <= h_state_limit c;
  acc_base_fee : h_base_fee c = expected_base_fee e p;
  acc_prime_terminus : h_pt_hash c = expected_pt_hash p /\ h_pt_num c = expected_pt_num p;
  acc_number : h_num c = expected_number p
}.
Unset Implicit Arguments.

Theorem valid_child_accepted e p c : valid_child e p c = true <-> accepted e p c.
Proof.
  unfold valid_child. rewrite !andb_true_iff, rule_parent_order_iff.
  unfold rule_difficulty, rule_expansion. rewrite !opt_eqb_iff.
  (* the other rules are boolean comparisons of integers, which lia reads *)
  unfold rule_time_future, rule_time_parent, rule_parent_entropy, rule_parent_delta, rule_parent_uncled_delta,
    rule_gas, rule_state, rule_base_fee, rule_pt, rule_number.
  split.
  - intros H. decompose [and] H. constructor; assumption || lia.
  - intros []. repeat split; assumption || lia.
Qed.

Lemma wrong_number_rejected e p c : h_num c <> expected_number p -> valid_child e p c = false.
Proof. intros Hn. apply not_true_is_false. intros V. apply valid_child_accepted in V. exact (Hn (acc_number V)). Qed.

Lemma parent_entropy_accumulated e p c : valid_child e p c = true ->
  h_pe_z c = total_entropy ctx_zone p.
Proof. intros V. apply valid_child_accepted in V. exact (acc_parent_entropy V). Qed.

Definition own_entropy (h : header) : Z := intrinsic_entropy (h_pow h) + h_ws h.

Definition zone_block (h : header) : bool :=
  negb (h_genesis h) && negb (num64 h =? 0) && (0 <=? h_ws h) &&
  match calc_order h with CoOk _ o => o =? ctx_zone | _ => false end.

Lemma zone_block_inv h : zone_block h = true ->
  h_genesis h = false /\ num64 h <> 0 /\ 0 <= h_ws h /\ calc_order h = CoOk (intrinsic_entropy (h_pow h)) ctx_zone.
Proof.
  unfold zone_block. rewrite !andb_true_iff, !negb_true_iff, Z.eqb_neq, Z.leb_le. intros [[[H1 H2] H3] H4].
  destruct (calc_order h) as [ie o| |] eqn:E; try discriminate. apply Z.eqb_eq in H4. subst o.
  destruct (calc_order_ok_inv h ie _ E H2) as (Ei & _). subst ie. auto.
Qed.

Lemma entropy_step e p c : valid_child e p c = true -> zone_block c = true ->
  total_entropy ctx_zone c = total_entropy ctx_zone p + own_entropy c /\
  total_entropy ctx_zone p < total_entropy ctx_zone c.
Proof.
  intros V Z. destruct (zone_block_inv c Z) as (Hg & Hn & Hw & Ho).
  rewrite (total_zone_order c _ Hg Ho), (parent_entropy_accumulated _ _ _ V). unfold own_entropy.
  pose proof (calc_order_entropy_pos c _ _ Ho Hn) as Hpos.
  pose proof (pow2_gt0 mant_bits). pose proof mant_bits_ge1. lia.
Qed.

Fixpoint valid_chain (p : header) (l : list (env * header)) : bool :=
  match l with
  | [] => true
  | (e, c) :: l' => valid_child e p c && valid_chain c l'
  end.

Definition chain_last (p : header) (l : list (env * header)) : header := last (map snd l) p.
Definition chain_totals (p : header) (l : list (env * header)) : list Z :=
  map (total_entropy ctx_zone) (p :: map snd l).

Section Run.
  Variables (S O R : Type) (step : S -> O -> S * R) (run : S -> list O -> list R) (spec : O -> R).
  Variables (Inv : S -> Prop) (ok : O -> Prop) (Bad : Prop).
  (* the model's [cache_run] and [hist_run ctx] satisfy both equations by computation *)
  Hypothesis run_nil : forall s, run s [] = [].
  Hypothesis run_cons : forall s o ops, run s (o :: ops) = let '(s', r) := step s o in r :: run s' ops.
  Hypothesis step_sound : forall s o, Inv s -> ok o ->
    (exists s', step s o = (s', spec o) /\ Inv s') \/ Bad.

  Lemma run_sound : forall ops s, Inv s -> Forall ok ops -> run s ops = map spec ops \/ Bad.
  Proof.
    intros ops s Hinv Hok. revert s Hinv.
    induction Hok as [|o ops Ho _ IH]; intros s Hinv; [left; apply run_nil|].
    destruct (step_sound s o Hinv Ho) as [(s' & E & Hinv')|B]; [|right; exact B].
    rewrite run_cons, E. cbn [map].
    destruct (IH s' Hinv') as [->|B]; [left; reflexivity|right; exact B].
  Qed.
End Run.
Arguments run_sound {S O R step run spec Inv ok Bad} run_nil run_cons step_sound ops s.

Lemma co_result_eq_dec (a b : co_result) : {a = b} + {a <> b}.
Proof. decide equality; apply Z.eq_dec. Qed.

Definition uncached (o : cache_op) : option co_result :=
  match o with OpCall h => Some (calc_order h) | _ => None end.

Section Memo.
  (* the headers a history may call CalcOrder on *)
  Variable P : header -> Prop.

  Definition collision : Prop :=
    exists h1 h2, P h1 /\ P h2 /\ hkey h1 = hkey h2 /\ calc_order h1 <> calc_order h2.

  Definition cache_inv (c : cache) : Prop :=
    sorted c /\ forall k e o, cache_lookup c k = Some (e, o) -> exists h, P h /\ hkey h = k /\ calc_order h = CoOk e o.

  Lemma cache_inv_empty : cache_inv [].
  Proof. split; [exact I|discriminate]. Qed.

  Lemma cache_inv_add c h e o : cache_inv c -> P h -> calc_order h = CoOk e o ->
    cache_inv (cache_add c (hkey h) e o).
  Proof.
    intros [Hs Hinv] Ph Ho. unfold cache_add. destruct (e =? 0) eqn:Ez; [split; assumption|].
    split; [apply put_sorted; exact Hs|].
    intros k e' o'. unfold cache_lookup. rewrite get_put. destruct (keqb k (hkey h)) eqn:K; [|apply Hinv].
    apply keqb_eq in K as ->. rewrite Ez. intros [= <- <-]. exists h. auto.
  Qed.

  Lemma cache_inv_del c k : cache_inv c -> cache_inv (del k c).
  Proof.
    intros [Hs Hinv]. split; [apply del_sorted; exact Hs|].
    intros k' e o. unfold cache_lookup. rewrite get_del by exact Hs. destruct (keqb k' k); [discriminate|apply Hinv].
  Qed.

  Lemma calc_order_cached_sound c h : cache_inv c -> P h ->
    (exists c', calc_order_cached c h = (c', calc_order h) /\ cache_inv c') \/ collision.
  Proof.
    intros Hinv Ph. unfold calc_order_cached.
    destruct (cache_lookup c (hkey h)) as [[e0 o0]|] eqn:G.
    - destruct (proj2 Hinv _ _ _ G) as (h' & Ph' & Hk & Hco).
      destruct (co_result_eq_dec (calc_order h) (calc_order h')) as [E|N].
      + left. exists c. rewrite E, Hco. split; [reflexivity|exact Hinv].
      + right. exists h, h'. auto.
    - left. destruct (calc_order h) as [e1 o1| |] eqn:Eco; try (exists c; split; [reflexivity|exact Hinv]).
      destruct (num64 h =? 0); eexists; (split; [reflexivity|]); [exact Hinv|apply cache_inv_add; assumption].
  Qed.

  Lemma cache_step_sound c o : cache_inv c -> (forall h, o = OpCall h -> P h) ->
    (exists c', cache_step c o = (c', uncached o) /\ cache_inv c') \/ collision.
  Proof.
    intros Hinv Ho. destruct o as [h|k|]; cbn [cache_step uncached].
    - destruct (calc_order_cached_sound c h Hinv (Ho h eq_refl)) as [(c' & -> & Hinv')|B]; [left|right; exact B].
      exists c'. split; [reflexivity|exact Hinv'].
    - left. eexists. split; [reflexivity|apply cache_inv_del; exact Hinv].
    - left. eexists. split; [reflexivity|apply cache_inv_empty].
  Qed.

  Lemma hist_step_sound ctx c o : cache_inv c -> (forall f h, o = HCall f h -> P h) ->
    (exists c', hist_step ctx c o = (c', hist_uncached ctx o) /\ cache_inv c') \/ collision.
  Proof.
    intros Hinv Ho. destruct o as [f h|k|]; cbn [hist_step hist_uncached].
    - (* the three sums answer for a genesis block before they reach the memo *)
      unfold hist_pure. destruct (hist_fn_sum f && h_genesis h); [left; exists c; split; [reflexivity|exact Hinv]|].
      destruct (calc_order_cached_sound c h Hinv (Ho f h eq_refl)) as [(c' & -> & Hinv')|B]; [left|right; exact B].
      exists c'. split; [reflexivity|exact Hinv'].
    - left. eexists. split; [reflexivity|apply cache_inv_del; exact Hinv].
    - left. eexists. split; [reflexivity|apply cache_inv_empty].
  Qed.
End Memo.

(* the orders differ, so the headers do: a collision of the header hash *)
Definition order_collision (ops : list cache_op) : Prop :=
  exists h1 h2, In (OpCall h1) ops /\ In (OpCall h2) ops /\ hkey h1 = hkey h2 /\ calc_order h1 <> calc_order h2.

Definition hist_collision (ops : list hist_op) : Prop :=
  exists f1 h1 f2 h2, In (HCall f1 h1) ops /\ In (HCall f2 h2) ops /\ hkey h1 = hkey h2 /\ calc_order h1 <> calc_order h2.

Definition hist_cache_op (o : hist_op) : cache_op :=
  match o with HCall _ h => OpCall h | HEvict k => OpEvict k | HPurge => OpPurge end.

Definition matured (i : pt_info) : bool := pt_threshold i =? tree_expansion_trigger_window + tree_expansion_wait_count.

Lemma expansion_of_spec l00 i x : expansion_of l00 i = Some x <->
  pt_found i = true /\
  ((pt_genesis i && l00 = true /\ x = pt_expansion i) \/
   (pt_genesis i && l00 = false /\ matured i = true /\ x = u8 (pt_expansion i + 1)) \/
   (pt_genesis i && l00 = false /\ matured i = false /\ ppt_found i = true /\ x = ppt_expansion i)).
Proof.
  unfold expansion_of, matured.
  destruct (pt_found i), (pt_genesis i && l00), (pt_threshold i =? _), (ppt_found i); cbn [negb];
    intuition (discriminate || congruence).
Qed.

Lemma expansion_of_value l00 i x : expansion_of l00 i = Some x ->
  x = if pt_genesis i && l00 then pt_expansion i else if matured i then u8 (pt_expansion i + 1) else ppt_expansion i.
Proof.
  intros H. apply expansion_of_spec in H as (_ & [(-> & ->) | [(-> & -> & ->) | (-> & -> & _ & ->)]]); reflexivity.
Qed.

Lemma u8_succ_ne x : 0 <= x < 256 -> u8 (x + 1) <> x.
Proof.
  intros B. unfold u8. destruct (Z.eq_dec x 255) as [-> | N]; [discriminate|].
  rewrite Z.mod_small by lia. lia.
Qed.

Definition terminus_view (e : env) (p : header) : pt_info :=
  if parent_is_prime p then e_pt_self e else e_pt_ref e.

Lemma valid_child_expansion_view e p c : valid_child e p c = true ->
  expansion_of (loc00 e) (terminus_view e p) = Some (h_expansion c).
Proof.
  intros V. apply valid_child_accepted in V. rewrite <- (acc_expansion V).
  destruct (acc_parent_order V) as (ie & o & E & _).
  unfold expected_expansion, terminus_view, parent_is_prime. rewrite E. reflexivity.
Qed.

Lemma store_run_v_eq e p c : forall ops st,
  store_run_v (valid_child_fast e p c) st ops = store_run (Some (e, p)) c st ops.
Proof.
  induction ops as [| op ops IH]; intros st; [reflexivity |].
  destruct op; cbn [store_run_v store_run store_step fst snd]; rewrite IH; try reflexivity;
    destruct st; reflexivity.
Qed.

Lemma store_run_fast_eq e p c ops : store_run_fast e p c ops = store_run (Some (e, p)) c StUnknown ops.
Proof. apply store_run_v_eq. Qed.

Definition not_commit (op : store_op) : bool := match op with SoCommit => false | _ => true end.

Definition accepted_by (look : header -> option (env * header)) (x : Z) : Prop :=
  exists c e p, h_hash c = x /\ look c = Some (e, p) /\ valid_child e p c = true.

(* what was stored as a candidate plays no part in the verdict *)
Lemma verify_header_top_status s par c :
  verify_header_top (status_of s c) par c =
  existsb (Z.eqb (h_hash c)) (ns_appended s) || verify_header_top StUnknown par c.
Proof.
  unfold status_of. destruct (existsb _ (ns_appended s)); [reflexivity|].
  destruct (existsb _ (ns_candidates s)); reflexivity.
Qed.

(* of the store, the chain after a step depends on the chain alone *)
Lemma node_step_chain look s op : ns_appended (node_step look s op) =
  match op with
  | NAppend c =>
      if existsb (Z.eqb (h_hash c)) (ns_appended s) || verify_header_top StUnknown (look c) c
      then h_hash c :: ns_appended s else ns_appended s
  | _ => ns_appended s
  end.
Proof.
  destruct op as [c | c |]; cbn [node_step]; try reflexivity.
  rewrite verify_header_top_status. destruct (_ || _); reflexivity.
Qed.

Section Node.
  Variables (look : header -> option (env * header)) (s0 : node_store).

  Definition chain_sound (s : node_store) : Prop :=
    forall x, In x (ns_appended s) -> In x (ns_appended s0) \/ accepted_by look x.

  Lemma node_step_chain_sound s op : chain_sound s -> chain_sound (node_step look s op).
  Proof.
    intros INV x. rewrite node_step_chain. destruct op as [c | c |]; try (apply INV).
    destruct (_ || _) eqn:V; [| apply INV].
    intros [<- | I]; [| apply INV; exact I].
    (* a header that passed was part of the chain already, or was verified against its stored parent *)
    apply orb_prop in V as [A | V]; [apply INV, (existsb_eqb_In Z.eqb Z.eqb_eq), A |].
    cbn in V. destruct (look c) as [[e p] |] eqn:L; [| discriminate].
    right. exists c, e, p. rewrite valid_child_fast_eq in V. auto.
  Qed.

  Lemma node_run_chain_sound ops s : chain_sound s -> chain_sound (node_run look s ops).
  Proof. apply fold_left_inv. intros s' op _. apply node_step_chain_sound. Qed.
End Node.

Definition is_write (op : node_op) : bool := match op with NWrite _ => true | _ => false end.

Lemma node_run_ignores_writes look : forall ops s s', ns_appended s = ns_appended s' ->
  ns_appended (node_run look s ops) = ns_appended (node_run look s' (filter (fun o => negb (is_write o)) ops)).
Proof.
  unfold node_run. induction ops as [| op ops IH]; intros s s' E; [exact E |].
  (* a write is dropped on the right and leaves the chain alone on the left; the other steps see the same chain *)
  destruct op as [c | c |]; cbn [filter is_write negb fold_left]; apply IH; rewrite ?node_step_chain, E; reflexivity.
Qed.
