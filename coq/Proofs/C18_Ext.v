(* C18 -- extensionality: two canonical tries with the same lookup function are the same tree. *)
From Coq Require Import List NArith Lia.
From GQ Require Import Model.C18 Proofs.C18_Base.
Import ListNotations.

(* a value answers the empty key, a full node answers keys with two different first symbols *)
Lemma short_vs_other c y r c' :
  wfn c = true -> is_short c = false ->
  (forall q, lookup c q = lookup (Short (y :: r) c') q) -> False.
Proof.
  intros Hw Hs He. destruct c as [|v|k c0|cs]; try discriminate.
  - specialize (He []). cbn in He. discriminate.
  - destruct (wfn_full_other cs y Hw) as (s & q & v & Hn & Hq).
    specialize (He (s :: q)). rewrite Hq, lookup_short in He. cbn in He.
    destruct (N.eqb_spec y s); [congruence|discriminate].
Qed.

Lemma wf_extensional a : forall b, wf a = true -> wf b = true -> (forall q, lookup a q = lookup b q) -> a = b.
Proof.
  induction a as [|v|k c IH|cs IH] using node_ind'; intros b Ha Hb He.
  - symmetry. apply wf_no_key; [exact Hb|]. intros q. rewrite <- He. reflexivity.
  - symmetry. apply wf_nil_key; [exact Hb|]. rewrite <- He. reflexivity.
  - destruct b as [|w|k' c'|cs'].
    + discriminate (wf_no_key _ Ha He).
    + discriminate (wf_nil_key _ w Ha (He [])).
    + apply wfn_short in Ha as (Hk & Hs & Hc). apply wfn_short in Hb as (Hk' & Hs' & Hc').
      destruct (common_prefix k k') as (p & ra & rb & -> & -> & Hd).
      (* below the common prefix the two nodes still answer alike *)
      assert (He' : forall q, lookup (mk_short ra c) q = lookup (mk_short rb c') q).
      { intros q. specialize (He (p ++ q)).
        rewrite !lookup_short, !strip_app_l, !strip_app, <- !lookup_mk_short in He. exact He. }
      destruct ra as [|x ra], rb as [|y rb]; cbn [mk_short] in He'.
      * rewrite !app_nil_r. f_equal. apply IH; auto using wfn_wf.
      * destruct (short_vs_other c y rb c' Hc Hs He').
      * destruct (short_vs_other c' x ra c Hc' Hs' (fun q => eq_sym (He' q))).
      * exfalso. destruct (wfn_nonempty _ Hc) as (q & v & Hq).
        specialize (He' ((x :: ra) ++ q)). rewrite lookup_short_app, Hq, lookup_short in He'. cbn in He'.
        destruct (N.eqb_spec y x); [congruence|discriminate].
    + exfalso. apply wfn_short in Ha as (Hk & _). destruct k as [|y r]; [congruence|].
      apply (short_vs_other (Full cs') y r c Hb eq_refl). intros q. symmetry. apply He.
  - destruct b as [|w|k' c'|cs'].
    + discriminate (wf_no_key _ Ha He).
    + discriminate (wf_nil_key _ w Ha (He [])).
    + exfalso. apply wfn_short in Hb as (Hk' & _). destruct k' as [|y r]; [congruence|].
      apply (short_vs_other (Full cs) y r c' Ha eq_refl). exact He.
    + apply wfn_full in Ha as (Hl & _ & Hf). apply wfn_full in Hb as (Hl' & _ & Hf').
      f_equal. apply (nth_ext _ _ Nil Nil); [congruence|]. intros i Hi.
      destruct (nth_error cs i) as [x|] eqn:Hx; [|apply nth_error_None in Hx; lia].
      destruct (nth_error cs' i) as [x'|] eqn:Hx'; [|apply nth_error_None in Hx'; lia].
      rewrite (nth_error_nth _ _ Nil Hx), (nth_error_nth _ _ Nil Hx').
      apply (IH i x Hx x' (Hf _ _ Hx) (Hf' _ _ Hx')).
      intros q. specialize (He (N.of_nat i :: q)).
      rewrite !lookup_full, Nat2N.id, Hx, Hx' in He. exact He.
Qed.
