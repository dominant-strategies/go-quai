(* C13 — the redemption scan (RedeemLockedQuai), the lockup value, the pre-fork reward split. *)
From Coq Require Import List NArith ZArith Bool Lia ZifyBool.
From GQ Require Import Lib.Lists Lib.SMap Generated.C13Params Model.C13 Proofs.C13.
Import ListNotations.
Import C13Params.
Local Open Scope N_scope.

Definition is_credit (s : sel) : bool := match s with SCredit _ _ => true | _ => false end.

(* the depth at which RedeemLockedQuai credits an ETX (None: never) *)
Definition credit_depth (x : retx) : option N :=
  match e_kind x with
  | KCoinbase =>
      if is_quai (e_to x) && (e_dlen x =? plain_len) && internal (e_to x) then depth_of (e_lock x) else None
  | KConversion => if is_quai (e_to x) && internal (e_to x) then Some conversion_lock_period else None
  | KOther => None
  end.

Definition credit_amount (x : retx) (h : N) : Z :=
  match e_kind x with KCoinbase => lockup_value (e_value x) (e_lock x) h | _ => e_value x end.

Lemma select_spec d h x :
  match select d h x with
  | SCredit a v => credit_depth x = Some d /\ a = e_to x /\ v = credit_amount x h
  | _ => credit_depth x <> Some d
  end.
Proof.
  unfold select, credit_depth, credit_amount. destruct (e_kind x).
  - destruct (is_quai (e_to x)); cbn [andb]; [|discriminate].
    destruct (e_dlen x =? plain_len); cbn [andb]; [|discriminate].
    destruct (internal (e_to x)); cbn [negb]; [|discriminate].
    destruct (depth_of (e_lock x)) as [lk|]; [|discriminate].
    destruct (N.eqb_spec lk d) as [->|Hn]; [auto|congruence].
  - destruct (is_quai (e_to x)); cbn [andb]; [|discriminate].
    destruct (N.eqb_spec d conversion_lock_period) as [->|Hn]; destruct (internal (e_to x)); try discriminate; [auto|congruence..].
  - discriminate.
Qed.

Lemma select_credit d h x :
  is_credit (select d h x) = match credit_depth x with Some d' => d' =? d | None => false end.
Proof.
  pose proof (select_spec d h x) as H. destruct (select d h x); cbn [is_credit].
  1: destruct H as [-> _]; symmetry; apply N.eqb_refl.
  all: destruct (credit_depth x) as [d'|]; [symmetry; apply N.eqb_neq; congruence|reflexivity].
Qed.

Lemma select_credit_payload d h x a v : select d h x = SCredit a v -> a = e_to x /\ v = credit_amount x h.
Proof. intros H. pose proof (select_spec d h x) as S. rewrite H in S. apply S. Qed.

Definition cnt (p : N * nat) (l : list (N * nat)) : nat :=
  length (filter (fun q => (fst q =? fst p) && Nat.eqb (snd q) (snd p)) l).

Lemma cnt_app p a b : cnt p (a ++ b) = (cnt p a + cnt p b)%nat.
Proof. unfold cnt. rewrite filter_app, app_length. reflexivity. Qed.

Lemma cnt_cons p q l : cnt p (q :: l) = ((if ((fst q =? fst p)%N && Nat.eqb (snd q) (snd p))%bool then 1 else 0) + cnt p l)%nat.
Proof. unfold cnt. cbn [filter]. destruct ((fst q =? fst p) && Nat.eqb (snd q) (snd p)); reflexivity. Qed.

(* selected_in numbers the ETXs of block b from i0 upwards *)
Lemma selected_in_absent d h b b' i xs : forall i0, b' <> b \/ (i < i0)%nat ->
  cnt (b', i) (selected_in d h b i0 xs) = 0%nat.
Proof.
  induction xs as [|x t IH]; intros i0 H; [reflexivity|]. cbn [selected_in].
  assert (Ht : cnt (b', i) (selected_in d h b (S i0) t) = 0%nat) by (apply IH; lia).
  destruct (select d h x); try exact Ht.
  rewrite cnt_cons, Ht. cbn [fst snd]. assert ((b =? b') && Nat.eqb i0 i = false) as -> by lia. reflexivity.
Qed.

Lemma selected_in_at d h b xs : forall i0 j,
  cnt (b, (i0 + j)%nat) (selected_in d h b i0 xs) =
    match nth_error xs j with
    | Some x => if is_credit (select d h x) then 1%nat else 0%nat
    | None => 0%nat
    end.
Proof.
  induction xs as [|x t IH]; intros i0 j; [destruct j; reflexivity|]. cbn [selected_in].
  destruct j as [|j]; cbn [nth_error].
  - rewrite Nat.add_0_r. destruct (select d h x); cbn [is_credit]; rewrite ?cnt_cons; cbn [fst snd];
      rewrite ?N.eqb_refl, ?Nat.eqb_refl, selected_in_absent by (right; lia); reflexivity.
  - rewrite <- Nat.add_succ_comm. destruct (select d h x); rewrite ?cnt_cons; cbn [fst snd]; rewrite IH; try reflexivity.
    assert (Nat.eqb i0 (S i0 + j) = false) as -> by lia. rewrite andb_false_r. reflexivity.
Qed.

(* the list counted is the term of [selected_at] for depth d *)
Lemma selected_depth_cnt ch h b xs i x d :
  ch b = Some xs -> nth_error xs i = Some x ->
  cnt (b, i) (if h <=? d then [] else match ch (h - d) with Some xs0 => selected_in d h (h - d) 0 xs0 | None => [] end) =
    match credit_depth x with
    | Some d' => if (h =? b + d) && (1 <=? b) && (d' =? d) then 1%nat else 0%nat
    | None => 0%nat
    end.
Proof.
  intros Hb Hx. destruct (h <=? d) eqn:Hle.
  - assert ((h =? b + d) && (1 <=? b) = false) as -> by lia. cbn. destruct (credit_depth x); reflexivity.
  - destruct (h - d =? b) eqn:Hb'.
    + assert ((h =? b + d) && (1 <=? b) = true) as -> by lia. cbn [andb].
      apply N.eqb_eq in Hb'. rewrite Hb', Hb, (selected_in_at d h b xs 0 i : cnt (b, i) _ = _), Hx, select_credit.
      destruct (credit_depth x) as [d'|]; [|reflexivity].
      destruct (d' =? d); reflexivity.
    + assert ((h =? b + d) && (1 <=? b) = false) as -> by lia. cbn [andb]. assert (b <> h - d) by lia.
      destruct (ch (h - d)); [rewrite selected_in_absent by (left; assumption)|]; destruct (credit_depth x); reflexivity.
Qed.

Lemma selected_at_cnt ds ch h b xs i x :
  ch b = Some xs -> nth_error xs i = Some x ->
  cnt (b, i) (selected_at ds ch h) =
    match credit_depth x with
    | Some d' => if (h =? b + d') && (1 <=? b) then count_occ N.eq_dec ds d' else 0%nat
    | None => 0%nat
    end.
Proof.
  intros Hb Hx. unfold selected_at. induction ds as [|d t IH].
  - cbn. destruct (credit_depth x) as [d'|]; [destruct ((h =? b + d') && (1 <=? b))|]; reflexivity.
  - cbn [flat_map]. rewrite cnt_app, IH, (selected_depth_cnt ch h b xs i x d Hb Hx).
    destruct (credit_depth x) as [d'|]; [|reflexivity]. cbn [count_occ].
    destruct (N.eq_dec d d') as [->|Hn].
    + rewrite N.eqb_refl, andb_true_r. destruct ((h =? b + d') && (1 <=? b)); reflexivity.
    + assert ((d' =? d) = false) as -> by lia. rewrite andb_false_r. reflexivity.
Qed.

Lemma nodupb_spec l : nodupb l = true -> NoDup l.
Proof.
  induction l as [|x t IH]; cbn [nodupb]; intros H; [constructor|].
  apply andb_prop in H as [H1 H2]. constructor; [|auto].
  rewrite <- (existsb_eqb_In N.eqb N.eqb_eq). apply negb_true_iff in H1. rewrite H1. discriminate.
Qed.

(* the account-creation-fee rule of RedeemLockedQuai, over the payloads of the credited ETXs in scan order *)
Fixpoint apply_credits (fee : Z) (cs : list (addr * Z)) (cr : list (addr * Z)) (st : accts) : list (addr * Z) * accts :=
  match cs with
  | [] => (cr, st)
  | (a, v) :: t =>
      match get a st with
      | Some b => apply_credits fee t (cr ++ [(a, v)]) (put a (b + v)%Z st)
      | None => if (fee <=? v)%Z then apply_credits fee t (cr ++ [(a, (v - fee)%Z)]) (put a (v - fee)%Z st)
                else apply_credits fee t cr st
      end
  end.

Definition no_fault (d h : N) (x : retx) : Prop := select d h x <> SError /\ select d h x <> SPanic.
Definition credited (d h : N) (x : retx) : bool := is_credit (select d h x).
Definition payload (h : N) (x : retx) : addr * Z := (e_to x, credit_amount x h).

Lemma scan_as_selected d h fee xs : forall cr st, Forall (no_fault d h) xs ->
  scan d h fee xs cr st =
    let '(cr', st') := apply_credits fee (map (payload h) (filter (credited d h) xs)) cr st in RedOk cr' st'.
Proof.
  induction xs as [|x t IH]; intros cr st F; [reflexivity|].
  inversion F as [|? ? [F1 F2] Ft]; subst. cbn [scan filter]. unfold credited at 1.
  destruct (select d h x) as [a v| | |] eqn:Sx; try congruence; cbn [is_credit]; [|apply IH; exact Ft].
  apply select_credit_payload in Sx as [-> ->]. cbn [map payload apply_credits].
  destruct (get (e_to x) st); [apply IH; exact Ft|]. destruct (fee <=? credit_amount x h)%Z; apply IH; exact Ft.
Qed.

Definition all_selected (ds : list N) (ch : chain) (h : N) : list (addr * Z) :=
  flat_map (fun d => if h <=? d then [] else
                     match block_at ch (h - d) with
                     | Some xs => map (payload h) (filter (credited d h) xs)
                     | None => []
                     end) ds.

Definition depth_ok (ch : chain) (h d : N) : Prop :=
  h <= d \/ exists xs, block_at ch (h - d) = Some xs /\ Forall (no_fault d h) xs.

Lemma apply_credits_app fee a : forall b cr st,
  apply_credits fee (a ++ b) cr st =
    let '(cr1, st1) := apply_credits fee a cr st in apply_credits fee b cr1 st1.
Proof.
  induction a as [|[x v] a IH]; intros b cr st; [reflexivity|]. cbn [app apply_credits].
  destruct (get x st); [apply IH|]. destruct (fee <=? v)%Z; apply IH.
Qed.

Lemma redeem_depths_as_selected ds ch h fee : forall cr st, Forall (depth_ok ch h) ds ->
  redeem_depths ds ch h fee cr st =
    let '(cr', st') := apply_credits fee (all_selected ds ch h) cr st in RedOk cr' st'.
Proof.
  induction ds as [|d t IH]; intros cr st F; [reflexivity|].
  inversion F as [|? ? Fd Ft]; subst. cbn [redeem_depths all_selected flat_map].
  fold (all_selected t ch h).
  destruct (h <=? d) eqn:Hle.
  - cbn [app]. apply IH; exact Ft.
  - destruct Fd as [Fd|(xs & Hb & Fx)]; [lia|]. rewrite Hb.
    rewrite (scan_as_selected d h fee xs cr st Fx), apply_credits_app.
    destruct (apply_credits fee (map (payload h) (filter (credited d h) xs)) cr st) as [cr1 st1].
    apply IH; exact Ft.
Qed.

Definition atotal (st : accts) : Z := fold_right (fun kv acc => (snd kv + acc)%Z) 0%Z st.
Definition csum (cr : list (addr * Z)) : Z := fold_right (fun kv acc => (snd kv + acc)%Z) 0%Z cr.

Lemma atotal_put a v (st : accts) :
  atotal (put a v st) = (atotal st - match get a st with Some b => b | None => 0 end + v)%Z.
Proof. change atotal with (msum (fun b : Z => b)). apply msum_put. Qed.

Lemma csum_cons x (a : list (addr * Z)) : csum (x :: a) = (snd x + csum a)%Z.
Proof. reflexivity. Qed.

Lemma csum_app a b : csum (a ++ b) = (csum a + csum b)%Z.
Proof.
  induction a as [|x a IH]; [reflexivity|].
  rewrite <- app_comm_cons, !csum_cons, IH. lia.
Qed.

Lemma csum_one a v : csum [(a, v)] = v.
Proof. unfold csum. cbn. lia. Qed.

Lemma scan_conserves d h fee xs : forall cr st cr' st',
  scan d h fee xs cr st = RedOk cr' st' -> (atotal st' - csum cr' = atotal st - csum cr)%Z.
Proof.
  induction xs as [|x t IH]; intros cr st cr' st' H; cbn [scan] in H.
  - inversion H; subst; lia.
  - destruct (select d h x) as [a v| | |]; try discriminate.
    + destruct (get a st) as [b|] eqn:G.
      * apply IH in H. rewrite atotal_put, G, csum_app, csum_one in H. lia.
      * destruct (fee <=? v)%Z.
        -- apply IH in H. rewrite atotal_put, G, csum_app, csum_one in H. lia.
        -- apply IH in H. exact H.
    + apply IH in H. exact H.
Qed.

Lemma redeem_depths_conserves ds ch h fee : forall cr st cr' st',
  redeem_depths ds ch h fee cr st = RedOk cr' st' -> (atotal st' - csum cr' = atotal st - csum cr)%Z.
Proof.
  induction ds as [|d t IH]; intros cr st cr' st' H; cbn [redeem_depths] in H.
  - inversion H; subst; lia.
  - destruct (h <=? d); [apply IH in H; exact H|].
    destruct (block_at ch (h - d)) as [xs|]; [|discriminate].
    destruct (scan d h fee xs cr st) as [cr1 st1| |] eqn:Sc; try discriminate.
    apply scan_conserves in Sc. apply IH in H. lia.
Qed.

Lemma nth_in_tl {A} (l : list A) n d : (1 <= n < length l)%nat -> In (nth n l d) (tl l).
Proof.
  destruct l as [|x l]; cbn [length tl]; [lia|]. destruct n as [|n]; [lia|]. intros H. cbn [nth].
  apply nth_In. lia.
Qed.

Definition mult_of (lb : N) : N * N := nth (N.to_nat lb) multiples (0, 0).

Lemma interpolation_between lo hi x b : (0 < b)%Z -> (0 <= x <= b)%Z -> (0 <= lo <= hi)%Z ->
  (lo <= Z.quot ((lo - hi) * x + b * hi) b <= hi)%Z.
Proof.
  intros Hb Hx Hl. rewrite Z.quot_div_nonneg by nia.
  split; [apply Z.div_le_lower_bound|apply Z.div_le_upper_bound]; nia.
Qed.

Lemma rewards_multiple_bounds lb h : multiples_ok = true -> 1 <= lb -> lb <= max_lockup_byte ->
  (Z.of_N (snd (mult_of lb)) <= rewards_multiple lb h
   <= Z.of_N (fst (mult_of lb)))%Z /\
  (100000 <= Z.of_N (snd (mult_of lb)))%Z.
Proof.
  unfold multiples_ok. intros P H1 H2.
  apply andb_prop in P as [P Py]. apply andb_prop in P as [Pl Pf].
  rewrite forallb_forall in Pf.
  assert (Hin : In (mult_of lb) (tl multiples)) by (unfold mult_of; apply nth_in_tl; lia).
  specialize (Pf _ Hin). unfold rewards_multiple. fold (mult_of lb).
  destruct (mult_of lb) as [m0 m1]. cbn [fst snd] in *.
  split; [|lia].
  destruct (h / BPY =? 0) eqn:Y0; [lia|].
  destruct (4 <? h / BPY) eqn:Y4; [lia|].
  assert (HB : 0 < BPY) by (unfold BPY; lia).
  assert (Hlo : BPY <= h).
  { destruct (N.lt_ge_cases h BPY) as [Hlt|]; [|assumption]. rewrite (N.div_small h BPY Hlt) in Y0. discriminate. }
  assert (Hhi : h < 5 * BPY).
  { destruct (N.lt_ge_cases h (5 * BPY)) as [|Hge]; [assumption|].
    assert (5 <= h / BPY) by (apply N.div_le_lower_bound; lia). lia. }
  apply interpolation_between; lia.
Qed.

Lemma div_add_le a b T : (0 < T)%Z -> (a / T + b / T <= (a + b) / T)%Z.
Proof.
  intros HT. apply Z.div_le_lower_bound; [exact HT|].
  pose proof (Z.mul_div_le a T HT). pose proof (Z.mul_div_le b T HT). lia.
Qed.

Lemma zsum_cons x l : zsum (x :: l) = (x + zsum l)%Z.
Proof. reflexivity. Qed.

(* each share is at most one above its floor, and the floors add up to at most the floor of the sum *)
Lemma share_rewards_le R T es : (0 < T)%Z ->
  (zsum (map (share_reward R T) es) <= R * zsum es / T + Z.of_nat (length es))%Z.
Proof.
  intros HT. induction es as [|e t IH]; cbn [map length].
  - change (zsum []) with 0%Z. rewrite Z.mul_0_r, Z.div_0_l by lia. lia.
  - rewrite !zsum_cons, Z.mul_add_distr_l. pose proof (div_add_le (R * e) (R * zsum t) T HT).
    unfold share_reward at 1. cbn zeta. destruct (R * e / T =? 0)%Z eqn:Z0; lia.
Qed.

Lemma share_split_strict_refuted : exists R es, (0 <= R)%Z /\ Forall (fun e => (0 <= e)%Z) es /\ (0 < zsum es)%Z /\
  (R < zsum (split_prefork R es))%Z.
Proof. exists 0%Z, [5%Z]. repeat split; try (vm_compute; congruence). repeat constructor. vm_compute. discriminate. Qed.
