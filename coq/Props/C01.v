(* C01 -- Qi ledger: each output spent at most once; no Qi created from nothing.
   Property theorems, each followed by [Print Assumptions].  Model: Model/C01.v   Lemmas: Proofs/C01*.v
   A "view" is (database, write batch); view_ok v says the batch was made by
   db.NewBatch(); batch.SetPending(true) on a backend whose batch honours it (all of
   leveldb, pebble, memorydb, rawdb table since the F1 repair) -- StateProcessor.Process. *)
From Coq Require Import List NArith.
From GQ Require Import Lib.SMap Generated.C01Params Model.C01 Proofs.C01_View Proofs.C01_Sim
     Proofs.C01_Steps Proofs.C01_Ledger Proofs.C01_Den Proofs.C01_Worker2 Proofs.C01 Proofs.C01_Worker3 Proofs.C01_Pool Proofs.C01_Supply.
Import ListNotations.
Local Open Scope N_scope.

(* Side conditions on the constants generated from the repository (types.Denominations dense,
   positive, each dividing the next; MaxDenomination = last index; ETX type tags distinct). *)
Theorem qi_generated_params_ok :
  denoms_ok = true
  /\ (etx_conversion_type =? etx_default_type) = false /\ (etx_wrapping_qi_type =? etx_default_type) = false.
Proof. split; [exact denoms_ok_true|exact etx_types_distinct]. Qed.
Print Assumptions qi_generated_params_ok.

(* The mechanism everything rests on: a batch with pending tracking answers GetUTXOWithBatch
   exactly as the database would after batch.Write(). *)
Theorem qi_tracking_view_reads_what_it_commits : forall v k,
  view_ok v -> v_get v k = get k (commit v).
Proof. exact v_get_commit. Qed.
Print Assumptions qi_tracking_view_reads_what_it_commits.

(* db.NewBatch(); SetPending(true) establishes the invariant and every accepted ProcessQiTx keeps it. *)
Theorem qi_tracking_invariant :
  (forall l : ledger, sorted l -> view_ok (view_of true l))
  /\ (forall c (b b' : bst (S:=view)) t r,
        view_ok (b_store b) -> process_qi view_store c b t = Ok (b', r) -> view_ok (b_store b')).
Proof.
  split; [exact view_of_ok|]. intros c b b' t r Hv H.
  exact (proj2 (process_qi_view _ _ _ _ _ Hv H)).
Qed.
Print Assumptions qi_tracking_invariant.

(* Of the per-transaction theorems, those that do not mention the ledger hold of ProcessQiTx on any store
   (process_qi_facts): they speak of the entries the store handed out.  view_ok is what ties these to the ledger
   (qi_spent_once_tx). *)

(* Conservation, every fork regime: value consumed (+ the value entered twice by a wrapped output
   before QiWrappingChangeBlock, where the output is both written to the UTXO set and carried by
   the wrapping ETX) = local outputs + value sent to other chains / converted / wrapped + fee.
   Also the supply counters: supplyRemoved - supplyAdded = value_of spent - value_of created. *)
Theorem qi_tx_conservation : forall c (b b' : bst (S:=view)) t r,
  view_ok (b_store b) -> process_qi view_store c b t = Ok (b', r) ->
  value_of (r_spent r) + double_entry c t = value_of (r_created r) + etxs_value (r_etxs r) + r_fee r.
Proof. intros c b b' t r _ H. exact (tf_balance (proj1 (process_qi_facts _ _ _ _ _ _ H))). Qed.
Print Assumptions qi_tx_conservation.

(* ... and exactly, from QiWrappingChangeBlock on. *)
Theorem qi_tx_conservation_exact_after_wrapping_fork : forall c (b b' : bst (S:=view)) t r,
  view_ok (b_store b) -> process_qi view_store c b t = Ok (b', r) -> qi_wrapping_change_block <= c_ptn c ->
  value_of (r_spent r) = value_of (r_created r) + etxs_value (r_etxs r) + r_fee r.
Proof.
  intros c b b' t r Hv H Hf. rewrite <- (qi_tx_conservation _ _ _ _ _ Hv H), double_entry_after_fork by exact Hf.
  symmetry. apply N.add_0_r.
Qed.
Print Assumptions qi_tx_conservation_exact_after_wrapping_fork.

(* Authorisation: every consumed entry is the one named by the input, owned by the address of the key
   the input carries (a Qi-ledger address), unlocked at this height, of a legal denomination; with
   checkSig the signature bit over exactly these keys is set.  (Schnorr/MuSig2 itself: abstract.) *)
Theorem qi_inputs_authorised : forall c (b b' : bst (S:=view)) t r,
  view_ok (b_store b) -> process_qi view_store c b t = Ok (b', r) ->
  Forall2 (in_ok c (t_checksig t)) (t_ins t) (r_spent r)
  /\ (t_checksig t = true -> t_sigok t = true) /\ t_ins t <> [].
Proof.
  intros c b b' t r _ H. destruct (process_qi_facts _ _ _ _ _ _ H) as (F & _).
  exact (conj (tf_inputs F) (conj (tf_signed F) (tf_has_inputs F))).
Qed.
Print Assumptions qi_inputs_authorised.

(* Spent once inside one transaction: an accepted transaction names no outpoint twice and every
   outpoint it names is unspent in the view, with the right owner, before the transaction. *)
Theorem qi_spent_once_tx : forall c (b b' : bst (S:=view)) t r,
  view_ok (b_store b) -> process_qi view_store c b t = Ok (b', r) ->
  NoDup (map i_op (t_ins t))
  /\ Forall (fun i => exists u, v_get (b_store b) (i_op i) = Some u /\ u_owner u = i_pkaddr i /\ u_lock u <= c_height c) (t_ins t).
Proof.
  intros c b b' t r Hv H. destruct (process_qi_view _ _ _ _ _ Hv H) as (Hl & _). apply process_qi_spec in Hl as (F & Hst).
  destruct (strict_spends _ _ _ _ (tf_inputs F) _ _ _ (commit_sorted _ Hv) Hst) as (Hnd & Hall). split; [exact Hnd|].
  eapply Forall_impl; [|exact Hall]. intros i (u & G & Hu). exists u. rewrite v_get_commit by exact Hv. auto.
Qed.
Print Assumptions qi_spent_once_tx.

(* Spent once across the transactions of a block (one shared batch): the accepted block is a strict
   run of its consume/create events from the ledger before to the ledger committed; between two
   consumptions of one outpoint lies a creation of it; every consumed outpoint was in the ledger
   before the block or was created earlier in the block. *)
Theorem qi_spent_once_block : forall (l : ledger) c txs rs l',
  sorted l -> run_block true l c txs = (rs, true, l') ->
  strict l (block_events rs) l' /\ no_double_consume (block_events rs) /\ consumed_existed l (block_events rs).
Proof. intros l c txs rs l' S H. exact (strict_spent_once _ _ _ S (run_block_strict _ _ _ _ _ _ S H)). Qed.
Print Assumptions qi_spent_once_block.

(* ... and across blocks, any chain of accepted and rejected blocks with a commit after each accepted one. *)
Theorem qi_spent_once_chain : forall (l : ledger) blocks, sorted l ->
  strict l (chain_events (run_chain true l blocks)) (final_ledger l (run_chain true l blocks))
  /\ no_double_consume (chain_events (run_chain true l blocks))
  /\ consumed_existed l (chain_events (run_chain true l blocks)).
Proof. intros l blocks S. exact (strict_spent_once _ _ _ S (run_chain_strict blocks l S)). Qed.
Print Assumptions qi_spent_once_chain.

(* Full statement "for every batch, tracking or not, an accepted block names no outpoint twice" is FALSE
   of the faithful model: without pending tracking (pebble / memorydb / table batches before the F1 repair,
   or any batch without SetPending(true)) one 1000-qit output named by both inputs of a transaction is
   accepted and 1500 qits of outputs are committed; the same block is rejected with tracking.
   The witness is replayed on the real code by the harness (corpus case F1-witness-untracked). *)
Theorem qi_spent_once_refuted_untracked :
  exists (l : ledger) c t rs l', sorted l /\ ~ NoDup (map i_op (t_ins t))
    /\ run_block false l c [t] = (rs, true, l') /\ value_of l < value_of l'
    /\ exists rs', run_block true l c [t] = (rs', false, l).
Proof. exact untracked_refuted. Qed.
Print Assumptions qi_spent_once_refuted_untracked.

(* Backend independence: with tracking, a block's verdict, per-transaction results and committed ledger
   depend only on the ledger -- they equal those of the flat reference ledger ... *)
Theorem qi_block_depends_only_on_ledger : forall (l : ledger) c txs,
  sorted l -> run_block true l c txs = run_block_ref l c txs.
Proof. exact run_block_tracked_ref. Qed.
Print Assumptions qi_block_depends_only_on_ledger.

(* ... so two batches in any state that would commit the same ledger are indistinguishable. *)
Theorem qi_backend_independent : forall c txs v1 v2,
  view_ok v1 -> view_ok v2 -> commit v1 = commit v2 ->
  fst (run_txs view_store c (init_bst c v1) txs) = fst (run_txs view_store c (init_bst c v2) txs)
  /\ match snd (run_txs view_store c (init_bst c v1) txs), snd (run_txs view_store c (init_bst c v2) txs) with
     | Some b1, Some b2 => commit (b_store b1) = commit (b_store b2)
     | None, None => True
     | _, _ => False
     end.
Proof.
  intros c txs v1 v2 H1 H2 Hc.
  pose proof (run_txs_view_ref c txs v1 H1) as E. rewrite Hc, (run_txs_view_ref c txs v2 H2) in E.
  injection E as Ef Eo. split; [symmetry; exact Ef|]. apply (f_equal (option_map b_store)) in Eo.
  destruct (snd (run_txs view_store c (init_bst c v1) txs)), (snd (run_txs view_store c (init_bst c v2) txs));
    try discriminate; [injection Eo; auto|exact I].
Qed.
Print Assumptions qi_backend_independent.

(* A rejected block commits nothing (any batch). *)
Theorem qi_rejected_block_changes_nothing : forall tr (l : ledger) c txs rs l',
  run_block tr l c txs = (rs, false, l') -> l' = l.
Proof. exact run_block_rejected. Qed.
Print Assumptions qi_rejected_block_changes_nothing.

(* CheckDenominations, exactly: while the input value fits 64 bits (MaxOutputIndex inputs of the largest
   denomination are far below), it accepts iff for every denomination d >= 1 the value of outputs of
   denomination >= d does not exceed the value of inputs of denomination >= d. *)
Theorem check_denominations_exact : forall ins outs, sum_den ins < two64 ->
  (check_denominations ins outs = true <->
   forall d, 1 <= d <= max_denomination -> vge d outs <= vge d ins).
Proof. exact check_denominations_iff. Qed.
Print Assumptions check_denominations_exact.

(* No merge-up: an accepted transaction that is not the first Qi transaction of its block moves no
   value to a higher denomination (outputs aggregated into a conversion/wrapping ETX are not counted,
   as in the code). *)
Theorem qi_no_merge_up : forall c (b b' : bst (S:=view)) t r,
  view_ok (b_store b) -> process_qi view_store c b t = Ok (b', r) -> b_first b = false ->
  value_of (r_spent r) < two64 ->
  forall d, 1 <= d <= max_denomination ->
    vge d (map o_den (filter (counted c t) (t_outs t))) <= vge d (map (fun ku => u_den (snd ku)) (r_spent r)).
Proof. intros c b b' t r _. apply process_qi_no_merge_up. Qed.
Print Assumptions qi_no_merge_up.

(* Fee floor: the fee converted at the header's rate covers the intrinsic gas at the base fee. *)
Theorem qi_fee_floor : forall c (b b' : bst (S:=view)) t r,
  view_ok (b_store b) -> process_qi view_store c b t = Ok (b', r) ->
  t_intrinsic t * c_basefee c <= c_quai_reward c * r_fee r / c_qi_reward c.
Proof. intros c b b' t r _ H. exact (tf_fee_floor (proj1 (process_qi_facts _ _ _ _ _ _ H))). Qed.
Print Assumptions qi_fee_floor.

(* Created records sit at tx.Hash() ++ index, index below the number of outputs, unlocked. *)
Theorem qi_created_outpoints : forall c (b b' : bst (S:=view)) t r,
  view_ok (b_store b) -> process_qi view_store c b t = Ok (b', r) ->
  Forall (created_by t 0 (len (t_outs t))) (r_created r).
Proof. intros c b b' t r _ H. exact (tf_created (proj1 (process_qi_facts _ _ _ _ _ _ H))). Qed.
Print Assumptions qi_created_outpoints.

(* The pool's ValidateQiTxInputs establishes ownership of every input against the database. *)
Theorem pool_check_establishes_ownership : forall c l t, validate_inputs c l t = true ->
  pool_ok c l t
  /\ Forall (fun i => exists u, get (i_op i) l = Some u /\ u_owner u = i_pkaddr i /\ is_qi (i_pkaddr i) = true
                                /\ u_lock u <= c_height c /\ u_den u <= max_denomination) (t_ins t).
Proof.
  intros c l t H. pose proof (validate_inputs_pool_ok _ _ _ H) as Hp. split; [exact Hp|].
  exact (Forall_impl _ (validate_in_step_spec c l) Hp).
Qed.
Print Assumptions pool_check_establishes_ownership.

(* A block the node assembles from its own pool: the transactions the worker accepts (explicit
   deletedUtxos set, committed database only, no key check, firstQiTx handling of commitTransactions),
   taken in order, are accepted as a block by ProcessQiTx on a tracking batch, with the same fee, ETXs,
   consumed and created outpoints -- provided each came through the pool's input check, its hash is new
   to the database, and its signature is not re-checked or is valid. *)
Theorem worker_block_accepted_qi : forall c (l : ledger) txs, sorted l ->
  Forall (fun t => pool_ok c l t /\ fresh l t /\ sig_fine t) txs ->
  exists rs l', run_block true l c (accepted_txs txs (fst (worker_txs c l true (init_wenv c) txs))) = (rs, true, l')
    /\ Forall2 res_agree (somes (fst (worker_txs c l true (init_wenv c) txs))) rs.
Proof. exact worker_block_accepted_view. Qed.
Print Assumptions worker_block_accepted_qi.

(* ... and, with NO hypothesis about the pool, keys or signatures: the pending block the worker assembles
   (any list of candidate transactions, any number of them conflicting, whatever is rejected in between and
   for whatever reason) names every outpoint at most once -- inside one transaction and across the included
   transactions -- and every outpoint it names is an unlocked record of the committed database.  It rests on
   env.deletedUtxos only ever growing inside one pending block: the model keeps the reservation of a
   rejected transaction, as worker.go does. *)
Theorem worker_block_spends_once : forall c (l : ledger) txs,
  NoDup (concat (map named (accepted_txs txs (fst (worker_txs c l true (init_wenv c) txs)))))
  /\ Forall (fun t => Forall (fun i => exists u, get (i_op i) l = Some u /\ u_lock u <= c_height c) (t_ins t))
            (accepted_txs txs (fst (worker_txs c l true (init_wenv c) txs))).
Proof. intros c l txs. destruct (worker_txs_spends_once c l txs true (init_wenv c)) as ((d' & Hr) & Hall). exact (conj (rs_nodup Hr) Hall). Qed.
Print Assumptions worker_block_spends_once.

(* ---- the pool's senders cache in the authorisation path.
   StateProcessor.Process asks pool.senders for every Qi transaction of a block and calls ProcessQiTx with
   checkSig=false on a hit: a cache entry stands for "Schnorr/MuSig2 signature verified". *)

(* The cache is written only for admitted transactions, and the pool (addQiTxs / the re-injection after a
   reorganisation; output and fee rules abstract: any outs_ok) admits only transactions that pass
   ValidateQiTxInputs and whose signature bit is set: after ANY history of gossip phases -- each against its own
   head and ledger, any mixture of valid and forged transactions, copies, orders -- every cached hash is the
   hash of a seen transaction that is signed by the keys it carries. *)
Theorem qi_pool_cache_only_verified : forall outs_ok (hs : list (ctx * ledger * list tx)),
  forall h, In h (gossip_history outs_ok [] hs) ->
  exists t, In t (concat (map snd hs)) /\ t_hash t = h /\ t_sigok t = true.
Proof. exact cache_only_verified. Qed.
Print Assumptions qi_pool_cache_only_verified.

(* ... and each admission also established ownership of every input against the ledger of that phase. *)
Theorem qi_pool_admission_checks_owner_and_signature : forall outs_ok c l t,
  pool_admit outs_ok c l t = true -> validate_inputs c l t = true /\ t_sigok t = true.
Proof. exact pool_admit_facts. Qed.
Print Assumptions qi_pool_admission_checks_owner_and_signature.

(* A block processed behind a sound cache (checkSig derived from it as Process does): every transaction of an
   accepted block has inputs and is signed by the keys it carries -- or shares its hash with a different,
   signed transaction the pool saw (a collision of tx.Hash(), which covers the signature). *)
Theorem qi_authorised_behind_pool_cache : forall seen cache (l : ledger) c txs rs l',
  cache_sound seen cache -> run_block_via_pool cache l c txs = (rs, true, l') ->
  Forall (fun t => t_ins t <> [] /\ signed_or_collision seen t) txs.
Proof. exact via_pool_authorised. Qed.
Print Assumptions qi_authorised_behind_pool_cache.

(* End to end: whatever the pool saw before. *)
Theorem qi_authorised_whatever_the_pool_saw : forall outs_ok hs (l : ledger) c txs rs l',
  run_block_via_pool (gossip_history outs_ok [] hs) l c txs = (rs, true, l') ->
  Forall (fun t => t_ins t <> [] /\ signed_or_collision (concat (map snd hs)) t) txs.
Proof. intros outs_ok hs l c txs rs l'. apply via_pool_authorised. apply cache_only_verified. Qed.
Print Assumptions qi_authorised_whatever_the_pool_saw.

(* The hypothesis cache_sound is necessary, not decoration: the same forged transaction (owner's public key,
   foreign signature) is rejected behind an empty cache and behind the cache any gossip history produces, and
   accepted -- the ledger changes -- behind a cache that holds its hash. *)
Theorem qi_unsound_cache_entry_admits_forged_refuted :
  run_block_via_pool [] w_ledger w_ctx [p_forged] = ([], false, w_ledger)
  /\ gossip_history (fun _ => true) [] [(w_ctx, w_ledger, [p_forged; x_tx1])] = [t_hash x_tx1]
  /\ run_block_via_pool [t_hash x_tx1] w_ledger w_ctx [p_forged] = ([], false, w_ledger)
  /\ (exists rs l', run_block_via_pool [t_hash x_tx1] w_ledger w_ctx [x_tx1] = (rs, true, l')
                    /\ map t_checksig (map (via_cache [t_hash x_tx1]) [x_tx1]) = [false])
  /\ exists rs l', run_block_via_pool [t_hash p_forged] w_ledger w_ctx [p_forged] = (rs, true, l')
                   /\ l' <> w_ledger.
Proof.
  split; [vm_compute; reflexivity|]. split; [vm_compute; reflexivity|]. split; [vm_compute; reflexivity|].
  split.
  - eexists; eexists. split; vm_compute; reflexivity.
  - eexists; eexists. split; [vm_compute; reflexivity|]. discriminate.
Qed.
Print Assumptions qi_unsound_cache_entry_admits_forged_refuted.

(* ---- block- and chain-level supply accounting: the statement's last clause, "Qi supply
   changes only through coinbase, conversion and trimming events", for the part of it that is the work of
   ProcessQiTx: processing Qi transactions never adds value to the 'ut' records. *)

(* rawdb.DeleteUTXO removes exactly the value of the record it finds; rawdb.CreateUTXO adds the value of the new
   record and drops the value of a record it overwrites (oval None = 0). *)
Theorem qi_create_delete_value : forall (l : ledger) k u,
  value_of (del k l) + oval (get k l) = value_of l
  /\ value_of (put k u l) + oval (get k l) = value_of l + uval u.
Proof. exact value_del_put. Qed.
Print Assumptions qi_create_delete_value.

(* One accepted block on a tracking batch, every fork regime, EXACT: value of the records after the block + fees +
   value carried away by ETXs (other chains, conversion, wrapping) + value of records overwritten by a creation
   = value before + the pre-fork wrapping double entry. *)
Theorem qi_block_supply_exact : forall (l : ledger) c txs rs l', sorted l ->
  run_block true l c txs = (rs, true, l') ->
  value_of l' + block_outflow rs + overwritten l (block_events rs) = value_of l + block_dbl c txs.
Proof. exact block_supply. Qed.
Print Assumptions qi_block_supply_exact.

(* Any chain of blocks (accepted or rejected, each with its own header context), every fork regime: value held
   afterwards + everything that left <= value held before + the pre-fork double entries of the accepted blocks. *)
Theorem qi_chain_supply : forall blocks (l : ledger), sorted l ->
  value_of (final_ledger l (run_chain true l blocks)) + chain_outflow (run_chain true l blocks)
  <= value_of l + chain_dbl blocks (run_chain true l blocks).
Proof. exact chain_supply. Qed.
Print Assumptions qi_chain_supply.

(* From QiWrappingChangeBlock on, no hypothesis on the transactions: no sequence of blocks makes the ledger hold
   more than it held minus what it paid out -- no Qi from nothing, over all histories. *)
Theorem qi_chain_no_inflation_after_wrapping_fork : forall (l : ledger) blocks, sorted l ->
  Forall (fun b => qi_wrapping_change_block <= c_ptn (fst b)) blocks ->
  value_of (final_ledger l (run_chain true l blocks)) + chain_outflow (run_chain true l blocks) <= value_of l.
Proof.
  intros l blocks S H. pose proof (chain_supply blocks l S) as Hc.
  rewrite chain_dbl_after_fork, N.add_0_r in Hc by exact H. exact Hc.
Qed.
Print Assumptions qi_chain_no_inflation_after_wrapping_fork.

(* ... and the block the node assembles from its own pool balances in the same way when it is processed. *)
Theorem worker_block_supply_qi : forall c (l : ledger) txs, sorted l ->
  Forall (fun t => pool_ok c l t /\ fresh l t /\ sig_fine t) txs ->
  exists rs l', run_block true l c (accepted_txs txs (fst (worker_txs c l true (init_wenv c) txs))) = (rs, true, l')
    /\ value_of l' + block_outflow rs + overwritten l (block_events rs)
       = value_of l + block_dbl c (accepted_txs txs (fst (worker_txs c l true (init_wenv c) txs))).
Proof.
  intros c l txs S H. destruct (worker_block_accepted_view c l txs S H) as (rs & l' & Hr & _).
  exists rs, l'. split; [exact Hr|exact (block_supply _ _ _ _ _ S Hr)].
Qed.
Print Assumptions worker_block_supply_qi.

(* ---- non-vacuity: concrete accepted / rejected instances of the hypotheses above *)

(* an accepted one-input transaction: 1000 -> 500 + 100, fee 400 *)
Example qi_accept_nonvacuous :
  exists rs l', run_block true w_ledger w_ctx [x_tx1] = (rs, true, l')
    /\ map r_fee rs = [400] /\ value_of l' = 600 /\ sorted w_ledger.
Proof. eexists; eexists. split; [vm_compute; reflexivity|]. split; [reflexivity|]. split; [reflexivity|]. apply sortedb_sorted; reflexivity. Qed.

(* two transactions of one block naming the same outpoint: rejected at the second, nothing committed *)
Example qi_block_double_spend_nonvacuous :
  exists rs, run_block true w_ledger w_ctx [x_tx1; x_tx2] = (rs, false, w_ledger) /\ length rs = 1%nat.
Proof. eexists. split; [vm_compute; reflexivity|reflexivity]. Qed.

(* an output created earlier in the block is spendable in the block (read through the batch) *)
Example qi_spend_created_in_block_nonvacuous :
  exists rs l', run_block true w_ledger w_ctx [x_tx1; x_tx3] = (rs, true, l') /\ length rs = 2%nat
    /\ run_block false w_ledger w_ctx [x_tx1; x_tx3] = ([hd (mkRes 0 [] 0 [] []) rs], false, w_ledger).
Proof. eexists; eexists. split; [vm_compute; reflexivity|]. split; [reflexivity|]. vm_compute. reflexivity. Qed.

(* merge-up is refused, splitting accepted *)
Example check_denominations_nonvacuous :
  check_denominations [5; 5; 5] [6] = false /\ check_denominations [6] [5; 5] = true
  /\ check_denominations [9] [8; 8] = true /\ check_denominations [8; 8; 8] [9] = false.
Proof. vm_compute. repeat split. Qed.

(* the worker accepts the first and refuses the second spender of one outpoint; hypotheses of
   worker_block_accepted_qi hold for both *)
Example worker_nonvacuous :
  map (fun o => match o with Some _ => true | None => false end)
      (fst (worker_txs w_ctx w_ledger true (init_wenv w_ctx) [x_tx1; x_tx2])) = [true; false]
  /\ validate_inputs w_ctx w_ledger x_tx1 = true /\ validate_inputs w_ctx w_ledger x_tx2 = true
  /\ fresh w_ledger x_tx1 /\ fresh w_ledger x_tx2.
Proof. split; [vm_compute; reflexivity|]. split; [vm_compute; reflexivity|]. split; [vm_compute; reflexivity|]. split; intros i; reflexivity. Qed.

(* three pool-valid spenders of one outpoint: the worker includes the first only (not the third) *)
Example worker_triple_spend_nonvacuous :
  map (fun o => match o with Some _ => true | None => false end)
      (fst (worker_txs w_ctx w_ledger true (init_wenv w_ctx) [x_tx1; x_tx2; x_tx2b])) = [true; false; false]
  /\ map (validate_inputs w_ctx w_ledger) [x_tx1; x_tx2; x_tx2b] = [true; true; true].
Proof. split; vm_compute; reflexivity. Qed.

(* ownership is per input: a key carried twice where the second occurrence names somebody else's record is
   refused by ProcessQiTx (signature bit set: the holder signed alone, validly; with and without checkSig)
   and by the pool check; the same transaction is accepted when both records are his *)
Example qi_repeated_key_nonvacuous :
  run_block true y_ledger_foreign w_ctx [y_tx true] = ([], false, y_ledger_foreign)
  /\ run_block true y_ledger_foreign w_ctx [y_tx false] = ([], false, y_ledger_foreign)
  /\ validate_inputs w_ctx y_ledger_foreign (y_tx true) = false
  /\ (exists rs l', run_block true y_ledger_own w_ctx [y_tx true] = (rs, true, l') /\ map r_fee rs = [500])
  /\ validate_inputs w_ctx y_ledger_own (y_tx true) = true.
Proof.
  split; [vm_compute; reflexivity|]. split; [vm_compute; reflexivity|]. split; [vm_compute; reflexivity|].
  split; [|vm_compute; reflexivity]. eexists; eexists. split; [vm_compute; reflexivity|reflexivity].
Qed.

(* the pool theorems' hypotheses are met by a real history: forged and valid twin gossiped, valid one cached,
   block with the valid one accepted behind that cache *)
Example qi_pool_cache_nonvacuous :
  pool_admit (fun _ => true) w_ctx w_ledger x_tx1 = true /\ pool_admit (fun _ => true) w_ctx w_ledger p_forged = false
  /\ cache_sound [p_forged; x_tx1] (gossip_history (fun _ => true) [] [(w_ctx, w_ledger, [p_forged; x_tx1])])
  /\ exists rs l', run_block_via_pool (gossip_history (fun _ => true) [] [(w_ctx, w_ledger, [p_forged; x_tx1])])
                                      w_ledger w_ctx [x_tx1] = (rs, true, l').
Proof.
  split; [vm_compute; reflexivity|]. split; [vm_compute; reflexivity|].
  split; [apply (cache_only_verified (fun _ => true) [(w_ctx, w_ledger, [p_forged; x_tx1])])|].
  eexists; eexists. vm_compute. reflexivity.
Qed.

(* supply accounting: 1000 before; 600 after + 400 fee, nothing overwritten; two blocks of a chain (the second one a
   rejected re-spend) leave 600 + 400 = 1000 *)
Example qi_supply_nonvacuous :
  (exists rs l', run_block true w_ledger w_ctx [x_tx1] = (rs, true, l')
     /\ value_of w_ledger = 1000 /\ value_of l' = 600 /\ block_outflow rs = 400
     /\ overwritten w_ledger (block_events rs) = 0 /\ block_dbl w_ctx [x_tx1] = 0)
  /\ (let os := run_chain true w_ledger [(w_ctx, [x_tx1]); (w_ctx, [x_tx2])] in
      value_of (final_ledger w_ledger os) = 600 /\ chain_outflow os = 400 /\ map (fun o => snd (fst o)) os = [true; false])
  /\ qi_wrapping_change_block <= c_ptn w_ctx.
Proof.
  split; [|split].
  - eexists; eexists. split; [vm_compute; reflexivity|]. repeat split; vm_compute; reflexivity.
  - vm_compute. repeat split; reflexivity.
  - vm_compute. discriminate.
Qed.
