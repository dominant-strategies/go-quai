(* C19 -- nonce contiguity of the pending lists.  It is preserved by every operation
   except a chain-head event that moves an account's state nonce backwards (a
   reorganisation) -- see w_gap_history in Proofs/C19.v for what happens then. *)
From Coq Require Import List NArith Lia.
From GQ Require Import Lib.Lists Model.C19 Proofs.C19_Lists Proofs.C19_Moves Proofs.C19_Struct Proofs.C19_State Proofs.C19_Ops.
Import ListNotations.
Local Open Scope N_scope.

Lemma contig_below s l n : contig s l -> contig s (filter (fun x => t_nonce x <? n) l).
Proof.
  revert s. induction l as [|y r IH]; intros s; cbn; [auto|]. intros [E H]. destruct (t_nonce y <? n) eqn:E1.
  - cbn. split; [exact E|apply IH, H].
  - rewrite filter_none; [exact I|]. intros x Hx. pose proof (contig_nonces _ _ _ H Hx). lia.
Qed.
Lemma contig_last_next s l : contig s l -> last_next s l = s + len l.
Proof.
  destruct l as [|x l _] using rev_ind; [intros _; unfold len; cbn; lia|]. intros H.
  apply contig_app in H as [_ H]. cbn in H. rewrite last_next_snoc, len_app. unfold len at 2. cbn. lia.
Qed.
Lemma contig_map s l l' : map t_nonce l = map t_nonce l' -> contig s l -> contig s l'.
Proof.
  revert s l'. induction l as [|y r IH]; intros s [|y' r']; cbn; try discriminate; [auto|].
  intros [= E1 E2] [E H]. split; [congruence|]. eapply IH; eauto.
Qed.
Lemma len_map (l l' : txl) : map t_nonce l = map t_nonce l' -> len l = len l'.
Proof. intros E. unfold len. rewrite <- (map_length t_nonce l), E, map_length. reflexivity. Qed.
Lemma contig_forward s l n : contig s l -> s <= n -> contig n (snd (l_forward n l)).
Proof.
  revert s. induction l as [|y r IH]; intros s; cbn; [auto|]. intros [E H] Hle.
  destruct (t_nonce y <? n) eqn:E1; cbn.
  - apply (IH (s + 1)); [exact H|lia].
  - assert (s = n) by lia. subst n. rewrite filter_all; [split; assumption|].
    intros x Hx. pose proof (contig_nonces _ _ _ H Hx). lia.
Qed.

Definition Kca (p : pool) (a : N) : Prop := contig (st_nonce p a) (aget a (p_pend p)).
Definition Kc (p : pool) : Prop := forall a, Kca p a.

Lemma Kc_T4_pn p a : Kc p -> T4 p -> pn_get p a = st_nonce p a + len (aget a (p_pend p)).
Proof. intros H HT. rewrite HT. apply contig_last_next, H. Qed.
Lemma Kca_view : on_view Kca.
Proof. intros p q a E1 E2 _. unfold Kca, st_nonce. rewrite E1, E2. auto. Qed.
Lemma sv_Kc p q : same_view p q -> Kc p -> Kc q.
Proof. intros S H a. apply (sv_on Kca p q a Kca_view S), H. Qed.

Lemma truncates_Kc a p q : truncates a p q -> Kc p -> Kc q.
Proof.
  intros [Est [Hoth Ha]] H b. unfold Kca, st_nonce. rewrite Est. destruct (N.eq_dec b a) as [->|Hb].
  - destruct Ha as [[E _]|[n [_ [E _]]]]; rewrite E; [apply H|apply contig_below, H].
  - destruct (Hoth b Hb) as [E _]. rewrite E. apply H.
Qed.

Lemma tail_Kc c qo : pres Kc (tail c qo).
Proof.
  apply (tail_pres Kc).
  - intros a q Hq. apply (truncates_Kc a q); [apply drop_last_truncates, (contig_sorted _ _ (Hq a))|exact Hq].
  - intros t q. apply (truncates_Kc (t_from t)), remove_tx_truncates.
  - intros q Hq. destruct (fix_nonces_eq q) as [m ->]. exact Hq.
Qed.

Lemma set_gas_price_Kc c g : pres Kc (set_gas_price c g).
Proof.
  apply set_gas_price_pres; [intros p; apply sv_Kc; repeat split| |intros n p; apply sv_Kc, sv_removed].
  intros t q. apply (truncates_Kc (t_from t)), remove_tx_truncates.
Qed.

(* between the state swap and demoteUnexecutables only what Forward at the new state nonce keeps of a pending
   list is contiguous, and pendingNonces is either behind it or was just reset *)
Definition CRc (p : pool) (a : N) : Prop := contig (st_nonce p a) (snd (l_forward (st_nonce p a) (aget a (p_pend p)))).
Definition CRa (p : pool) (a : N) : Prop :=
  CRc p a /\
  (pn_get p a = st_nonce p a + len (snd (l_forward (st_nonce p a) (aget a (p_pend p)))) \/ pn_get p a = st_nonce p a).

Lemma CRa_after_swap st p : Kc p -> (forall a, st_nonce p a <= nget a (s_nonce st)) -> forall a, CRa (set_pn [] (set_st st p)) a.
Proof.
  intros HK Hmono a. unfold CRa, CRc, pn_get, st_nonce. psimpl. cbn [nfind].
  split; [exact (contig_forward _ _ _ (HK a) (Hmono a))|right; reflexivity].
Qed.

Lemma Kc_T4_CRa p : Kc p -> T4 p -> forall a, CRa p a.
Proof.
  intros H HT a. unfold CRa, CRc.
  rewrite l_forward_all by (intros x Hx; apply (contig_nonces _ _ _ (H a) Hx)). split; [apply H|left; apply Kc_T4_pn; assumption].
Qed.
Lemma CRa_W_Kc p : (forall a, CRa p a) -> W p -> Kc p.
Proof. intros HC HW a. destruct (HC a) as [G1 _]. unfold CRc in G1. rewrite l_forward_all in G1 by apply (w_ge _ _ (HW a)). exact G1. Qed.

Lemma forward_put_same s t l : sorted l -> hasn l (t_nonce t) ->
  map t_nonce (snd (l_forward s (l_put t l))) = map t_nonce (snd (l_forward s l)).
Proof.
  intros Hs Hh. cbn [l_forward snd].
  rewrite <- !(filter_map_swap (fun n => negb (n <? s)) t_nonce), map_nonce_put_same; auto.
Qed.

Lemma CRa_acct : acct CRa.
Proof.
  constructor.
  - intros p q a E1 E2 E3. unfold CRa, CRc, st_nonce. rewrite E1, E2, E3. auto.
  - intros c a x p Hs Hx Hge _ Hle [G1 G2]. rewrite (promote_tx_fresh c _ _ _ Hx). rewrite l_get_none in Hx. unfold CRa, CRc, st_nonce in *. psimpl.
    rewrite aget_aset_same, pn_get_pn_set, N.eqb_refl.
    set (s := nget a (s_nonce (p_st p))) in *. set (pl := aget a (p_pend p)) in *.
    (* the nonce of x is not a pending one: it comes right after the contiguous part *)
    assert (Hnot : ~ hasn (snd (l_forward s pl)) (t_nonce x)).
    { intros [y [Hy Ey]]. apply l_forward_snd in Hy as [Hy _]. exact (Hx y Hy Ey). }
    rewrite (contig_hasn _ _ (t_nonce x) G1) in Hnot.
    assert (Epn : t_nonce x = s + len (snd (l_forward s pl))) by lia.
    assert (Hall : forall y, In y pl -> t_nonce y < t_nonce x).
    { intros y Hy. destruct (t_nonce y <? s) eqn:E; [lia|].
      assert (Hf : In y (snd (l_forward s pl))) by (apply l_forward_snd; split; [exact Hy|lia]).
      pose proof (contig_nonces _ _ _ G1 Hf). lia. }
    rewrite (l_put_end pl x Hs Hall).
    assert (EF : snd (l_forward s (pl ++ [x])) = snd (l_forward s pl) ++ [x]).
    { cbn [l_forward snd]. rewrite filter_app. cbn [filter]. assert (E : t_nonce x <? s = false) by lia. rewrite E. reflexivity. }
    rewrite EF, len_app. split; [apply contig_app; split; [exact G1|split; [exact Epn|exact I]]|]. left. change (len [x]) with 1. lia.
  - intros p a t o Hs Ho En _ _ [G1 G2].
    assert (Hh : hasn (aget a (p_pend p)) (t_nonce t)) by (exists o; auto).
    pose proof (forward_put_same (st_nonce p a) t _ Hs Hh) as Em.
    unfold CRa, CRc, st_nonce in *. psimpl. rewrite aget_aset_same. split.
    + eapply contig_map; [symmetry; exact Em|exact G1].
    + rewrite (len_map _ _ Em). exact G2.
Qed.

Lemma demoted_contig a p : sorted (aget a (p_pend p)) -> CRc p a -> Kca (demoted a p) a.
Proof.
  intros Hs HC. unfold Kca, demoted. psimpl. rewrite aget_aset_same.
  destruct (demote_keep_prefix (st_nonce p a) (st_bal p a) (s_maxgas (p_st p)) _ Hs) as [->|[->|[n ->]]]; [exact I|exact HC|apply contig_below, HC].
Qed.

Lemma demote_all_Kc c p : Inv0 p -> (forall a, CRc p a) -> Kc (demote_all c p).
Proof.
  intros H0 HC. refine (demote_all_acct CRc Kca c p _ Kca_view _ _ _ H0 HC).
  - intros q q' a E1 E2 _. unfold CRc, st_nonce. rewrite E1, E2. auto.
  - intros q a H. unfold CRc. rewrite l_forward_all by (intros x Hx; apply (contig_nonces _ _ _ H Hx)). exact H.
  - intros q a. apply demoted_contig.
  - intros q a E _. unfold Kca. rewrite E. exact I.
Qed.

Fixpoint monotone (S : chainst) (h : list (op * list N)) : Prop :=
  match h with
  | [] => True
  | (OHead r, _) :: h' => (forall a, nget a (s_nonce S) <= nget a (s_nonce (r_st r))) /\ monotone (r_st r) h'
  | _ :: h' => monotone S h'
  end.

Lemma step_Kc c p o qo :
  IWT p -> Kc p -> (match o with OHead r => forall a, st_nonce p a <= nget a (s_nonce (r_st r)) | _ => True end) ->
  Kc (fst (step c p o qo)).
Proof.
  intros [H0 [HW HT]] HK Hm.
  rewrite step_eq. apply tail_Kc. destruct o as [loc txs|g|r|].
  - (* additions and promotions as in a reset phase with the same chain state; W gives contiguity back *)
    apply CRa_W_Kc.
    + exact (proj2 (add_body_IX CRa CRa_acct c loc txs p (conj H0 (Kc_T4_CRa p HK HT)))).
    + exact (proj2 (add_body_IX Wa Wa_acct c loc txs p (conj H0 HW))).
  - apply set_gas_price_Kc, HK.
  - apply (sv_Kc (demote_all c (promote_list c (akeys (p_queue (do_reset c r p))) (do_reset c r p)))); [repeat split|].
    destruct (reset_IX CRa CRa_acct c r p H0 (CRa_after_swap _ p HK Hm)) as [A B]. apply demote_all_Kc; [exact A|]. intros a. apply (B a).
  - exact HK.
Qed.

Lemma run_hist_Kc c h p : IWT p -> Kc p -> monotone (p_st p) h -> Kc (run_hist c p h).
Proof.
  revert p. induction h as [|[o qo] h IH]; intros p HI HK Hm; cbn [run_hist fold_left]; [exact HK|].
  change (Kc (run_hist c (fst (step c p o qo)) h)). apply IH.
  - apply step_IWT. exact HI.
  - apply step_Kc; auto. destruct o as [| |r|]; auto. destruct Hm as [Hm _]. exact Hm.
  - rewrite step_st. destruct o as [| |r|]; cbn in Hm; try exact Hm. destruct Hm as [_ Hm]. exact Hm.
Qed.
