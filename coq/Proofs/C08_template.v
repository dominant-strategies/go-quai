(* C08 -- what the theorems about the signed template of an AuxPoW (Model.C08.template_of = auxpow.go
   ConvertToTemplate) are stated with: the generated obligation on ConvertToTemplate's control-flow paths, and the
   post-fork identity of an AuxPoW, which the template covers up to the nil/empty form of auxPow2. *)
From Coq Require Import String.
From Coq Require Import List ZArith Bool.
From GQ Require Import Generated.C08Fields Model.C08.
Import ListNotations.
Local Open Scope Z_scope.

Definition tmem (s : string) (l : list string) : bool := existsb (String.eqb s) l.
Definition slist_eqb (a b : list string) : bool :=
  forallb (fun x => tmem x b) a && forallb (fun x => tmem x a) b.
Definition assoc (k : string) (m : list (string * list string)) : list string :=
  match find (fun kv => String.eqb (fst kv) k) m with Some kv => snd kv | None => [] end.

Definition cpath := (list (list string * string * bool) * list (string * list string))%type.
Definition path_sources (p : cpath) : list string := concat (map snd (snd p)).
(* the path runs through the taken branch of `recv.f == nil` and that condition reads nothing else *)
Definition own_nil_path (f : string) (p : cpath) : bool :=
  existsb (fun g => match g with
                    | (fs, nt, taken) => taken && String.eqb nt f && slist_eqb fs [f]
                    end) (fst p).

(* receiver fields that AuxPow.ProtoEncode hashes into the identity *)
Definition identity_fields : list string := concat (map snd auxpow_encode_map).
(* reviewed: wire fields of ProtoAuxPow that no encoder writes (decoded objects never carry them) *)
Definition auxpow_wire_never_written : list string := ["SignatureTime"]%string.
Definition template_setters : list string :=
  ["SetPowID"; "SetPrevHash"; "SetVersion"; "SetNBits"; "SetAuxPow2"; "SetSignatureTime"; "SetHeight"; "SetCoinbaseOut";
   "SetMerkleBranch"; "SetSigs"]%string.
(* what the model's template_of copies from where, on every path *)
Definition fixed_setter_sources : list (string * list string) :=
  [("SetPowID", ["powID"]); ("SetPrevHash", ["header"]); ("SetVersion", ["header"]); ("SetNBits", ["header"]);
   ("SetCoinbaseOut", ["transaction"]); ("SetMerkleBranch", ["merkleBranch"]); ("SetSigs", ["signature"])]%string.

Definition template_covers_identity : bool :=
  (* every wire field of ProtoAuxPow is written by ProtoEncode or is on the reviewed list, and those are really not written *)
  forallb (fun f => tmem f (map fst auxpow_encode_map) || tmem f auxpow_wire_never_written) (map snd auxpow_proto_fields)
  && forallb (fun f => negb (tmem f (map fst auxpow_encode_map))) auxpow_wire_never_written
  (* every struct field of AuxPow is hashed into the identity *)
  && forallb (fun f => tmem f identity_fields) auxpow_struct_fields
  (* on EVERY path of ConvertToTemplate every identity field reaches a template setter, or the path is that field's own
     nil-normalisation *)
  && negb (match convert_paths with [] => true | _ => false end)
  && forallb (fun p => forallb (fun f => tmem f (path_sources p) || own_nil_path f p) identity_fields) convert_paths
  (* every path sets all ten template fields; the plain copies have the sources the model assumes; auxPow2 is copied from
     auxPow2 except on its own nil path *)
  && forallb (fun p => forallb (fun s => tmem s (map fst (snd p))) template_setters) convert_paths
  && forallb (fun p => forallb (fun kv => slist_eqb (assoc (fst kv) (snd p)) (snd kv)) fixed_setter_sources) convert_paths
  && forallb (fun p => slist_eqb (assoc "SetAuxPow2" (snd p)) ["auxPow2"%string]
                       || (own_nil_path "auxPow2" p && slist_eqb (assoc "SetAuxPow2" (snd p)) [])) convert_paths
  (* the signed message: AuxTemplate.Hash hashes ProtoEncode, which writes every wire field; only the signature is cleared *)
  && template_hash_uses_encode
  && forallb (fun f => tmem f (map fst template_encode_map)) (map snd template_proto_fields)
  && slist_eqb template_hash_nils ["Sigs"%string].

(* everything AuxPow.ProtoEncode writes (= what WoCustomPowHash hashes) *)
Definition identity (a : auxfull) : Z * bytes * bytes * list bytes * bytes * option bytes :=
  (af_powid a, af_donor a, af_sig a, af_branch a, af_tx a, af_aux2 a).
(* ... with the two encodings of an empty auxPow2 identified *)
Definition identity_norm (a : auxfull) : Z * bytes * bytes * list bytes * bytes * bytes :=
  (af_powid a, af_donor a, af_sig a, af_branch a, af_tx a, aux2_norm (af_aux2 a)).

(* a conversion that would copy auxPow2 for the scrypt chain only; ConvertToTemplate copies it for every chain *)
Definition template_of_scrypt_only (a : auxfull) : template :=
  let t := template_of a in
  mkTmpl (t_powid t) (t_prev t) (t_version t) (t_bits t)
    (if af_powid a =? powid_scrypt then t_aux2 t else Some []) (t_sigtime t) (t_height t) (t_out t) (t_branch t) (t_sigs t).
