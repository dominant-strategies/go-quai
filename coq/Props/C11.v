(* C11 — A crash at any point leaves a database the node can restart and continue from.
   Property theorems, each followed by [Print Assumptions].
   Model: Model/C11.v   Lemmas: Proofs/C11.v   Generated call order: Generated/C11Gen.v

   Trusted, stated explicitly: a batch commit is atomic (and durable) inside leveldb/pebble and
   there are no torn writes below the engine — [crash] cuts the write sequence only between
   top-level operations (first theorem).

   Vocabulary: [Good d bs] = the node restarted on database d reports the tip of chain bs as its
   head, the flat UTXO/lockup key space is exactly the content implied by bs, and the state
   (tries, multiset, undo records) of every block of bs is present.  A script is any sequence of
   store / forward (append) / rollback steps, i.e. appends of whole chains and reorgs. *)
From Coq Require Import List NArith PeanoNat.
From GQ Require Import Model.C11 Generated.C11Gen Proofs.C11.
Import ListNotations.
Local Open Scope N_scope.

(* The crash model: the surviving image is the replay of a prefix of the top-level writes;
   a batch is never split (assumption about the engines, made visible here). *)
Theorem crash_cuts_between_top_level_writes : forall k ws d,
  crash k ws d = apply_all (firstn k ws) d.
Proof. exact (fun k ws d => eq_refl). Qed.
Print Assumptions crash_cuts_between_top_level_writes.

(* Rollback: the batch carries undo + head + canonical together, so every crash point inside a
   rollback step leaves either the old or the new consistent state. *)
Theorem crash_safe_rollback_step : forall d bs b pnum k,
  Good d (bs ++ [b]) -> valid_eff (content bs) b ->
  Good (crash k (back_writes b (last_id bs) pnum) d) (if (k =? 0)%nat then bs ++ [b] else bs).
Proof. exact back_crash. Qed.
Print Assumptions crash_safe_rollback_step.

(* The undo the rollback loop performs (recreate spent, delete created) restores the flat space
   of every valid block. *)
Theorem rollback_undo_restores_flat : forall f b, valid_eff f b ->
  forall u, undo_block (apply_block f b) b u = f u.
Proof. exact undo_apply. Qed.
Print Assumptions rollback_undo_restores_flat.

(* FULL STATEMENT (crash_safe_append): for all k, the image after the first k writes of an append
   is Good for the parent chain or for the extended chain.  It is FALSE for the write order that
   puts the head hash after the block batch ([script_writes false]; [head_in_batch] says which
   order the tree under check has): concrete witness at "block batch committed, head hash not yet
   written". *)
Theorem crash_safe_append_refuted :
  exists d bs b k, Good d bs /\ valid_next bs b
    /\ ~ (Good (crash k (script_writes false (append_script b)) d) bs
          \/ Good (crash k (script_writes false (append_script b)) d) (bs ++ [b])).
Proof.
  exists wd1, [wb1], wb2, 10%nat. split; [exact wd1_good|]. split; [exact wb2_valid|].
  (* the window state: the head reads wb1, entry 1 reads spent *)
  apply (window_not_good _ _ _ 1 (append_crash_window false wd1 [wb1] wb2 wd1_good)); discriminate.
Qed.
Print Assumptions crash_safe_append_refuted.

(* Strongest true statement for that write order: every crash point except the one between
   the block batch (write 10 of 11) and the head put is safe. *)
Theorem crash_safe_append_partial : forall d bs b k,
  Good d bs -> valid_next bs b -> k <> 10%nat ->
  Good (crash k (script_writes false (append_script b)) d) bs
  \/ Good (crash k (script_writes false (append_script b)) d) (bs ++ [b]).
Proof.
  intros d bs b k G V Hk.
  destruct (script_crash false (append_script b) d bs k G (append_script_ok bs b V)) as [bs' [Hin Hg]].
  - rewrite windowb_append. apply Nat.eqb_neq, Hk.
  - destruct Hin as [<-|[<-|[<-|[]]]]; auto.
Qed.
Print Assumptions crash_safe_append_partial.

(* Whole histories (appends of chains, reorgs = rollbacks then forwards), any crash point outside
   the windows: the image is Good for one of the chains the script passes through.
   Stated for the write order of the tree under check (generated flag). *)
Theorem crash_safe_script_partial : forall ss d bs k,
  Good d bs -> script_ok bs ss -> windowb head_in_batch ss k = false ->
  exists bs', In bs' (chains bs ss) /\ Good (crash k (script_writes head_in_batch ss) d) bs'.
Proof. exact (script_crash head_in_batch). Qed.
Print Assumptions crash_safe_script_partial.

(* What the window looks like: head = parent, flat space = child's content, child's state present. *)
Theorem crash_window_state : forall d bs b,
  Good d bs ->
  AfterBatch false (crash 10 (script_writes false (append_script b)) d) bs b.
Proof. exact (append_crash_window false). Qed.
Print Assumptions crash_window_state.

(* ... which is consistent with the reported head iff the block does not change the flat space
   (blocks without Qi activity are insensitive). *)
Theorem crash_window_consistent_iff_no_flat_effect : forall d bs b,
  AfterBatch false d bs b -> (Good d bs <-> forall u, content (bs ++ [b]) u = content bs u).
Proof.
  intros d bs b A. split.
  - intros G u. rewrite <- (shows_flat A). apply (shows_flat G).
  - intros H. split; [exact (shows_head A)|]. split.
    + intros u. rewrite (shows_flat A). apply H.
    + intros x Hx. apply (shows_state A), in_or_app. left. exact Hx.
Qed.
Print Assumptions crash_window_consistent_iff_no_flat_effect.

(* Consequence 1: after restart the interrupted block is rejected (it spends entries that its own
   committed batch already deleted); the node stays at the parent. *)
Theorem crash_window_redo_rejected : forall d bs b u v,
  AfterBatch false d bs b -> In (u, v) (bspent b) -> memk u (bcreated b) = false ->
  check (apply_all (fwd_pre b) (apply_all (store_writes b) d)) b = false
  /\ head_id (exec false d (append_script b)) = last_id bs.
Proof.
  intros d bs b u v A Hin Hc.
  destruct (missing_input_rejected false d _ _ b u v Hin Hc (after_batch_spent _ _ _ _ _ _ A Hin) A) as [C S].
  split; [exact C|exact (shows_head S)].
Qed.
Print Assumptions crash_window_redo_rejected.

(* Consequence 2: so is every other child of that parent that spends one of the same entries. *)
Theorem crash_window_conflicting_sibling_rejected : forall d bs b s u v w,
  AfterBatch false d bs b -> In (u, v) (bspent s) -> memk u (bcreated s) = false -> In (u, w) (bspent b) ->
  head_id (exec false d (append_script s)) = last_id bs.
Proof.
  intros d bs b s u v w A Hin Hc Hb.
  destruct (missing_input_rejected false d _ _ s u v Hin Hc (after_batch_spent _ _ _ _ _ _ A Hb) A) as [_ S].
  exact (shows_head S).
Qed.
Print Assumptions crash_window_conflicting_sibling_rejected.

(* Repair: with the head hash inside the block batch there is no unsafe crash point at all —
   the full statement holds for every script (chains and reorgs). *)
Theorem crash_safe_script_fixed : forall ss d bs k,
  Good d bs -> script_ok bs ss ->
  exists bs', In bs' (chains bs ss) /\ Good (crash k (script_writes true ss) d) bs'.
Proof. intros ss d bs k G Hok. exact (script_crash true ss d bs k G Hok (windowb_fixed ss k)). Qed.
Print Assumptions crash_safe_script_fixed.

(* No double application: after a crash at any point before the block batch, restarting and
   appending the interrupted block again ends in exactly the state of an uninterrupted append
   (effects applied once). *)
Theorem no_double_apply : forall hib d bs b k,
  Good d bs -> valid_next bs b -> (k <= 9)%nat ->
  Good (exec hib (crash k (script_writes hib (append_script b)) d) (append_script b)) (bs ++ [b]).
Proof.
  intros hib d bs b k G V Hk.
  apply (exec_good hib (append_script b) _ bs); [apply append_crash_before; assumption|apply append_script_ok, V].
Qed.
Print Assumptions no_double_apply.

(* Uninterrupted scripts end Good, and on Good states the code's checks (parent state present,
   inputs present) pass, i.e. executing = replaying the write list. *)
Theorem script_complete_good : forall hib ss d bs,
  Good d bs -> script_ok bs ss -> Good (apply_all (script_writes hib ss) d) (chain_end bs ss).
Proof. exact script_complete. Qed.
Print Assumptions script_complete_good.

Theorem exec_refines_writes : forall hib ss d bs,
  Good d bs -> script_ok bs ss -> exec hib d ss = apply_all (script_writes hib ss) d.
Proof. exact exec_apply. Qed.
Print Assumptions exec_refines_writes.

(* Restart (loadLastState) starts from the stored head block hash (first call site, generated)
   and consults only that key; the ProcessedState marker written by the block batch has no
   reader in the tree under check (generated count). *)
Theorem restart_reads_only_head_key :
  hd 0 load_calls = 40 /\ processed_state_read_sites = 0
  /\ forall d d', d KHead = d' KHead -> head_id d = head_id d'.
Proof.
  split; [reflexivity|]. split; [reflexivity|].
  intros d d' H. unfold head_id. rewrite H. reflexivity.
Qed.
Print Assumptions restart_reads_only_head_key.

(* Static tie: the ORDER of the write call sites read from the source (generated) is the order
   of the model's write sequences, for the extension branch, the roll-forward loop and the
   rollback loop (one batch with head + canonical + undo, a single Write). *)
Theorem static_order_extension : forall b,
  static_fwd_classes ext_calls = map class_of (fwd_writes head_in_batch b).
Proof. intros b. rewrite fwd_classes. vm_compute. reflexivity. Qed.
Print Assumptions static_order_extension.

Theorem static_order_roll_forward : forall b,
  static_fwd_classes forward_calls = map class_of (fwd_writes head_in_batch b).
Proof. intros b. rewrite fwd_classes. vm_compute. reflexivity. Qed.
Print Assumptions static_order_roll_forward.

Theorem static_rollback_is_one_batch :
  rollback_atomic = true /\ forall b pid pnum, map class_of (back_writes b pid pnum) = [CBatchRollback].
Proof. split; [vm_compute; reflexivity|exact back_classes]. Qed.
Print Assumptions static_rollback_is_one_batch.

(* One commit per block (the predicate of the harness' structural write-log monitor, on the model):
   in any script the keys a block owns in the unversioned part of the database (flat UTXO/lockup
   entries, undo records, multiset, set size, processed marker) are written by batch commits only,
   each either the block batch of a forwarded block or the rollback batch of a rolled-back block,
   exactly one per such step. A size-triggered early flush of the block batch, or a direct write of
   such a key, is a top-level write outside this shape. *)
Theorem owned_keys_only_in_block_and_rollback_batches : forall hib ss,
  (forall w, In w (script_writes hib ss) -> touches_owned w = true ->
             is_block_batch w = true \/ is_rollback_batch w = true)
  /\ length (filter is_block_batch (script_writes hib ss)) = length (filter is_fwd_step ss)
  /\ length (filter is_rollback_batch (script_writes hib ss)) = length (filter is_back_step ss).
Proof.
  intros hib ss. unfold script_writes. split; [|split].
  - intros w Hin. apply in_flat_map in Hin as [s [_ Hin]]. exact (proj1 (owned_step hib s) w Hin).
  - apply count_flat_map. intros s. apply (owned_step hib s).
  - apply count_flat_map. intros s. apply (owned_step hib s).
Qed.
Print Assumptions owned_keys_only_in_block_and_rollback_batches.

(* Static tie for it (generated from the AST on every run): none of the functions the block batch is
   handed to (every function of core/ with an ethdb.Batch parameter, every function of core/vm, the
   EVM.Batch field) calls Write / Reset / Replay on it, none of them passes another destination to
   a rawdb writer, BodyDb.Append creates one batch and commits it once, after Apply; and the model's
   append touches the owned keys in exactly one top-level write, the block batch. *)
Theorem static_block_batch_committed_once :
  static_single_commit = true
  /\ forall hib b, filter touches_owned (store_writes b ++ fwd_writes hib b) = [WBatch (block_batch hib b)].
Proof.
  split; [vm_compute; reflexivity|]. intros hib b.
  change (filter touches_owned (store_writes b ++ fwd_writes hib b))
    with (if has_key is_owned (block_batch hib b) then [WBatch (block_batch hib b)] else []).
  rewrite (block_batch_has is_owned) by reflexivity. reflexivity.
Qed.
Print Assumptions static_block_batch_committed_once.

(* a concrete Good database with a UTXO, a valid child spending it, and the witness behaviour *)
Example good_nonvacuous : Good wd1 [wb1] /\ valid_next [wb1] wb2.
Proof. exact (conj wd1_good wb2_valid). Qed.

Example window_witness_nonvacuous :
  head_id (exec false (crash 10 (script_writes false (append_script wb2)) wd1) (append_script wb2)) = 1
  /\ head_id (apply_all (script_writes false (append_script wb2)) wd1) = 2.
Proof. split; vm_compute; reflexivity. Qed.

Example fixed_witness_nonvacuous :
  Good (crash 10 (script_writes true (append_script wb2)) wd1) ([wb1] ++ [wb2]).
Proof. exact (shows_tip _ _ _ (append_crash_window true wd1 [wb1] wb2 wd1_good)). Qed.

(* a concrete valid reorg script (rollback of a spending block, forward of a conflicting sibling) *)
Example reorg_script_nonvacuous : Good wd2 [wb1; wb2] /\ script_ok [wb1; wb2] wreorg.
Proof. exact (conj wd2_good wreorg_ok). Qed.

Example no_double_apply_nonvacuous :
  Good (exec false (crash 7 (script_writes false (append_script wb2)) wd1) (append_script wb2)) ([wb1] ++ [wb2]).
Proof. exact (no_double_apply false wd1 [wb1] wb2 7 wd1_good wb2_valid (le_S _ _ (le_S _ _ (le_n 7)))). Qed.

(* a script with forward and rollback steps that really touch owned keys *)
Example owned_keys_nonvacuous :
  length (filter touches_owned (script_writes false (SFwd wb2 :: wreorg))) = 3%nat.
Proof. vm_compute. reflexivity. Qed.
