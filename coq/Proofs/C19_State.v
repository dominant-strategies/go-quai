(* C19 -- invariants of the pending lists relative to the chain state: every pending
   transaction has a nonce >= the account's state nonce, a non-empty pending list holds the
   state nonce, every pending transaction is payable from the balance and fits the block
   gas limit, and pendingNonces is the nonce after the last pending transaction.
   The predicates of one account read the chain state, its pending list and its pendingNonces
   entry only (on_view).  Also what a removal from a pending list does to what they read
   (truncates), and their form between the state swap of a head event and demoteUnexecutables
   (WRa), from which the demotion of the account gives Wa back (demoted_Wa). *)
From Coq Require Import List NArith Lia.
From GQ Require Import Model.C19 Proofs.C19_Lists Proofs.C19_Moves Proofs.C19_Struct.
Import ListNotations.
Local Open Scope N_scope.

Definition payable (p : pool) (a : N) (t : tx) : Prop := unpayable (st_bal p a) (s_maxgas (p_st p)) t = false.
Definition last_next (dflt : N) (l : txl) : N := match rev l with x :: _ => t_nonce x + 1 | [] => dflt end.

Record Wa (p : pool) (a : N) : Prop := {
  w_ge : forall t, In t (aget a (p_pend p)) -> st_nonce p a <= t_nonce t;
  w_front : aget a (p_pend p) <> [] -> hasn (aget a (p_pend p)) (st_nonce p a);
  w_pay : forall t, In t (aget a (p_pend p)) -> payable p a t;
  w_pn_ge : st_nonce p a <= pn_get p a;
  w_pn_empty : aget a (p_pend p) = [] -> pn_get p a = st_nonce p a
}.
Definition W (p : pool) : Prop := forall a, Wa p a.
Definition T4 (p : pool) : Prop := forall a, pn_get p a = last_next (st_nonce p a) (aget a (p_pend p)).
Definition IX (X : pool -> N -> Prop) (p : pool) : Prop := Inv0 p /\ forall a, X p a.
Definition IWT (p : pool) : Prop := Inv0 p /\ W p /\ T4 p.

Definition on_view (X : pool -> N -> Prop) : Prop :=
  forall p q a, p_st q = p_st p -> aget a (p_pend q) = aget a (p_pend p) -> pn_get q a = pn_get p a -> X p a -> X q a.

(* an invariant of one account kept by promoteTx and by a same-nonce replacement, under what Ops.ready_run and Ops.add_view provide *)
Record acct (X : pool -> N -> Prop) : Prop := {
  ac_view : on_view X;
  ac_promote : forall c a x p, sorted (aget a (p_pend p)) -> l_get (t_nonce x) (aget a (p_pend p)) = None ->
    st_nonce p a <= t_nonce x -> payable p a x -> t_nonce x <= pn_get p a -> X p a -> X (promote_tx c a x p) a;
  ac_replace : forall p a t o, sorted (aget a (p_pend p)) -> In o (aget a (p_pend p)) -> t_nonce o = t_nonce t ->
    st_nonce p a <= t_nonce t -> payable p a t -> X p a -> X (set_pend a (l_put t (aget a (p_pend p))) p) a
}.

Lemma Wa_view : on_view Wa.
Proof.
  intros p q a E1 E2 E3 [H1 H2 H3 H4 H5]. unfold payable, st_nonce, st_bal in *.
  constructor; unfold payable, st_nonce, st_bal; rewrite ?E1, ?E2, ?E3; auto.
Qed.

Definition same_view (p q : pool) : Prop := p_st q = p_st p /\ p_pend q = p_pend p /\ p_pn q = p_pn p.
Lemma sv_pn_get p q a : same_view p q -> pn_get q a = pn_get p a.
Proof. intros [E1 [E2 E3]]. unfold pn_get, st_nonce. rewrite E1, E3. reflexivity. Qed.
Lemma sv_on X p q a : on_view X -> same_view p q -> X p a -> X q a.
Proof. intros Xv S. apply Xv; [apply S|rewrite (proj1 (proj2 S)); reflexivity|apply sv_pn_get, S]. Qed.
Lemma sv_refl p : same_view p p.
Proof. repeat split. Qed.
Lemma sv_trans p q r : same_view p q -> same_view q r -> same_view p r.
Proof. intros [A1 [A2 A3]] [B1 [B2 B3]]. repeat split; congruence. Qed.
Lemma sv_removed n p : same_view p (removed n p).
Proof. destruct (removed_eq n p) as [h [s ->]]. repeat split. Qed.
Lemma sv_heap_put t l p : same_view p (heap_put t l p).
Proof. unfold heap_put. destruct l; repeat split. Qed.
Lemma sv_drop_old old p : same_view p (drop_old old p).
Proof. destruct old as [o|]; [eapply sv_trans; [|apply sv_removed]|]; repeat split. Qed.
Lemma sv_requeue c x p : same_view p (requeue c x p).
Proof.
  rewrite requeue_unfold. destruct (l_add _ _ _) as [[q' old]|]; [|apply sv_refl]. eapply sv_trans; [|apply sv_drop_old]. repeat split.
Qed.
Lemma sv_mark_local a p : same_view p (mark_local a p).
Proof. unfold mark_local, remote_to_locals. eapply sv_trans; [|apply sv_removed]. repeat split. Qed.
Lemma sv_requeue_list c D p : same_view p (fold_left (fun s t => requeue c t s) D p).
Proof. apply (fold_pres (same_view p) (fun s t => requeue c t s)); [|apply sv_refl]. intros x q S. eapply sv_trans; [exact S|apply sv_requeue]. Qed.
Lemma sv_pn_set_if_lower a v p q : same_view p q -> same_view (pn_set_if_lower a v p) (pn_set_if_lower a v q).
Proof.
  intros S. unfold pn_set_if_lower. rewrite (sv_pn_get _ _ a S). destruct S as [E1 [E2 E3]].
  destruct (_ <=? _); repeat split; psimpl; congruence.
Qed.

Lemma pn_get_pn_set a v p b : pn_get (pn_set a v p) b = if a =? b then v else pn_get p b.
Proof. unfold pn_get, pn_set, st_nonce. psimpl. cbn [nfind]. destruct (a =? b); reflexivity. Qed.
Lemma pn_get_if_lower a v p b : pn_get (pn_set_if_lower a v p) b = if a =? b then N.min (pn_get p a) v else pn_get p b.
Proof.
  unfold pn_set_if_lower. destruct (pn_get p a <=? v) eqn:E.
  - destruct (a =? b) eqn:E2; [|reflexivity]. assert (b = a) by lia. subst. lia.
  - rewrite pn_get_pn_set. destruct (a =? b); [lia|reflexivity].
Qed.

Lemma last_next_snoc d l x : last_next d (l ++ [x]) = t_nonce x + 1.
Proof. unfold last_next. rewrite rev_unit. reflexivity. Qed.
Lemma last_next_sorted d l x : sorted l -> In x l -> t_nonce x < last_next d l.
Proof.
  destruct l as [|y l _] using rev_ind; [intros _ []|]. rewrite last_next_snoc. intros Hs Hx.
  apply sorted_app in Hs as [_ [_ S3]]. apply in_app_or in Hx as [Hx|[<-|[]]]; [|lia].
  specialize (S3 x y Hx (or_introl eq_refl)). lia.
Qed.
Lemma last_next_hasn d l : l <> [] -> exists x, In x l /\ last_next d l = t_nonce x + 1.
Proof.
  destruct l as [|y l _] using rev_ind; [congruence|]. intros _. exists y. rewrite last_next_snoc, in_app_iff. cbn. auto.
Qed.

Lemma validate_ok p t : validate p t = None ->
  st_nonce p (t_from t) <= t_nonce t /\ payable p (t_from t) t.
Proof.
  unfold validate, payable, unpayable.
  destruct (_ <? t_gas t) eqn:E1; [discriminate|]. destruct (_ <? s_basefee _); [discriminate|].
  destruct (_ <? p_gasprice p); [discriminate|]. destruct (t_nonce t <? _) eqn:E2; [discriminate|].
  destruct (_ <? cost t) eqn:E3; [discriminate|]. intros _. split; [lia|]. reflexivity.
Qed.

Lemma Wa_put p a t :
  Wa p a -> sorted (aget a (p_pend p)) -> st_nonce p a <= t_nonce t -> payable p a t ->
  (aget a (p_pend p) = [] -> t_nonce t = st_nonce p a) ->
  Wa (set_pend a (l_put t (aget a (p_pend p))) p) a.
Proof.
  intros [H1 H2 H3 H4 H5] Hs Hge Hpay Hfirst.
  constructor; unfold payable, st_nonce, st_bal in *; psimpl; rewrite ?aget_aset_same.
  - intros x Hx. apply l_put_in in Hx as [->|[Hx _]]; auto.
  - intros _. destruct (aget a (p_pend p)) as [|y r] eqn:E.
    + exists t. split; [cbn; auto|]. apply Hfirst. reflexivity.
    + apply l_put_hasn; auto. apply H2. discriminate.
  - intros x Hx. apply l_put_in in Hx as [->|[Hx _]]; auto.
  - exact H4.
  - intros E. exfalso. eapply l_put_nonempty; eauto.
Qed.

Lemma Wa_acct : acct Wa.
Proof.
  constructor; [exact Wa_view| |].
  - intros c a x p Hs Hf Hge Hpay Hle HW. rewrite (promote_tx_fresh _ _ _ _ Hf).
    assert (HW1 : Wa (set_pend a (l_put x (aget a (p_pend p))) p) a).
    { apply Wa_put; auto. intros E. pose proof (w_pn_empty _ _ HW E). lia. }
    destruct HW1 as [H1 H2 H3 H4 H5]. constructor; unfold payable, st_nonce, st_bal in *; psimpl; auto.
    + rewrite pn_get_pn_set, N.eqb_refl. lia.
    + rewrite aget_aset_same. intros E. exfalso. eapply l_put_nonempty; eauto.
  - intros p a t o Hs Ho _ Hge Hpay HW. apply Wa_put; auto. intros E. rewrite E in Ho. destruct Ho.
Qed.

(* what removeTx of a pending transaction and txList.Cap(len-1) do to what the predicates read *)
Definition truncates (a : N) (p q : pool) : Prop :=
  p_st q = p_st p /\
  (forall b, b <> a -> aget b (p_pend q) = aget b (p_pend p) /\ pn_get q b = pn_get p b) /\
  ((aget a (p_pend q) = aget a (p_pend p) /\ pn_get q a = pn_get p a) \/
   exists n, hasn (aget a (p_pend p)) n /\
     aget a (p_pend q) = filter (fun x => t_nonce x <? n) (aget a (p_pend p)) /\ pn_get q a = N.min (pn_get p a) n).

Lemma truncates_refl a p : truncates a p p.
Proof. split; [reflexivity|]. split; [auto|left; auto]. Qed.

Lemma truncates_cut a n p q : hasn (aget a (p_pend p)) n ->
  same_view (pn_set_if_lower a n (set_pend a (filter (fun x => t_nonce x <? n) (aget a (p_pend p))) p)) q -> truncates a p q.
Proof.
  intros Hn S. pose proof (fun b => sv_pn_get _ _ b S) as Epn. destruct S as [Est [Ep _]].
  assert (F : forall p1, p_st (pn_set_if_lower a n p1) = p_st p1 /\ p_pend (pn_set_if_lower a n p1) = p_pend p1)
    by (intros p1; unfold pn_set_if_lower; destruct (_ <=? _); auto).
  rewrite (proj1 (F _)) in Est. rewrite (proj2 (F _)) in Ep. psimpl.
  split; [exact Est|]. rewrite Ep. split.
  - intros b Hb. rewrite aget_aset_other, Epn, pn_get_if_lower by auto. assert (E : a =? b = false) by lia. rewrite E. auto.
  - right. exists n. rewrite aget_aset_same, Epn, pn_get_if_lower, N.eqb_refl. auto.
Qed.

Lemma truncates_W a p q : truncates a p q -> W p -> W q.
Proof.
  intros [Est [Hoth Ha]] HW b. destruct (N.eq_dec b a) as [->|Hb].
  2:{ destruct (Hoth b Hb) as [E1 E2]. apply (Wa_view p); auto. }
  destruct Ha as [[E1 E2]|[n [[y [Hy Ey]] [E1 E2]]]]; [apply (Wa_view p); auto|].
  destruct (HW a) as [H1 H2 H3 H4 H5].
  assert (Hne : aget a (p_pend p) <> []) by (intros E; rewrite E in Hy; destruct Hy).
  destruct (H2 Hne) as [s [Hs0 Es]]. pose proof (H1 _ Hy) as Hyn.
  constructor; unfold payable, st_nonce, st_bal in *; rewrite ?Est, ?E1, ?E2.
  - intros x Hx. apply filter_In in Hx as [Hx _]. auto.
  - intros Hkne. exists s. split; [|exact Es]. apply filter_In. split; [exact Hs0|].
    destruct (filter _ _) as [|z r] eqn:E; [congruence|].
    assert (Hz : In z (z :: r)) by (left; reflexivity). rewrite <- E in Hz. apply filter_In in Hz as [Hz Hlt].
    specialize (H1 _ Hz). lia.
  - intros x Hx. apply filter_In in Hx as [Hx _]. auto.
  - lia.
  - intros E. assert (~ (t_nonce s < n)).
    { intros L. assert (Hin : In s (filter (fun x => t_nonce x <? n) (aget a (p_pend p)))) by (apply filter_In; split; [exact Hs0|lia]).
      rewrite E in Hin. destruct Hin. }
    lia.
Qed.

(* the reset phase: between the state swap and demoteUnexecutables *)
Definition WRa (p : pool) (a : N) : Prop :=
  st_nonce p a <= pn_get p a /\
  (pn_get p a = st_nonce p a \/ exists t, In t (aget a (p_pend p)) /\ t_nonce t = st_nonce p a /\ payable p a t).

Lemma WRa_view : on_view WRa.
Proof. intros p q a E1 E2 E3 [H1 H2]. unfold WRa, payable, st_nonce, st_bal in *. rewrite E1, E2, E3. auto. Qed.
Lemma Wa_WRa p a : Wa p a -> WRa p a.
Proof.
  intros [H1 H2 H3 H4 H5]. split; [exact H4|].
  destruct (aget a (p_pend p)) as [|y r] eqn:E; [left; apply H5; reflexivity|].
  right. destruct H2 as [t [Ht En]]; [discriminate|]. exists t. auto.
Qed.
Lemma WRa_empty p a : aget a (p_pend p) = [] -> WRa p a -> Wa p a.
Proof.
  intros E [G1 G2]. constructor; rewrite ?E; try (intros ? []); try congruence; auto.
  intros _. destruct G2 as [G2|[w [Hw _]]]; [exact G2|]. rewrite E in Hw. destruct Hw.
Qed.
Lemma WRa_after_swap st p a : WRa (set_pn [] (set_st st p)) a.
Proof. unfold WRa, pn_get, st_nonce. psimpl. cbn [nfind]. split; [lia|left; reflexivity]. Qed.

(* demoteUnexecutables on account a, as the account predicates see it (demote_one_view in C19_Ops) *)
Definition demoted (a : N) (p : pool) : pool :=
  set_pend a (demote_keep (st_nonce p a) (st_bal p a) (s_maxgas (p_st p)) (aget a (p_pend p))) p.

Lemma demoted_Wa a p : sorted (aget a (p_pend p)) -> WRa p a -> Wa (demoted a p) a.
Proof.
  intros Hs [G1 G2]. destruct (demote_keep_spec (st_nonce p a) (st_bal p a) (s_maxgas (p_st p)) _ Hs) as [Sub [Front Wit]].
  cbn zeta in *. constructor; unfold demoted, payable, st_nonce, st_bal, pn_get in *; psimpl; rewrite ?aget_aset_same.
  - intros x Hx. apply Sub, Hx.
  - exact Front.
  - intros x Hx. apply Sub, Hx.
  - exact G1.
  - intros E. destruct G2 as [G2|[w [Hw [En Hp]]]]; [exact G2|]. destruct (Wit w Hw En Hp E).
Qed.

Lemma WRa_put p a t : sorted (aget a (p_pend p)) -> payable p a t ->
  (exists w, In w (aget a (p_pend p)) /\ t_nonce w = st_nonce p a /\ payable p a w) ->
  exists w, In w (l_put t (aget a (p_pend p))) /\ t_nonce w = st_nonce p a /\ payable p a w.
Proof.
  intros Hs Hpay [w [Hw [En Hp]]]. destruct (N.eq_dec (t_nonce w) (t_nonce t)) as [E|E].
  - exists t. split; [apply l_put_in; auto|]. split; [congruence|exact Hpay].
  - exists w. split; [apply l_put_in; auto|]. auto.
Qed.

Lemma WRa_acct : acct WRa.
Proof.
  constructor; [exact WRa_view| |].
  - intros c a x p Hs Hf Hge Hpay Hle [G1 G2]. rewrite (promote_tx_fresh _ _ _ _ Hf).
    pose proof (WRa_put p a x Hs Hpay) as X.
    unfold WRa, payable, st_nonce, st_bal in *. psimpl. rewrite pn_get_pn_set, N.eqb_refl, aget_aset_same. split; [lia|]. right.
    destruct G2 as [G2|G2]; [|apply X, G2].
    exists x. split; [apply l_put_in; auto|]. split; [unfold pn_get, st_nonce in *; lia|exact Hpay].
  - intros p a t o Hs _ _ _ Hpay [G1 G2]. pose proof (WRa_put p a t Hs Hpay) as X.
    unfold WRa, payable, st_nonce, st_bal in *. psimpl. rewrite aget_aset_same. split; [exact G1|].
    destruct G2 as [G2|G2]; [left; exact G2|right; apply X, G2].
Qed.
