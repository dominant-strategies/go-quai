(* C07 — the validator of Model/C07.v characterised check by check, what a second block may deviate in,
   what a block offered to SetCurrentHeader can do to the database, and the side conditions on the generated comparison
   sites and write skeletons. *)
From Coq Require Import List NArith Bool Lia String.
From GQ Require Import Lib.Lists Model.C07 Generated.C07Checks.
Import ListNotations.
Local Open Scope N_scope.

Lemma all_fields_complete : forall f, In f all_fields.
Proof. intros []; simpl; tauto. Qed.

Lemma field_eq_dec : forall f g : field, {f = g} + {f <> g}.
Proof. decide equality. Qed.

Lemma commitments_eta : forall c,
  c = mkC (get FUncleHash c) (get FTxRoot c) (get FEtxHash c) (get FReceiptRoot c) (get FEvmRoot c) (get FUtxoRoot c)
          (get FEtxSetRoot c) (get FGasUsed c) (get FStateUsed c) (get FStateSize c) (get FAvgFees c) (get FTotalFees c)
          (get FUncledEntropy c).
Proof. intros []; reflexivity. Qed.

Lemma commitments_ext : forall a b, (forall f, get f a = get f b) -> a = b.
Proof. intros a b H. rewrite (commitments_eta a), (commitments_eta b), !H. reflexivity. Qed.

Lemma commitments_eqb_eq : forall a b, commitments_eqb a b = true <-> a = b.
Proof.
  intros a b. unfold commitments_eqb. rewrite forallb_forall. split.
  - intros H. apply commitments_ext. intros f. apply N.eqb_eq, H, all_fields_complete.
  - intros -> f _. apply N.eqb_refl.
Qed.

Lemma commitments_eq_dec : forall a b : commitments, {a = b} + {a <> b}.
Proof.
  intros a b. destruct (commitments_eqb a b) eqn:E.
  - left. apply commitments_eqb_eq. exact E.
  - right. intros H. apply commitments_eqb_eq in H. congruence.
Qed.

Lemma get_set_same : forall f v c, get f (set f v c) = v.
Proof. intros [] v []; reflexivity. Qed.

Lemma get_set_other : forall f g v c, f <> g -> get g (set f v c) = get g c.
Proof. intros [] [] v [] H; try reflexivity; contradiction H; reflexivity. Qed.

Lemma set_changes : forall f v c, v <> get f c -> set f v c <> c.
Proof. intros f v c H E. apply H. rewrite <- E. symmetry. apply get_set_same. Qed.

Lemma canon_remove_absent : forall n l, (forall k h, In (k, h) l -> k <> n) -> canon_remove n l = l.
Proof. intros n l H. apply filter_all. intros [k h] Hin. apply negb_true_iff, N.eqb_neq, (H k h Hin). Qed.

Lemma canon_remove_write : forall n h l, canon_remove n (canon_write n h l) = canon_remove n l.
Proof.
  intros n h l. unfold canon_write, canon_remove. cbn [filter fst]. rewrite N.eqb_refl. cbn [negb].
  apply filter_all. intros p Hp. apply filter_In in Hp. apply Hp.
Qed.

Lemma in_canon_remove : forall n l k h, In (k, h) (canon_remove n l) <-> In (k, h) l /\ k <> n.
Proof. intros n l k h. unfold canon_remove. rewrite filter_In, negb_true_iff, N.eqb_neq. reflexivity. Qed.

Section Proofs.
  Variables tx uncle hdr state : Type.
  Variable root : list tx -> N.
  Variable uroot : list uncle -> N.
  Variable uncles_ok : state -> hdr -> list uncle -> bool.
  Variable scope_ok : list tx -> bool.
  Variable exec : state -> hdr -> list tx -> list uncle -> option (state * exec_out tx).
  Variable bhash : hdr -> commitments -> N.
  Variable h_parent : hdr -> N.
  Variable h_num : hdr -> N.

  Notation block := (block tx uncle hdr).
  Notation result := (result state).
  Notation Ok := (Ok state).
  Notation Err := (Err state).
  Notation check := (check state).
  Notation recomputed := (recomputed tx uncle root uroot).
  Notation validate_state := (validate_state tx state root).
  Notation apply := (apply tx uncle hdr state root exec).
  Notation validate_body := (validate_body tx uncle hdr state root uroot uncles_ok scope_ok).
  Notation validate := (validate tx uncle hdr state root uroot uncles_ok scope_ok exec).
  Notation assemble := (assemble tx uncle hdr state root uroot exec).
  Notation db := (db state).
  Notation hash_of := (hash_of tx uncle hdr bhash).
  Notation append := (append tx uncle hdr state root exec).
  Notation set_current_header := (set_current_header tx uncle hdr state root exec bhash h_parent h_num).
  Notation offer := (offer tx uncle hdr state root uroot uncles_ok scope_ok exec bhash h_parent h_num).
  Notation run := (run tx uncle hdr state root uroot uncles_ok scope_ok exec bhash h_parent h_num).
  Notation accepted := (accepted tx uncle hdr state root uroot uncles_ok scope_ok exec bhash h_parent h_num).
  Notation wf := (wf state).
  Notation child_numbered := (child_numbered tx uncle hdr state h_parent h_num).

  Definition with_decl (b : block) (d : commitments) : block :=
    mkBlock tx uncle hdr (b_hdr _ _ _ b) (b_txs _ _ _ b) (b_etxs _ _ _ b) (b_uncles _ _ _ b) d.
  Definition with_txs (b : block) (l : list tx) : block :=
    mkBlock tx uncle hdr (b_hdr _ _ _ b) l (b_etxs _ _ _ b) (b_uncles _ _ _ b) (b_decl _ _ _ b).
  Definition with_etxs (b : block) (l : list tx) : block :=
    mkBlock tx uncle hdr (b_hdr _ _ _ b) (b_txs _ _ _ b) l (b_uncles _ _ _ b) (b_decl _ _ _ b).
  Definition with_uncles (b : block) (l : list uncle) : block :=
    mkBlock tx uncle hdr (b_hdr _ _ _ b) (b_txs _ _ _ b) (b_etxs _ _ _ b) l (b_decl _ _ _ b).

  Lemma check_ok : forall (c : bool) v k st, check c v k = Ok st <-> c = true /\ k = Ok st.
  Proof.
    intros [] v k st; unfold C07.check.
    - split; [intros H; split; [reflexivity | exact H] | intros [_ H]; exact H].
    - split; [discriminate | intros [H _]; discriminate H].
  Qed.

  Lemma check_then : forall (c : bool) v k st (P : Prop),
    (k = Ok st <-> P) -> (check c v k = Ok st <-> c = true /\ P).
  Proof. intros c v k st P H. rewrite check_ok, H. reflexivity. Qed.

  Lemma check_eqb_then : forall a b v k st (P : Prop),
    (k = Ok st <-> P) -> (check (a =? b) v k = Ok st <-> a = b /\ P).
  Proof. intros a b v k st P H. rewrite check_ok, N.eqb_eq, H. reflexivity. Qed.

  Lemma validate_body_ok : forall st b k s,
    validate_body st b k = Ok s <->
    uncles_ok st (b_hdr _ _ _ b) (b_uncles _ _ _ b) = true /\ uroot (b_uncles _ _ _ b) = c_uncle_hash (b_decl _ _ _ b)
    /\ root (b_txs _ _ _ b) = c_tx_root (b_decl _ _ _ b) /\ scope_ok (b_txs _ _ _ b) = true
    /\ root (b_etxs _ _ _ b) = c_etx_hash (b_decl _ _ _ b) /\ k = Ok s.
  Proof.
    intros st b k s. unfold C07.validate_body.
    apply check_then, check_eqb_then, check_eqb_then, check_then, check_eqb_then. reflexivity.
  Qed.

  Lemma validate_body_pass : forall st b k s, validate_body st b k = Ok s -> forall k', validate_body st b k' = k'.
  Proof.
    intros st b k s H k'. apply validate_body_ok in H. destruct H as (Hu & Huh & Htx & Hsc & Hetx & _).
    unfold C07.validate_body. rewrite Hu, Huh, Htx, Hsc, Hetx, !N.eqb_refl. reflexivity.
  Qed.

  Lemma validate_state_ok : forall d st' x st,
    validate_state d st' x = Ok st <->
    x_gas_used _ x = c_gas_used d /\ x_state_used _ x = c_state_used d /\ x_receipt_root _ x = c_receipt_root d
    /\ x_evm_root _ x = c_evm_root d /\ x_state_size _ x = c_state_size d /\ x_utxo_root _ x = c_utxo_root d
    /\ x_etxset_root _ x = c_etxset_root d /\ root (x_emitted _ x) = c_etx_hash d
    /\ x_uncled_entropy _ x = c_uncled_entropy d /\ st' = st.
  Proof.
    intros d st' x st. unfold C07.validate_state. do 9 apply check_eqb_then.
    split; [intros [= ->] | intros ->]; reflexivity.
  Qed.

  Lemma apply_ok : forall st b st',
    apply st b = Ok st' <->
    exists s x, exec st (b_hdr _ _ _ b) (b_txs _ _ _ b) (b_uncles _ _ _ b) = Some (s, x)
      /\ x_avg_fees _ x = c_avg_fees (b_decl _ _ _ b) /\ x_total_fees _ x = c_total_fees (b_decl _ _ _ b)
      /\ validate_state (b_decl _ _ _ b) s x = Ok st'.
  Proof.
    intros st b st'. unfold C07.apply.
    destruct (exec st (b_hdr _ _ _ b) (b_txs _ _ _ b) (b_uncles _ _ _ b)) as [[s x]|].
    - rewrite !check_ok, !N.eqb_eq. split.
      + intros H. exists s, x. split; [reflexivity | exact H].
      + intros (s' & x' & [= <- <-] & H). exact H.
    - split; [discriminate|]. intros (s & x & [=] & _).
  Qed.

  Lemma validate_ok : forall st b st',
    validate st b = Ok st' <->
    uncles_ok st (b_hdr _ _ _ b) (b_uncles _ _ _ b) = true /\ scope_ok (b_txs _ _ _ b) = true
    /\ root (b_etxs _ _ _ b) = c_etx_hash (b_decl _ _ _ b)
    /\ exists x, exec st (b_hdr _ _ _ b) (b_txs _ _ _ b) (b_uncles _ _ _ b) = Some (st', x)
              /\ recomputed (b_txs _ _ _ b) (b_uncles _ _ _ b) x = b_decl _ _ _ b.
  Proof.
    intros st b st'. unfold C07.validate. rewrite validate_body_ok, apply_ok. split.
    - intros (Hu & Huh & Htx & Hsc & Hetx & s & x & Hx & Ha & Ht & Hv).
      apply validate_state_ok in Hv. destruct Hv as (Hg & Hsu & Hr & He & Hss & Hut & Hes & Hem & Hue & ->).
      repeat split; try assumption. exists x. split; [exact Hx|].
      (* each field is compared by one of the checks *)
      apply commitments_ext. intros []; assumption.
    - intros (Hu & Hsc & Hetx & x & Hx & Hr). rewrite <- Hr in *. cbn in Hetx |- *.
      (* every comparison but the one of the body's outbound list is of a value with itself *)
      repeat split; try assumption; try reflexivity. exists st', x. repeat split; try assumption; try reflexivity.
      apply validate_state_ok. repeat split; reflexivity.
  Qed.

  Lemma same_body_same_declaration : forall st b st' b',
    validate st b = Ok st' ->
    b_hdr _ _ _ b' = b_hdr _ _ _ b -> b_txs _ _ _ b' = b_txs _ _ _ b -> b_uncles _ _ _ b' = b_uncles _ _ _ b ->
    (exists c, validate st b' = Err c) \/ b_decl _ _ _ b' = b_decl _ _ _ b.
  Proof.
    intros st b st' b' H Hh Ht Hu. destruct (validate st b') as [s|c] eqn:Hs; [right | left; exists c; reflexivity].
    apply validate_ok in H. apply validate_ok in Hs. rewrite Hh, Ht, Hu in Hs.
    destruct H as (_ & _ & _ & x & Hx & <-). destruct Hs as (_ & _ & _ & x' & Hx' & <-).
    rewrite Hx in Hx'. injection Hx' as _ <-. reflexivity.
  Qed.

  Lemma same_declaration_same_roots : forall st b st' b',
    validate st b = Ok st' -> b_decl _ _ _ b' = b_decl _ _ _ b ->
    (exists c, validate st b' = Err c)
    \/ (uroot (b_uncles _ _ _ b') = uroot (b_uncles _ _ _ b) /\ root (b_txs _ _ _ b') = root (b_txs _ _ _ b)
        /\ root (b_etxs _ _ _ b') = root (b_etxs _ _ _ b)).
  Proof.
    intros st b st' b' H Hd. destruct (validate st b') as [s|c] eqn:Hs; [right | left; exists c; reflexivity].
    apply validate_body_ok in H. apply validate_body_ok in Hs. rewrite Hd in Hs.
    destruct H as (_ & -> & -> & _ & -> & _). tauto.
  Qed.

  Lemma assemble_some : forall st h txs uncles b,
    assemble st h txs uncles = Some b <->
    exists st' x, exec st h txs uncles = Some (st', x)
                  /\ b = mkBlock tx uncle hdr h txs (x_emitted _ x) uncles (recomputed txs uncles x).
  Proof.
    intros st h txs uncles b. unfold C07.assemble. destruct (exec st h txs uncles) as [[st' x]|]; split.
    - intros [= <-]. exists st', x. split; reflexivity.
    - intros (s & y & [= <- <-] & ->). reflexivity.
    - discriminate.
    - intros (s & y & [=] & _).
  Qed.

  Lemma append_accepted : forall d b st', snd (append d b) = Ok st' ->
    fst (append d b) = mkDb state st' (d_canon _ d) (d_head _ d) (d_headnum _ d) /\ apply (d_state _ d) b = Ok st'.
  Proof.
    intros d b st'. unfold C07.append. destruct (apply (d_state _ d) b) eqn:E; simpl; intros H; [|discriminate].
    inversion H. subst. split; reflexivity.
  Qed.

  Definition extend (d : db) (b : block) (st' : state) : db :=
    mkDb state st' (canon_write (h_num (b_hdr _ _ _ b)) (hash_of b) (d_canon _ d)) (hash_of b) (h_num (b_hdr _ _ _ b)).

  Lemma wf_extend : forall d b st', wf d -> h_num (b_hdr _ _ _ b) = d_headnum _ d + 1 -> wf (extend d b st').
  Proof.
    intros d b st' Hwf Hn k h [[= <- <-]|Hin]; cbn.
    - lia.
    - apply in_canon_remove in Hin. destruct Hin as [Hin _]. apply Hwf in Hin. lia.
  Qed.

  (* DeleteCanonicalHash(n) *)
  Definition unrecord (n : N) (d : db) : db :=
    mkDb state (d_state _ d) (canon_remove n (d_canon _ d)) (d_head _ d) (d_headnum _ d).

  (* why SetCurrentHeader can simply delete again the record it wrote before AppendBlock *)
  Lemma unrecord_above_head : forall n d, wf d -> d_headnum _ d < n -> unrecord n d = d.
  Proof.
    intros n d Hwf Hn. unfold unrecord. rewrite canon_remove_absent; [destruct d; reflexivity|].
    intros k h Hin ->. apply Hwf in Hin. lia.
  Qed.

  Lemma wf_unrecord : forall n d, wf d -> wf (unrecord n d).
  Proof. intros n d Hwf k h Hin. apply in_canon_remove in Hin. exact (Hwf k h (proj1 Hin)). Qed.

  (* [out_refused] carries the negation of [out_accepted]'s premises, so that an acceptable block can only be
     accepted (offer_accepts). *)
  Inductive outcome (v : result) (d : db) (b : block) : db * sch_result -> Prop :=
  | out_accepted st' :
      h_parent (b_hdr _ _ _ b) = d_head _ d -> hash_of b <> d_head _ d -> v = Ok st' ->
      outcome v d b (extend d b st', SOk)
  | out_refused r :
      r <> SOk -> ~ (h_parent (b_hdr _ _ _ b) = d_head _ d /\ hash_of b <> d_head _ d /\ exists st', v = Ok st') ->
      outcome v d b (d, r)
  | out_failed c :
      h_parent (b_hdr _ _ _ b) = d_head _ d -> v = Err c ->
      outcome v d b (unrecord (h_num (b_hdr _ _ _ b)) d, SErr c).

  Lemma sch_outcome : forall d b, outcome (apply (d_state _ d) b) d b (set_current_header d b).
  Proof.
    intros d b. unfold C07.set_current_header, C07.append.
    destruct (hash_of b =? d_head _ d) eqn:Eh.
    { apply out_refused; [discriminate | intros (_ & H & _); apply H, N.eqb_eq, Eh]. }
    destruct (h_parent (b_hdr _ _ _ b) =? d_head _ d) eqn:Ep.
    2: { apply out_refused; [discriminate | intros (H & _); apply N.eqb_neq in Ep; contradiction]. }
    apply N.eqb_neq in Eh. apply N.eqb_eq in Ep. cbn [d_state].
    destruct (apply (d_state _ d) b) as [st'|c]; cbn [d_state d_canon d_head d_headnum].
    - apply (out_accepted _ d b st' Ep Eh eq_refl).
    - rewrite canon_remove_write. apply (out_failed _ d b c Ep eq_refl).
  Qed.

  Lemma offer_outcome : forall d b, outcome (validate (d_state _ d) b) d b (offer d b).
  Proof.
    intros d b. unfold C07.offer.
    destruct (validate_body (d_state _ d) b (Ok (d_state _ d))) eqn:E.
    - unfold C07.validate. rewrite (validate_body_pass _ _ _ _ E). apply sch_outcome.
    - (* had the whole validation passed, so would the body checks in front of any continuation *)
      apply out_refused; [discriminate | intros (_ & _ & s & Hs)].
      rewrite (validate_body_pass _ _ _ _ Hs) in E. discriminate E.
  Qed.

  Lemma outcome_rejected : forall v d b o,
    outcome v d b o -> wf d -> child_numbered d b -> snd o <> SOk -> fst o = d.
  Proof.
    intros v d b o [st' Hp _ _|r _ _|c Hp _] Hwf Hnum H; cbn [fst snd] in *.
    - contradiction H. reflexivity.
    - reflexivity.
    - apply unrecord_above_head; [exact Hwf | rewrite (Hnum Hp); lia].
  Qed.

  Lemma outcome_wf : forall v d b o, outcome v d b o -> wf d -> child_numbered d b -> wf (fst o).
  Proof.
    intros v d b o [st' Hp _ _|r _ _|c Hp _] Hwf Hnum; cbn [fst].
    - apply wf_extend; [exact Hwf | exact (Hnum Hp)].
    - exact Hwf.
    - apply wf_unrecord, Hwf.
  Qed.

  Lemma offer_accepts : forall d b st',
    validate (d_state _ d) b = Ok st' -> hash_of b <> d_head _ d -> h_parent (b_hdr _ _ _ b) = d_head _ d ->
    offer d b = (extend d b st', SOk).
  Proof.
    intros d b st' Hv Hh Hp. destruct (offer_outcome d b) as [s _ _ E|r _ H|c _ E].
    - rewrite Hv in E. injection E as <-. reflexivity.
    - contradiction H. eauto.
    - rewrite Hv in E. discriminate E.
  Qed.

  Variable numof : N -> N.     (* rawdb header-number index: the number recorded for a block hash *)

  Definition inv (d : db) : Prop := wf d /\ d_headnum _ d = numof (d_head _ d).
  Definition numbered (b : block) : Prop :=
    h_num (b_hdr _ _ _ b) = numof (h_parent (b_hdr _ _ _ b)) + 1 /\ numof (hash_of b) = h_num (b_hdr _ _ _ b).

  Lemma numbered_child : forall d b, inv d -> numbered b -> child_numbered d b.
  Proof. intros d b [_ Hn] [Hb _] Hp. rewrite Hb, Hp, Hn. reflexivity. Qed.

  Lemma offer_step : forall d b, inv d -> numbered b ->
    inv (fst (offer d b)) /\ (snd (offer d b) <> SOk -> fst (offer d b) = d).
  Proof.
    intros d b Hi Hb. pose proof (numbered_child d b Hi Hb) as Hc. destruct Hi as [Hwf Hn].
    pose proof (offer_outcome d b) as Ho. split; [|exact (outcome_rejected _ d b _ Ho Hwf Hc)].
    split; [exact (outcome_wf _ d b _ Ho Hwf Hc)|].
    destruct Ho as [st' _ _ _|r _ _|c _ _]; [symmetry; apply Hb | exact Hn ..].
  Qed.

  Lemma run_cons : forall d b bs, run d (b :: bs) = run (fst (offer d b)) bs.
  Proof. reflexivity. Qed.

  Lemma accepted_cons : forall d b bs,
    accepted d (b :: bs) = match offer d b with
                           | (d', SOk) => b :: accepted d' bs
                           | (d', _) => accepted d' bs
                           end.
  Proof. reflexivity. Qed.
End Proofs.

(* The witness that [wf] is necessary for unrecord_above_head: a stale canonical record at the number of
   the rejected block. hdr = (parent hash, number); every block fails execution. *)
Definition w_exec : unit -> (N * N) -> list N -> list N -> option (unit * exec_out N) := fun _ _ _ _ => None.
Definition w_db : db unit := mkDb unit tt [(1, 99)] 7 0.
Definition w_block : block N N (N * N) := mkBlock N N (N * N) (7, 1) [] [] [] (mkC 0 0 0 0 0 0 0 0 0 0 0 0 0).
Definition w_sch := set_current_header N N (N * N) unit (fun _ => 0) w_exec (fun h _ => fst h + 100) fst snd.

Local Open Scope string_scope.

(* The reviewed comparison sites, in model order (ValidateBody, Process, ValidateState). *)
Definition reviewed_sites : list (string * string * string * string) := [
  ("ValidateBody", "uncle root hash mismatch", "hash", "header.UncleHash()");
  ("ValidateBody", "transaction root hash mismatch", "hash", "header.TxHash()");
  ("ValidateBody", "Qi TXO emitted to an inactive chain", "!found", "");
  ("ValidateBody", "outbound etx hash mismatch", "hash", "header.OutboundEtxHash()");
  ("Process", "invalid external transaction", "etx.Hash()", "tx.Hash()");
  ("Process", "invalid avgTxFees used", "expectedAvgFees", "block.AvgTxFees()");
  ("Process", "invalid totalFees used", "expectedTotalFees", "block.TotalFees()");
  ("ValidateState", "invalid gas used", "block.GasUsed()", "usedGas");
  ("ValidateState", "invalid state used", "block.StateUsed()", "usedState");
  ("ValidateState", "invalid receipt root hash", "receiptSha", "header.ReceiptHash()");
  ("ValidateState", "invalid merkle root", "header.EVMRoot()", "root");
  ("ValidateState", "invalid quai trie size", "header.QuaiStateSize()", "stateSize");
  ("ValidateState", "invalid utxo root", "header.UTXORoot()", "root");
  ("ValidateState", "invalid etx root", "header.EtxSetRoot()", "root");
  ("ValidateState", "invalid outbound etx hash", "etxHash", "header.OutboundEtxHash()");
  ("ValidateState", "invalid uncledEntropy", "expectedUncledEntropy", "header.UncledEntropy()")
].

Definition field_site (f : field) : string * string :=
  match f with
  | FUncleHash => ("ValidateBody", "uncle root hash mismatch")
  | FTxRoot => ("ValidateBody", "transaction root hash mismatch")
  | FEtxHash => ("ValidateState", "invalid outbound etx hash")
  | FReceiptRoot => ("ValidateState", "invalid receipt root hash")
  | FEvmRoot => ("ValidateState", "invalid merkle root")
  | FUtxoRoot => ("ValidateState", "invalid utxo root")
  | FEtxSetRoot => ("ValidateState", "invalid etx root")
  | FGasUsed => ("ValidateState", "invalid gas used")
  | FStateUsed => ("ValidateState", "invalid state used")
  | FStateSize => ("ValidateState", "invalid quai trie size")
  | FAvgFees => ("Process", "invalid avgTxFees used")
  | FTotalFees => ("Process", "invalid totalFees used")
  | FUncledEntropy => ("ValidateState", "invalid uncledEntropy")
  end.

Definition str_eqb (a b : string) : bool := if string_dec a b then true else false.
Definition site_eqb (a b : string * string * string * string) : bool :=
  let '(a1, a2, a3, a4) := a in let '(b1, b2, b3, b4) := b in
  str_eqb a1 b1 && str_eqb a2 b2 && str_eqb a3 b3 && str_eqb a4 b4.
Fixpoint sites_eqb (a b : list (string * string * string * string)) : bool :=
  match a, b with
  | [], [] => true
  | x :: a', y :: b' => site_eqb x y && sites_eqb a' b'
  | _, _ => false
  end.
Fixpoint strs_eqb (a b : list string) : bool :=
  match a, b with
  | [], [] => true
  | x :: a', y :: b' => str_eqb x y && strs_eqb a' b'
  | _, _ => false
  end.

Definition all_commitments_compared : bool :=
  forallb (fun f => existsb (fun s => let '(fn, msg, _, _) := s in str_eqb fn (fst (field_site f)) && str_eqb msg (snd (field_site f))) compare_sites) all_fields.

(* a subsequence test: the source may have further comparison sites between the reviewed ones *)
Fixpoint sites_subseq (a b : list (string * string * string * string)) : bool :=
  match b with
  | [] => match a with [] => true | _ => false end
  | y :: b' => match a with
               | [] => true
               | x :: a' => if site_eqb x y then sites_subseq a' b' else sites_subseq a b'
               end
  end.
Definition comparisons_as_reviewed : bool := sites_subseq reviewed_sites compare_sites.

Fixpoint index_of (x : string) (l : list string) (i : nat) : option nat :=
  match l with
  | [] => None
  | y :: l' => if str_eqb x y then Some i else index_of x l' (S i)
  end.
Fixpoint drop_until (x : string) (l : list string) : list string :=
  match l with
  | [] => []
  | y :: l' => if str_eqb x y then l' else drop_until x l'
  end.
Fixpoint take_until (x : string) (l : list string) : list string :=
  match l with
  | [] => []
  | y :: l' => if str_eqb x y then [] else y :: take_until x l'
  end.
Definition ends_with (suf s : string) : bool :=
  let n := String.length s in let k := String.length suf in
  Nat.leb k n && str_eqb (substring (n - k) k s) suf.
Definition count_str (x : string) (l : list string) : nat := List.length (filter (str_eqb x) l).
Definition starts_with_tokens (pre l : list string) : bool := strs_eqb pre (firstn (List.length pre) l).
Definition is_db_write_token (s : string) : bool :=
  prefix "rawdb.Write" s || prefix "rawdb.Delete" s || prefix "rawdb.Create" s || str_eqb s "batch.Write".

(* BodyDb.Append: nothing is written before Apply; Apply is followed by an error return; every rawdb write
   goes to the batch; the batch is written exactly once, after that error return *)
Definition append_writes_batch_only_after_apply : bool :=
  negb (existsb is_db_write_token (take_until "Apply(batch)" skeleton_bodydb_append)) &&
  starts_with_tokens ["if-err{"; "return-err"; "}"] (drop_until "Apply(batch)" skeleton_bodydb_append) &&
  forallb (fun t => negb (prefix "rawdb." t) || ends_with "(batch)" t) skeleton_bodydb_append &&
  Nat.eqb (count_str "batch.Write" skeleton_bodydb_append) 1 &&
  Nat.eqb (count_str "batch.Write" (drop_until "Apply(batch)" skeleton_bodydb_append)) 1.

(* SetCurrentHeader: the canonical hash is the only write before AppendBlock; on error it is deleted again and
   the error returned; head pointers are written only afterwards *)
Definition canonical_hash_deleted_on_error : bool :=
  strs_eqb (filter is_db_write_token (take_until "AppendBlock" skeleton_set_current_header)) ["rawdb.WriteCanonicalHash"] &&
  starts_with_tokens ["if-err{"; "rawdb.DeleteCanonicalHash"; "return-err"; "}"] (drop_until "AppendBlock" skeleton_set_current_header) &&
  negb (existsb (str_eqb "currentHeader.Store") (take_until "AppendBlock" skeleton_set_current_header)) &&
  existsb (str_eqb "currentHeader.Store") (drop_until "AppendBlock" skeleton_set_current_header).

(* Apply: Process and ValidateState come first, each followed by an error return; every write / trie commit comes after *)
Definition is_write (s : string) : bool :=
  existsb (fun p => prefix p s) ["rawdb.Write"; "rawdb.Delete"; "rawdb.Create"; "AddBloom"] ||
  existsb (fun p => str_eqb p s) ["statedb.Commit"; "statedb.CommitEtxs"; "p.stateCache.TrieDB().Commit"; "p.etxCache.TrieDB().Commit"].
Definition apply_validates_before_any_write : bool :=
  negb (existsb is_write (take_until "ValidateState" skeleton_apply)) &&
  match drop_until "Process" skeleton_apply with
  | a :: b :: c :: _ => str_eqb a "if-err{" && str_eqb b "return-err" && str_eqb c "}"
  | _ => false
  end &&
  match drop_until "ValidateState" skeleton_apply with
  | a :: b :: c :: _ => str_eqb a "if-err{" && str_eqb b "return-err" && str_eqb c "}"
  | _ => false
  end &&
  existsb is_write (drop_until "ValidateState" skeleton_apply).

Fixpoint pairs_eqb (a b : list (string * string)) : bool :=
  match a, b with
  | [], [] => true
  | (x1, x2) :: a', (y1, y2) :: b' => str_eqb x1 y1 && str_eqb x2 y2 && pairs_eqb a' b'
  | _, _ => false
  end.
(* the only database write on the validation path that bypasses the block batch is the (empty) address-outpoint
   index initialisation of the first block after genesis *)
Definition no_direct_write_on_validation_path : bool :=
  pairs_eqb direct_writes [("Finalize", "hc.WriteAddressOutpoints")].
