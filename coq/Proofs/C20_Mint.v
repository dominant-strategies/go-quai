(* C20 -- FindMinDenominations and the mint loop of StateProcessor.Process: the Quai->Qi conversion
   branch mints the whole split, the ConversionRevert branch the split above MaxTrimDenomination. *)
From Coq Require Import List ZArith Bool Lia.
From GQ Require Import Generated.C20Params Model.C20 Lib.Lists Proofs.C20.
Import ListNotations.
Local Open Scope Z_scope.

Definition good_pair (p : Z * Z) : Prop := den_value (fst p) = snd p /\ 0 < snd p < two64.

Lemma pair_ok_good : forall l, forallb pair_ok l = true -> Forall good_pair l.
Proof.
  intros l. apply forallb_Forall. intros p H.
  unfold pair_ok in H. do 2 (apply andb_prop in H; destruct H as [H ?]).
  repeat split; [apply Z.eqb_eq|apply Z.ltb_lt|apply Z.ltb_lt]; assumption.
Qed.

Lemma dens_desc_facts : Forall good_pair dens_desc /\ last (map snd dens_desc) 0 = 1.
Proof.
  pose proof dens_ok_true as H. unfold dens_ok in H.
  apply andb_prop in H as [H _]. apply andb_prop in H as [H _]. apply andb_prop in H as [Hgood Hlast].
  split; [exact (pair_ok_good _ Hgood)|apply Z.eqb_eq, Hlast].
Qed.

Lemma fmd_loop_zero : forall dens, fmd_loop dens 0 = [].
Proof.
  induction dens as [|[i d] rest IH]; [reflexivity|].
  cbn [fmd_loop]. rewrite Zdiv_0_l. exact IH.
Qed.

(* the early exit at remainder 0 is no case of its own: the loop takes nothing from amount 0 *)
Lemma fmd_loop_cons : forall i d rest amount, 0 < d ->
  fmd_loop ((i, d) :: rest) amount =
  (if amount / d =? 0 then [] else [(i, (amount / d) mod two64)]) ++ fmd_loop rest (amount mod d).
Proof.
  intros i d rest amount Hd. cbn [fmd_loop].
  pose proof (Z.mod_pos_bound amount d Hd) as Hm.
  pose proof (Z.div_mod amount d ltac:(lia)) as Hdm.
  replace (amount - amount / d * d) with (amount mod d) by lia.
  destruct (Z.eqb_spec (amount / d) 0) as [Hz|Hz].
  - replace (amount mod d) with amount by (rewrite Hz in Hdm; lia). reflexivity.
  - destruct (Z.ltb_spec 0 (amount mod d)); [reflexivity|].
    replace (amount mod d) with 0 by lia. rewrite fmd_loop_zero. reflexivity.
Qed.

(* nothing is lost: each count fits uint64 because the amount left after a denomination is below
   it, hence below 2^64 times the next one *)
Lemma fmd_loop_sum : forall dens amount,
  Forall good_pair dens -> last (map snd dens) 0 = 1 ->
  0 <= amount < two64 * snd (hd (0, 0) dens) ->
  denoms_sum (fmd_loop dens amount) = amount.
Proof.
  induction dens as [|[i d] rest IH]; intros amount Hgood Hlast Ha; [discriminate Hlast|].
  inversion Hgood as [|? ? (Hden & Hd) Hrest]; subst. cbn [fst snd hd] in Hden, Hd, Ha.
  pose proof (Z.mod_pos_bound amount d ltac:(lia)) as Hm.
  pose proof (Z.div_mod amount d ltac:(lia)) as Hdm.
  rewrite fmd_loop_cons, denoms_sum_app by lia.
  assert (Hr : denoms_sum (fmd_loop rest (amount mod d)) = amount mod d).
  { destruct rest as [|[i' d'] rest'].
    - cbn in Hlast. subst d. rewrite Z.mod_1_r. reflexivity.
    - apply IH; [assumption|exact Hlast|].
      inversion Hrest as [|? ? (_ & Hd') _]; subst. cbn [fst snd hd] in *. nia. }
  rewrite Hr. destruct (Z.eqb_spec (amount / d) 0) as [Hz|Hz].
  - rewrite Hz in Hdm. cbn. lia.
  - rewrite Z.mod_small by (split; [apply Z.div_pos|apply Z.div_lt_upper_bound]; lia).
    rewrite denoms_sum_cons, Hden. cbn. lia.
Qed.

Lemma fmd_loop_In : forall dens amount p, Forall good_pair dens -> In p (fmd_loop dens amount) ->
  In (fst p) (map fst dens) /\ 0 <= snd p < two64.
Proof.
  induction dens as [|[i d] rest IH]; intros amount p Hgood Hin; [contradiction|].
  inversion Hgood as [|? ? (_ & Hd) Hrest]; subst. cbn [snd] in Hd.
  rewrite fmd_loop_cons in Hin by lia. apply in_app_or in Hin. destruct Hin as [Hin|Hin].
  - destruct (amount / d =? 0); [contradiction|]. destruct Hin as [<-|[]].
    split; [left; reflexivity|apply Z.mod_pos_bound; reflexivity].
  - destruct (IH _ _ Hrest Hin). split; [right|]; assumption.
Qed.

Definition counts_ok (l : list (Z * Z)) : Prop :=
  Forall (fun p => 0 <= snd p /\ 0 <= den_value (fst p)) l.

Lemma fmd_loop_counts_ok : forall dens v, Forall good_pair dens -> counts_ok (fmd_loop dens v).
Proof.
  intros dens v Hgood. apply Forall_forall. intros p Hp. destruct (fmd_loop_In _ _ _ Hgood Hp) as (Hi & Hc).
  split; [lia|]. apply in_map_iff in Hi. destruct Hi as (q & Hq & Hin).
  rewrite Forall_forall in Hgood. destruct (Hgood q Hin) as (Hden & Hd). rewrite <- Hq, Hden. lia.
Qed.
Lemma find_min_denominations_counts_ok : forall v, counts_ok (find_min_denominations v).
Proof. intros v. exact (fmd_loop_counts_ok dens_desc v (proj1 dens_desc_facts)). Qed.

Lemma counts_ok_filter : forall f l, counts_ok l -> counts_ok (filter f l).
Proof. intros f l. apply incl_Forall, incl_filter. Qed.

(* a count that wraps only loses: whichever entries one counts, the loop hands out at most the amount *)
Lemma fmd_loop_le : forall f dens amount, Forall good_pair dens -> 0 <= amount ->
  denoms_sum (filter f (fmd_loop dens amount)) <= amount.
Proof.
  intros f. induction dens as [|[i d] rest IH]; intros amount Hgood Ha; [exact Ha|].
  inversion Hgood as [|? ? (Hden & Hd) Hrest]; subst. cbn [fst snd] in Hden, Hd.
  pose proof (Z.mod_pos_bound amount d ltac:(lia)) as Hm.
  pose proof (Z.div_mod amount d ltac:(lia)) as Hdm.
  pose proof (Z.div_pos amount d Ha ltac:(lia)) as Hq.
  specialize (IH (amount mod d) Hrest ltac:(lia)).
  rewrite fmd_loop_cons by lia.
  destruct (amount / d =? 0); cbn [app filter]; [nia|].
  destruct (f _); [|nia].
  pose proof (Z.mod_le (amount / d) two64 Hq two64_pos).
  rewrite denoms_sum_cons, Hden. nia.
Qed.

Lemma find_min_denominations_le : forall v, 0 <= v -> denoms_sum (find_min_denominations v) <= v.
Proof.
  intros v Hv. rewrite <- (filter_all (fun _ => true) (find_min_denominations v)) by reflexivity.
  exact (fmd_loop_le _ dens_desc v (proj1 dens_desc_facts) Hv).
Qed.

(* the table cut in two at index [k]: the last round of the upper part, at denomination d, leaves
   amount mod d < d for the lower part to hand out *)
Lemma fmd_loop_low_sum : forall k lo hi p0 amount,
  Forall good_pair lo -> Forall good_pair hi -> Forall (fun p => k < fst p) hi -> hi <> [] -> 0 <= amount ->
  denoms_sum (filter (fun p => negb (k <? fst p)) (fmd_loop (hi ++ lo) amount)) < snd (last hi p0).
Proof.
  intros k lo. induction hi as [|[i d] hi IH]; intros p0 amount Glo Ghi Khi Nhi Ha; [contradiction|].
  inversion Ghi as [|? ? (_ & Hd) Ghi']; inversion Khi as [|? ? Hi Khi']; subst. cbn [fst snd] in Hd, Hi.
  cbn [app]. rewrite fmd_loop_cons, filter_app by lia.
  replace (filter _ (if amount / d =? 0 then [] else _)) with (@nil (Z * Z)).
  2:{ destruct (amount / d =? 0); [reflexivity|]. cbn [filter fst].
      rewrite (proj2 (Z.ltb_lt k i) Hi). reflexivity. }
  cbn [app]. pose proof (Z.mod_pos_bound amount d ltac:(lia)).
  destruct hi as [|q hi].
  - apply Z.le_lt_trans with (amount mod d); [apply fmd_loop_le; [exact Glo|lia]|cbn [last snd]; lia].
  - change (last ((i, d) :: q :: hi) p0) with (last (q :: hi) p0).
    apply IH; try assumption; [discriminate|lia].
Qed.

Lemma dens_desc_split : dens_desc = dens_hi ++ dens_lo.
Proof. vm_compute. reflexivity. Qed.

Lemma trim_split_facts :
  Forall good_pair dens_hi /\ Forall (fun p => max_trim_denomination < fst p) dens_hi /\ dens_hi <> [] /\
  Forall good_pair dens_lo.
Proof.
  pose proof trim_split_ok_true as T. unfold trim_split_ok in T.
  apply andb_prop in T as [T _]. apply andb_prop in T as [T _]. apply andb_prop in T as [T _].
  apply andb_prop in T as [T Nhi]. apply andb_prop in T as [T _]. apply andb_prop in T as [T Khi].
  apply andb_prop in T as [Ghi Glo].
  split; [exact (pair_ok_good _ Ghi)|]. split; [exact (forallb_Forall _ _ _ (fun p => proj1 (Z.ltb_lt _ _)) Khi)|].
  split; [intros E; rewrite E in Nhi; discriminate Nhi|exact (pair_ok_good _ Glo)].
Qed.

(* the dust rule; like [fmd_loop_le] it needs no upper guard on v *)
Lemma dust_below_smallest_refundable : forall v, 0 <= v -> dust v < smallest_refundable.
Proof.
  intros v Hv. unfold dust, find_min_denominations, smallest_refundable. rewrite dens_desc_split.
  destruct trim_split_facts as (Ghi & Khi & Nhi & Glo).
  apply (fmd_loop_low_sum max_trim_denomination); assumption.
Qed.

Lemma denoms_count_app : forall a b, denoms_count (a ++ b) = denoms_count a + denoms_count b.
Proof. exact (fold_sum_app _ snd). Qed.

Lemma denoms_nonneg : forall l, counts_ok l -> 0 <= denoms_sum l /\ 0 <= denoms_count l.
Proof.
  induction 1 as [|[i c] l (Hc & Hd) _ IH]; [cbn; lia|].
  rewrite denoms_sum_cons. unfold denoms_count in *. cbn [fold_right fst snd] in *. nia.
Qed.

Lemma denoms_sum_filter_split : forall f l,
  denoms_sum (filter f l) + denoms_sum (filter (fun p => negb (f p)) l) = denoms_sum l.
Proof.
  intros f. induction l as [|[i c] l IH]; [reflexivity|].
  cbn [filter]. destruct (f (i, c)); cbn [negb]; rewrite !denoms_sum_cons; lia.
Qed.

Lemma mint_one_step : forall c d t i g ok,
  0 <= c -> 0 <= d -> 0 <= g -> 0 <= i <= max_output_index ->
  exists k, mint_one c d (t, i, g, ok) = (t + k * d, i + k, g - k * call_value_transfer_gas, ok && (k =? c))
    /\ 0 <= k <= c /\ 0 <= k * d <= c * d /\ k * call_value_transfer_gas <= g /\ i + k <= max_output_index
    /\ (c * call_value_transfer_gas <= g -> i + c <= max_output_index -> k = c).
Proof.
  intros c d t i g ok Hc Hd Hg Hi. assert (HG : 0 < call_value_transfer_gas) by apply params_facts.
  set (G := call_value_transfer_gas) in *.
  exists (Z.min c (Z.min (g / G) (Z.max 0 (max_output_index - i)))). split; [reflexivity|].
  set (k := Z.min c _).
  assert (Hq : 0 <= g / G) by (apply Z.div_pos; lia).
  assert (Hk : 0 <= k <= c /\ k <= g / G /\ k <= max_output_index - i) by (unfold k; lia).
  split; [lia|]. split; [split; [apply Z.mul_nonneg_nonneg|apply Z.mul_le_mono_nonneg_r]; lia|].
  split; [|split; [lia|]].
  - pose proof (Z.mul_div_le g G HG).
    pose proof (Z.mul_le_mono_nonneg_r k (g / G) G ltac:(lia) ltac:(lia)). lia.
  - intros H1 H2. assert (c <= g / G) by (apply Z.div_le_lower_bound; lia). unfold k. lia.
Qed.

Lemma mint_denoms_spec : forall l gas, counts_ok l -> 0 <= gas ->
  let '(t, i, g, ok) := mint_denoms l gas in
  0 <= t <= denoms_sum l /\ 0 <= i <= max_output_index /\ 0 <= g /\
  g = gas - i * call_value_transfer_gas /\
  (ok = true -> t = denoms_sum l /\ i = denoms_count l) /\
  (denoms_count l * call_value_transfer_gas <= gas -> denoms_count l <= max_output_index -> ok = true).
Proof.
  intros l gas Hl Hgas. assert (HG : 0 < call_value_transfer_gas) by apply params_facts.
  assert (HM : 0 <= max_output_index) by apply params_facts.
  unfold mint_denoms. induction l as [|[ix c] l IH] using rev_ind.
  - cbn. repeat split; lia.
  - apply Forall_app in Hl. destruct Hl as (Hl & Hp).
    apply Forall_inv in Hp. cbn [fst snd] in Hp. destruct Hp as (Hc & Hd).
    destruct (denoms_nonneg l Hl) as (Hs & Hn).
    rewrite fold_left_app, denoms_sum_app, denoms_count_app, denoms_sum_cons.
    cbn [fold_left fst snd denoms_sum denoms_count fold_right]. rewrite !Z.add_0_r.
    destruct (fold_left _ l (0, 0, gas, true)) as [[[t i] g] ok].
    destruct (IH Hl) as (A & B & C & D & E & F).
    destruct (Z.eqb_spec c 0) as [->|Hc0].
    { rewrite !Z.add_0_r. repeat split; try lia; [apply E|apply E|apply F]; assumption. }
    destruct (mint_one_step c (den_value ix) t i g ok Hc Hd C B) as (k & -> & K1 & K2 & K3 & K4 & K5).
    split; [lia|]. split; [lia|]. split; [lia|]. split; [lia|]. split.
    + intros Hok. apply andb_prop in Hok. destruct Hok as (Hok & Hkc). apply Z.eqb_eq in Hkc.
      destruct (E Hok). rewrite Hkc. lia.
    + intros Hgas' Hidx. rewrite Z.mul_add_distr_r in Hgas'.
      pose proof (Z.mul_nonneg_nonneg c call_value_transfer_gas Hc ltac:(lia)).
      assert (Hok : ok = true) by (apply F; lia).
      destruct (E Hok) as (_ & Hi). rewrite Hi in *. rewrite Hok, K5, Z.eqb_refl by lia. reflexivity.
Qed.

Lemma settle_qi_le : forall ptn gas v, 0 <= v -> 0 <= settle_qi ptn gas v <= v.
Proof.
  intros ptn gas v Hv. unfold settle_qi.
  destruct (ptn <? controller_kick_in_block); [lia|].
  destruct (Z.ltb_spec gas tx_gas); [lia|].
  pose proof (mint_denoms_spec _ (gas - tx_gas) (find_min_denominations_counts_ok v) ltac:(lia)) as M.
  pose proof (find_min_denominations_le v Hv).
  unfold minted_total, mint. destruct (mint_denoms _ (gas - tx_gas)) as [[[t i] g] ok]. cbn [fst]. lia.
Qed.
