(* C19 -- the cached thresholds of txList (costcap / gascap, Model/C19.v: clist).
   Under the cache invariant (both thresholds are upper bounds over the list) the short
   circuit of txList.Filter is exact, every list operation preserves the invariant, hence
   every list that evolves from newTxList through the operations the pool uses behaves like
   the plain nonce-sorted list of the pool model.  Without the invariant Filter is unsound
   (stale_cap_witness). *)
From Coq Require Import List NArith Bool Lia.
From GQ Require Import Lib.Lists Model.C19 Proofs.C19_Lists.
Import ListNotations.
Local Open Scope N_scope.

Definition cap_ok (l : clist) : Prop :=
  forall t, In t (cl_txs l) -> cost t <= cl_costcap l /\ t_gas t <= cl_gascap l.

Lemma cap_okb_iff l : cap_okb l = true <-> cap_ok l.
Proof.
  unfold cap_okb, cap_ok. rewrite forallb_forall. split; intros H t Ht; specialize (H t Ht); lia.
Qed.

Lemma cap_ok_new : cap_ok cl_new.
Proof. intros t []. Qed.

Lemma cap_ok_sub l txs' : cap_ok l -> (forall t, In t txs' -> In t (cl_txs l)) ->
  cap_ok (CL txs' (cl_costcap l) (cl_gascap l)).
Proof. intros H S t Ht. cbn in *. apply H, S, Ht. Qed.

Lemma cl_filter_exact strict bal mg l r i l' :
  cap_ok l -> cl_filter strict bal mg l = (r, i, l') ->
  l_filter strict bal mg (cl_txs l) = (r, i, cl_txs l') /\ cap_ok l'.
Proof.
  intros H. unfold cl_filter. destruct ((cl_costcap l <=? bal) && (cl_gascap l <=? mg)) eqn:E.
  - (* the short circuit: below the thresholds nothing is unpayable *)
    intros [= <- <- <-]. split; [|exact H]. apply l_filter_none.
    intros x Hx. destruct (H x Hx) as [Hc Hg]. apply unpayable_false. lia.
  - destruct (l_filter strict bal mg (cl_txs l)) as [[r0 i0] k0] eqn:EF. intros [= <- <- <-]. split; [reflexivity|].
    intros t Ht. cbn in *. apply unpayable_false, (l_filter_keep _ _ _ _ _ _ _ EF t). right; exact Ht.
Qed.

Lemma cl_filter_sound strict bal mg l r i l' :
  cap_ok l -> cl_filter strict bal mg l = (r, i, l') ->
  forall t, In t (cl_txs l') -> cost t <= bal /\ t_gas t <= mg.
Proof.
  intros H E t Ht. destruct (cl_filter_exact _ _ _ _ _ _ _ H E) as [EF _].
  apply unpayable_false, (l_filter_keep _ _ _ _ _ _ _ EF t). right; exact Ht.
Qed.

Lemma cl_add_exact t b l :
  l_add t b (cl_txs l) = match cl_add t b l with Some (l', old) => Some (cl_txs l', old) | None => None end.
Proof. unfold cl_add. destruct (l_add t b (cl_txs l)) as [[txs' o]|]; reflexivity. Qed.

(* the thresholds after Add are the maxima the Go comments promise *)
Lemma cl_add_caps t b l l' old : cl_add t b l = Some (l', old) ->
  cl_costcap l' = N.max (cl_costcap l) (cost t) /\ cl_gascap l' = N.max (cl_gascap l) (t_gas t).
Proof.
  unfold cl_add. destruct (l_add t b (cl_txs l)) as [[txs' o]|]; [|discriminate]. intros [= <- _]. cbn. split.
  - destruct (cl_costcap l <? cost t) eqn:E; lia.
  - destruct (cl_gascap l <? t_gas t) eqn:E; lia.
Qed.

Lemma cl_add_cap_ok t b l l' old : cap_ok l -> cl_add t b l = Some (l', old) -> cap_ok l'.
Proof.
  intros H E x Hx. destruct (cl_add_caps _ _ _ _ _ E) as [-> ->].
  pose proof (cl_add_exact t b l) as EA. rewrite E in EA.
  destruct (l_add_in _ _ _ _ _ _ EA Hx) as [->|Hin]; [lia|]. destruct (H x Hin). lia.
Qed.

Lemma l_step_shrinks strict b l o l' res :
  (forall t, o <> LAdd t) -> l_step strict b l o = (l', res) -> forall t, In t l' -> In t l.
Proof.
  intros NA. destruct o as [t0|x y|thr|n|k|start]; cbn.
  - exfalso. apply (NA t0). reflexivity.
  - destruct (l_filter strict x y l) as [[r i] k] eqn:EF. intros [= <- _] t Ht. apply (l_filter_keep _ _ _ _ _ _ _ EF t). right; exact Ht.
  - intros [= <- _] t Ht. apply filter_In in Ht. apply Ht.
  - destruct (l_get n l) as [g0|]; [|intros [= <- _] t Ht; exact Ht]. destruct strict.
    + intros [= <- _] t Ht. apply filter_In in Ht. destruct Ht as [Ht _]. apply l_remove_in in Ht. apply Ht.
    + intros [= <- _] t Ht. apply l_remove_in in Ht. apply Ht.
  - intros [= <- _] t Ht. eapply firstn_In. exact Ht.
  - destruct (l_ready start l) as [r k0] eqn:ER. intros [= <- _] t Ht.
    destruct (l_ready_split _ _ _ _ ER) as [Es _]. rewrite Es. apply in_or_app. right. exact Ht.
Qed.

Lemma cl_step_refines strict b l o l' res :
  cap_ok l -> cl_step strict b l o = (l', res) ->
  l_step strict b (cl_txs l) o = (cl_txs l', res) /\ cap_ok l'.
Proof.
  intros H. destruct o as [t0|x y|thr|n|k|start].
  (* Forward, Remove, Cap, Ready leave the thresholds and only shrink the list *)
  3-6: unfold cl_step; destruct (l_step strict b (cl_txs l) _) as [txs' r] eqn:ES; intros [= <- <-]; cbn [cl_txs].
  3-6: split; [reflexivity|apply cap_ok_sub; [exact H|]].
  3-6: eapply l_step_shrinks; [|exact ES]; intros; discriminate.
  - cbn. rewrite cl_add_exact. destruct (cl_add t0 b l) as [[l1 old]|] eqn:EA; intros [= <- <-].
    + split; [reflexivity | eapply cl_add_cap_ok; eassumption].
    + split; [reflexivity | exact H].
  - cbn. destruct (cl_filter strict x y l) as [[r i] l1] eqn:EF. intros [= <- <-].
    destruct (cl_filter_exact _ _ _ _ _ _ _ H EF) as [-> H1]. split; [reflexivity | exact H1].
Qed.

Lemma cl_run_refines strict b ops : cap_ok (cl_run strict b ops) /\ cl_txs (cl_run strict b ops) = l_run_ops strict b ops.
Proof.
  apply (fold_left_sim (fun s t => cap_ok s /\ cl_txs s = t)); [|split; [apply cap_ok_new|reflexivity]].
  apply Forall_forall. intros o _ s t [Hs <-]. destruct (cl_step strict b s o) as [l1 res] eqn:ES.
  destruct (cl_step_refines _ _ _ _ _ _ Hs ES) as [-> H1]. auto.
Qed.

(* a list whose cost threshold was not raised by a replacement (4210000 is the cost of the
   transaction that set it; the list now holds one costing 6420000): Filter at balance
   5790000 short-circuits and keeps the unpayable transaction *)
Definition stale_cap_witness : clist := CL [T 0 1 20 21000 6000000] 4210000 21000.

(* the same history on the real operations: Add, Add, replacing Add raise the threshold *)
Definition cache_history : list lop :=
  [LAdd (T 0 0 10 21000 4000000); LAdd (T 0 1 10 21000 3000000); LAdd (T 0 1 20 21000 6000000)].

