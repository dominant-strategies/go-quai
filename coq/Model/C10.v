(* C10 — Reorganisation leaves exactly the state of the winning branch.
   Executable model of
     - the undo log written per block by core/state_processor.go:Process
       (rawdb.WriteSpentUTXOs, WriteCreatedUTXOKeys, WriteCreatedCoinbaseLockupKeys,
        WriteDeletedCoinbaseLockups) and core/headerchain_validation.go:Finalize
       (rawdb.WriteTrimmedUTXOs),
     - the per-block rollback batch of core/headerchain.go:SetCurrentHeader,
     - the roll-forward (WriteCanonicalHash, AppendBlock, WriteHeadBlockHash),
     - core/vm/contracts.go:AddNewLock / ClaimCoinbaseLockup as far as they write
       lockup records and their undo records.
   Definitions only; proofs are in Proofs/C10.v. *)
From Coq Require Import List NArith ZArith Bool String Uint63.
From GQ Require Import Lib.Key Lib.SMap Generated.C10Params.
Import ListNotations.
Local Open Scope N_scope.

Definition val := list N.

(* ---------- generic helpers on sorted maps ---------- *)
Definition put_all {V : Type} (l : list (key * V)) (m : smap V) : smap V :=
  fold_left (fun m kv => put (fst kv) (snd kv) m) l m.
Definition del_all {V : Type} (l : list key) (m : smap V) : smap V :=
  fold_left (fun m k => del k m) l m.

(* core/headerchain.go:SetCurrentHeader — "The last byte of the key is the denomination (but only
   in CreatedUTXOKeys)": a 37-byte key is cut to 36 bytes, any other length is used as is. *)
Definition strip_den (k : key) : key :=
  if Nat.eqb (List.length k) 37 then firstn 36 k else k.

(* canonical index: number -> hash; the number itself is the (one element) key *)
Definition nkey (n : N) : key := [n].

Section Generic.
Context {L : Type}.   (* representation of a lockup record (bytes in the cases, decoded in the lockup theorems) *)

(* The part of the database a reorganisation must leave exact. *)
Record db := mkDb {
  utxo : smap val;      (* 'ut' + txhash + index  ->  proto(TxOut) *)
  lockups : smap L;     (* 'cl' + owner + miner + lockupByte + epoch -> record *)
  canon : smap val;     (* number -> canonical hash *)
  head : val            (* head block hash *)
}.

(* What one block does (forward) and what it leaves in the undo log. *)
Record effect := mkEff {
  e_num : N;
  e_hash : val;
  e_parent : val;
  e_created : list (key * val);        (* forward: CreateUTXO(batch, ..) — 36-byte keys *)
  e_created_keys : list key;           (* undo: WriteCreatedUTXOKeys — 37-byte keys (denomination appended) *)
  e_spent : list (key * val);          (* forward: DeleteUTXO ; undo: WriteSpentUTXOs *)
  e_trimmed : list (key * val);        (* forward: TrimBlock batch.Delete ; undo: WriteTrimmedUTXOs *)
  e_lk_writes : list (key * option L); (* forward, in order: Some v = WriteCoinbaseLockup, None = DeleteCoinbaseLockup *)
  e_lk_created : list key;             (* undo: WriteCreatedCoinbaseLockupKeys *)
  e_lk_deleted : list (key * L)        (* undo: WriteDeletedCoinbaseLockups, in record order *)
}.

Definition lk_write (m : smap L) (w : key * option L) : smap L :=
  match snd w with
  | Some v => put (fst w) v m
  | None => del (fst w) m
  end.

(* Roll-forward of one block: SetCurrentHeader writes the canonical hash, AppendBlock commits
   the batch filled by Process (outputs created by the transactions, inputs deleted, trimmed
   outputs deleted, lockup records written/deleted), then the head hash is written.
   A key is never re-created after its deletion inside one block (outpoints are unique), so
   "all puts, then all deletes" is the net content of the batch. *)
Definition apply (d : db) (e : effect) : db :=
  mkDb (del_all (map fst (e_trimmed e)) (del_all (map fst (e_spent e)) (put_all (e_created e) (utxo d))))
       (fold_left lk_write (e_lk_writes e) (lockups d))
       (put (nkey (e_num e)) (e_hash e) (canon d))
       (e_hash e).

(* One iteration of the rollback loop of SetCurrentHeader, in the order of the source:
   DeleteCanonicalHash(number); CreateUTXO for spent++trimmed; batch.Delete for each created key
   (denomination byte stripped); batch.Put of the deleted lockups in REVERSE record order;
   batch.Delete of the created lockup keys; WriteHeadBlockHash(parent);
   WriteCanonicalHash(parent, number-1); batch.Write. *)
Definition rollback (d : db) (e : effect) : db :=
  mkDb (del_all (map strip_den (e_created_keys e)) (put_all (e_spent e ++ e_trimmed e) (utxo d)))
       (del_all (e_lk_created e) (put_all (rev (e_lk_deleted e)) (lockups d)))
       (put (nkey (e_num e - 1)) (e_parent e) (del (nkey (e_num e)) (canon d)))
       (e_parent e).

(* Two rollbacks the source must NOT be (Props/C10.v: both resurrect an output that the rolled-back
   block created AND spent — tx2 spends an output of tx1 of the same block — and both are exact for
   every block without such an output, which is why only intra-block chains tell them apart):
   - [rollback_delete_first]: the created keys are deleted BEFORE spent++trimmed are re-created
     (the two loops write into one batch: the last write of a key wins);
   - [rollback_skip_absent]: the delete of a created key is skipped when the key is not in the
     DATABASE (the batch holding the re-creating Put is not consulted). *)
Definition rollback_delete_first (d : db) (e : effect) : db :=
  mkDb (put_all (e_spent e ++ e_trimmed e) (del_all (map strip_den (e_created_keys e)) (utxo d)))
       (lockups (rollback d e)) (canon (rollback d e)) (head (rollback d e)).
Definition presentb {V} (k : key) (m : smap V) : bool :=
  match get k m with Some _ => true | None => false end.
Definition rollback_skip_absent (d : db) (e : effect) : db :=
  mkDb (del_all (filter (fun k => presentb k (utxo d)) (map strip_den (e_created_keys e)))
                (put_all (e_spent e ++ e_trimmed e) (utxo d)))
       (lockups (rollback d e)) (canon (rollback d e)) (head (rollback d e)).

Definition apply_all (d : db) (es : list effect) : db := fold_left apply es d.
Definition rollback_all (d : db) (es : list effect) : db := fold_left rollback es d.

(* SetCurrentHeader(head of the other branch): roll back the old branch tip-first down to the
   common ancestor, then re-append the new branch in order. [olds] is in rollback order. *)
Definition reorg (d : db) (olds news : list effect) : db :=
  apply_all (rollback_all d olds) news.

(* ---------- well-formedness of an effect w.r.t. the state before the block (decidable) ---------- *)
Variable leqb : L -> L -> bool.

Definition oeqb {A} (f : A -> A -> bool) (a b : option A) : bool :=
  match a, b with
  | None, None => true
  | Some x, Some y => f x y
  | _, _ => false
  end.

Definition kmem (k : key) (l : list key) : bool := existsb (keqb k) l.

Fixpoint first_rec {V} (k : key) (l : list (key * V)) : option V :=
  match l with
  | [] => None
  | (k', v) :: l' => if keqb k k' then Some v else first_rec k l'
  end.

Definition wf_utxob (d : db) (e : effect) : bool :=
  let ck := map strip_den (e_created_keys e) in
  forallb (fun k => match get k (utxo d) with None => true | Some _ => false end) ck
  && forallb (fun kv => kmem (fst kv) ck || oeqb keqb (get (fst kv) (utxo d)) (Some (snd kv)))
             (e_spent e ++ e_trimmed e)
  && forallb (fun kv => kmem (fst kv) ck) (e_created e).

Definition wf_lkb (d : db) (e : effect) : bool :=
  forallb (fun k => match get k (lockups d) with None => true | Some _ => false end) (e_lk_created e)
  && forallb (fun kv => kmem (fst kv) (e_lk_created e)
                        || oeqb leqb (first_rec (fst kv) (e_lk_deleted e)) (get (fst kv) (lockups d)))
             (e_lk_deleted e)
  && forallb (fun w => kmem (fst w) (e_lk_created e) || kmem (fst w) (map fst (e_lk_deleted e)))
             (e_lk_writes e).

Definition wf_chainb (d : db) (e : effect) : bool :=
  (0 <? e_num e)
  && keqb (head d) (e_parent e)
  && oeqb keqb (get (nkey (e_num e - 1)) (canon d)) (Some (e_parent e))
  && match get (nkey (e_num e)) (canon d) with None => true | Some _ => false end.

Definition wf_effectb (d : db) (e : effect) : bool :=
  wf_utxob d e && wf_lkb d e && wf_chainb d e.

Fixpoint wf_branchb (d : db) (es : list effect) : bool :=
  match es with
  | [] => true
  | e :: es' => wf_effectb d e && wf_branchb (apply d e) es'
  end.

(* ---------- equality of images ---------- *)
Fixpoint smap_eqb {V} (f : V -> V -> bool) (a b : smap V) : bool :=
  match a, b with
  | [], [] => true
  | (k, v) :: a', (k', v') :: b' => keqb k k' && f v v' && smap_eqb f a' b'
  | _, _ => false
  end.

Definition db_eqb (a b : db) : bool :=
  smap_eqb keqb (utxo a) (utxo b) && smap_eqb leqb (lockups a) (lockups b)
  && smap_eqb keqb (canon a) (canon b) && keqb (head a) (head b).

Definition db_sortedb (d : db) : bool :=
  sortedb (utxo d) && sortedb (lockups d) && sortedb (canon d).

End Generic.
Arguments db : clear implicits.
Arguments effect : clear implicits.

(* ================= lockup records: AddNewLock / ClaimCoinbaseLockup ================= *)

(* big-endian fixed width *)
Fixpoint be (n : nat) (x : N) : list N :=
  match n with
  | O => []
  | S n' => be n' (x / 256) ++ [x mod 256]
  end.
Definition of_be (l : list N) : N := fold_left (fun a b => a * 256 + b) l 0.

(* decoded record: rawdb.ReadCoinbaseLockup *)
Record lkrec := mkLk { lk_bal : N; lk_height : N; lk_elems : N; lk_deleg : list N (* [] = common.Zero *) }.

(* rawdb.WriteCoinbaseLockup / WriteCoinbaseLockupToSlice / ToMap: 32+4+2 bytes, delegate appended
   unless it is the zero address *)
Definition enc_lk (r : lkrec) : val :=
  be 32 (lk_bal r) ++ be 4 (lk_height r) ++ be 2 (lk_elems r) ++ lk_deleg r.
(* rawdb.ReadCoinbaseLockup: delegate only when len(data) == 58 *)
Definition dec_lk (v : val) : lkrec :=
  mkLk (of_be (firstn 32 v)) (of_be (firstn 4 (skipn 32 v))) (of_be (firstn 2 (skipn 36 v)))
       (if Nat.eqb (List.length v) 58 then skipn 38 v else []).

Definition norm_deleg (d : list N) : list N := if forallb (N.eqb 0) d then [] else d.

Definition lkrec_eqb (a b : lkrec) : bool :=
  N.eqb (lk_bal a) (lk_bal b) && N.eqb (lk_height a) (lk_height b)
  && N.eqb (lk_elems a) (lk_elems b) && keqb (lk_deleg a) (lk_deleg b).

Inductive addres :=
| AErr                                  (* "new unlock height is less than the current tranche unlock height" *)
| ACreated (new : lkrec)                (* deleted = false *)
| AUpdated (undo : lkrec) (new : lkrec). (* deleted = true, oldLockupData, record written *)

(* core/vm/contracts.go:AddNewLock on decoded records.
   [use_old]: which delegate goes into oldLockupData — the source text decides
   (Generated.C10Params.undo_uses_old_delegate); the pinned tree uses the NEW delegate. *)
Definition add_new_lock_s (use_old : bool) (old : option lkrec) (value unlockHeight epochBlocks : N)
           (delegate : list N) : addres :=
  let r := match old with Some r => r | None => mkLk 0 0 0 [] end in
  let d := norm_deleg delegate in
  if (negb (lk_height r =? 0)) && (unlockHeight <? lk_height r) then AErr
  else if lk_height r =? 0 then
    ACreated (mkLk value ((unlockHeight - unlockHeight mod epochBlocks) mod 4294967296) 1 d)
  else
    AUpdated (mkLk (lk_bal r) (lk_height r) (lk_elems r) (if use_old then lk_deleg r else d))
             (mkLk (lk_bal r + value) (lk_height r) ((lk_elems r + 1) mod 65536) d).

(* the same on the stored bytes (what the correspondence check compares) *)
Inductive addres_b := BErr | BCreated (new : val) | BUpdated (undo new : val).
Definition add_new_lock_b (use_old : bool) (old : option val) (value unlockHeight epochBlocks : N)
           (delegate : list N) : addres_b :=
  match add_new_lock_s use_old (option_map dec_lk old) value unlockHeight epochBlocks delegate with
  | AErr => BErr
  | ACreated n => BCreated (enc_lk n)
  | AUpdated u n => BUpdated (enc_lk u) (enc_lk n)
  end.

(* Lockup part of Process for one block: coinbase ETXs with a lockup-contract layout call
   AddNewLock; a successful EVM transaction may have claimed (deleted) records. *)
Inductive lkreq :=
| RAdd (k : key) (value unlockHeight : N) (delegate : list N)
| RClaim (k : key).

Record lkacc := mkAcc {
  a_map : smap lkrec;                     (* database as seen through the batch *)
  a_writes : list (key * option lkrec);
  a_created : list key;
  a_deleted : list (key * lkrec)
}.

Definition lk_step (use_old : bool) (eb : N) (a : lkacc) (r : lkreq) : lkacc :=
  match r with
  | RAdd k v uh dg =>
      match add_new_lock_s use_old (get k (a_map a)) v uh eb dg with
      | AErr => a      (* Process aborts the block; nothing of it is committed *)
      | ACreated n => mkAcc (put k n (a_map a)) (a_writes a ++ [(k, Some n)]) (a_created a ++ [k]) (a_deleted a)
      | AUpdated u n => mkAcc (put k n (a_map a)) (a_writes a ++ [(k, Some n)]) (a_created a) (a_deleted a ++ [(k, u)])
      end
  | RClaim k =>
      match get k (a_map a) with
      | Some old => mkAcc (del k (a_map a)) (a_writes a ++ [(k, None)]) (a_created a) (a_deleted a ++ [(k, old)])
      | None => a      (* "no lockup to claim": the call reverts, nothing recorded *)
      end
  end.

Definition lk_process (use_old : bool) (eb : N) (m : smap lkrec) (rs : list lkreq) : lkacc :=
  fold_left (lk_step use_old eb) rs (mkAcc m [] [] []).

(* the block effect restricted to lockups *)
Definition lk_effect (use_old : bool) (eb : N) (num : N) (hash parent : val) (m : smap lkrec) (rs : list lkreq)
  : effect lkrec :=
  let a := lk_process use_old eb m rs in
  mkEff num hash parent [] [] [] [] (a_writes a) (a_created a) (a_deleted a).

(* every update keeps the delegate that is stored (the condition under which the pinned
   AddNewLock writes a correct undo record) *)
Fixpoint delegate_stable (eb : N) (m : smap lkrec) (rs : list lkreq) : bool :=
  match rs with
  | [] => true
  | r :: rs' =>
      (match r with
       | RAdd k v uh dg =>
           match get k m with
           | Some old => (lk_height old =? 0) || keqb (lk_deleg old) (norm_deleg dg)
           | None => true
           end
       | RClaim _ => true
       end) && delegate_stable eb (a_map (lk_step true eb (mkAcc m [] [] []) r)) rs'
  end.

(* ================= side conditions on the source (Generated/C10Params.v) ================= *)
Fixpoint index_of (s : string) (l : list string) (i : nat) : option nat :=
  match l with
  | [] => None
  | x :: l' => if String.eqb s x then Some i else index_of s l' (S i)
  end.
Definition index_of_last (s : string) (l : list string) : option nat :=
  match index_of s (rev l) 0 with
  | Some i => Some (List.length l - 1 - i)%nat
  | None => None
  end.
Definition before_last (a b : string) (l : list string) : bool :=
  match index_of a l 0, index_of_last b l with
  | Some i, Some j => Nat.ltb i j
  | _, _ => false
  end.
Definition before (a b : string) (l : list string) : bool :=
  match index_of a l 0, index_of b l 0 with
  | Some i, Some j => Nat.ltb i j
  | _, _ => false
  end.

(* the order of the rollback loop of SetCurrentHeader that [rollback] relies on *)
Definition rollback_order_ok : bool :=
  before "DeleteCanonicalHash" "ReadSpentUTXOs" rollback_calls
  && before "ReadSpentUTXOs" "ReadTrimmedUTXOs" rollback_calls
  && before "ReadTrimmedUTXOs" "CreateUTXO" rollback_calls
  && before "CreateUTXO" "ReadCreatedUTXOKeys" rollback_calls
  && before "ReadCreatedUTXOKeys" "batch.Delete" rollback_calls
  && before "batch.Delete" "ReadDeletedCoinbaseLockups" rollback_calls
  && before "ReadDeletedCoinbaseLockups" "batch.Put" rollback_calls
  && before "batch.Put" "ReadCreatedCoinbaseLockupKeys" rollback_calls
  && before_last "ReadCreatedCoinbaseLockupKeys" "batch.Delete" rollback_calls
  && Nat.eqb (List.length (filter (String.eqb "batch.Delete") rollback_calls)) 2
  && before "ReadCreatedCoinbaseLockupKeys" "WriteHeadBlockHash" rollback_calls
  && before "WriteHeadBlockHash" "WriteCanonicalHash" rollback_calls
  && before "WriteCanonicalHash" "batch.Write" rollback_calls
  && deleted_lockups_restored_in_reverse
  && Nat.eqb (List.length (filter (String.eqb "batch.Write") rollback_calls)) 1
  (* outputs are re-created once (before the deletes: line 4 above), lockups restored once *)
  && Nat.eqb (List.length (filter (String.eqb "CreateUTXO") rollback_calls)) 1
  && Nat.eqb (List.length (filter (String.eqb "batch.Put") rollback_calls)) 1.

(* the four write loops of the rollback are the ones of [rollback], in its order, and each write is
   reached on every iteration (no guard, no continue/break): [del_all]/[put_all] over the whole
   undo record, not over a filtered part of it *)
Definition rollback_writes_ok : bool :=
  match rollback_write_loops with
  | [(a, ua); (b, ub); (c, uc); (d, ud)] =>
      String.eqb a "CreateUTXO" && String.eqb b "batch.Delete" && String.eqb c "batch.Put"
      && String.eqb d "batch.Delete" && ua && ub && uc && ud
  | _ => false
  end.

Definition key_lengths_ok : bool :=
  N.eqb utxo_key_length 36 && N.eqb utxo_key_with_denomination_length 37 && N.eqb coinbase_lockup_key_length 47.

(* Process writes all four undo records, Finalize the fifth *)
Definition undo_records_written : bool :=
  forallb (fun s => match index_of s process_undo_writes 0 with Some _ => true | None => false end)
          ["WriteSpentUTXOs"; "WriteCreatedUTXOKeys"; "WriteCreatedCoinbaseLockupKeys"; "WriteDeletedCoinbaseLockups"]%string
  && finalize_writes_trimmed.

(* ================= correspondence cases ================= *)
(* compact byte strings in case files: chunks of up to 7 bytes as primitive 63-bit integers
   (one node each instead of one constructor per bit), decoded big-endian inside Coq *)
Definition W (n : N) (i : int) : list N := be (N.to_nat n) (Z.to_N (Uint63.to_Z i)).
Arguments W n%N i%uint63.
Definition B (chunks : list (list N)) : list N := List.concat chunks.

Definition bdb := db val.
Definition beff := effect val.

Inductive case :=
(* a real SetCurrentHeader from the tip of [olds] (forward order, from the common ancestor image
   [anc]) to the tip of [news]: [pre]/[post] = real scans before/after; [wf_old]/[wf_new] =
   well-formedness of the real undo records as computed by the harness *)
| CReorg (id : N) (anc : bdb) (olds news : list beff) (pre post : bdb) (wf_old wf_new : bool)
(* one real call of vm.AddNewLock: old record, value, unlock height, epoch blocks, delegate;
   observed: error / created / updated + bytes *)
| CAddLock (id : N) (old : option val) (value unlockHeight epochBlocks : N) (delegate : list N) (obs : addres_b).

Definition case_id (c : case) : N :=
  match c with CReorg i _ _ _ _ _ _ _ => i | CAddLock i _ _ _ _ _ _ => i end.

Definition addres_b_eqb (a b : addres_b) : bool :=
  match a, b with
  | BErr, BErr => true
  | BCreated x, BCreated y => keqb x y
  | BUpdated u x, BUpdated v y => keqb u v && keqb x y
  | _, _ => false
  end.

Definition case_ok (c : case) : bool :=
  match c with
  | CReorg _ anc olds news pre post wo wn =>
      db_sortedb anc
      && db_eqb keqb (apply_all anc olds) pre
      && db_eqb keqb (reorg pre (rev olds) news) post
      && Bool.eqb (wf_branchb keqb anc olds) wo
      && Bool.eqb (wf_branchb keqb anc news) wn
  | CAddLock _ old v uh eb dg obs =>
      addres_b_eqb (add_new_lock_b undo_uses_old_delegate old v uh eb dg) obs
  end.

Definition mismatches (cs : list case) : list N :=
  map case_id (filter (fun c => negb (case_ok c)) cs).
