(* C19 -- every transaction the pool holds (pending AND queued) is payable from its sender's
   balance and fits the block gas limit, in every reachable state.
   Between head events the chain state is fixed and the only elementary update that lets a
   transaction into the hash index is guarded by validateTx; a head event swaps the state,
   after which promoteExecutables filters every queue and demoteUnexecutables every pending
   list, and only re-queues transactions that passed the filter. *)
From Coq Require Import List NArith Lia.
From GQ Require Import Lib.Lists Model.C19 Proofs.C19_Lists Proofs.C19_Moves Proofs.C19_Struct Proofs.C19_State Proofs.C19_Ops.
Import ListNotations.
Local Open Scope N_scope.

Lemma firstn_in' {A} k (l : list A) x : In x (firstn k l) -> In x l.
Proof. apply firstn_In. Qed.

Definition pay_in (S : chainst) (t : tx) : Prop := unpayable (nget (t_from t) (s_bal S)) (s_maxgas S) t = false.
Definition APs (S : chainst) (p : pool) : Prop := forall t, in_all t p -> pay_in S t.
Definition all_pay (p : pool) : Prop := APs (p_st p) p.

Definition sub_all (p q : pool) : Prop := forall t, in_all t q -> in_all t p.
Definition shrinks (f : pool -> pool) : Prop := forall p, sub_all p (f p).

Lemma move_index G p0 q : move G p0 q -> forall u, in_all u q -> in_all u p0 \/ exists r, move G p0 r /\ G r u.
Proof.
  intros M. induction M; try exact IHM; intros u Hu; [left; exact Hu| | |].
  - apply in_all_remove in Hu. apply IHM, Hu.
  - apply IHM. unfold in_all in *. cbn in Hu. rewrite map_map in Hu. exact Hu.
  - assert (Hu' : u = t \/ in_all u p) by (unfold heap_put in Hu; destruct l; apply in_all_add in Hu; exact Hu).
    destruct Hu' as [->|Hu']; [right; exists p; auto|apply IHM, Hu'].
Qed.
Lemma sa_move p0 q : move (fun _ _ => False) p0 q -> sub_all p0 q.
Proof. intros M u Hu. destruct (move_index _ _ _ M u Hu) as [H|[r [_ []]]]. exact H. Qed.
Lemma sa_demote_one c a : shrinks (demote_one c a).
Proof. intros p. apply sa_move, mv_demote_one, mv_refl. Qed.

Lemma ap_move c p0 q : move (admits c) p0 q -> all_pay p0 -> all_pay q.
Proof.
  intros M H u Hu. unfold all_pay. rewrite (move_st _ _ _ M). destruct (move_index _ _ _ M u Hu) as [Hu'|[r [Mr [Ev _]]]]; [exact (H u Hu')|].
  apply validate_ok in Ev as [_ Ev]. unfold payable, st_bal in Ev. rewrite (move_st _ _ _ Mr) in Ev. exact Ev.
Qed.

Definition QPa (p : pool) (a : N) : Prop := forall t, In t (aget a (p_queue p)) -> payable p a t.

Lemma all_pay_lists p : Inv0 p ->
  (all_pay p <-> forall a t, In t (aget a (p_pend p)) \/ In t (aget a (p_queue p)) -> payable p a t).
Proof.
  intros H0. split.
  - intros H a t Ht. destruct (proj1 (listed_iff p a t H0) Ht) as [<- Hi]. apply (H t Hi).
  - intros HL t Ht. apply (HL (t_from t)), (listed_iff p _ t H0). auto.
Qed.

(* the queue of b is payable: kept by every promote_one, established by its own *)
Lemma promote_one_QPa c a b p : b = a \/ QPa p b -> QPa (promote_one c a p) b.
Proof.
  intros Hb t. destruct (promote_one_queue c a p) as [q3 [E Hq3]]. rewrite E.
  unfold payable, st_bal. rewrite (move_st (fun _ _ => False) _ _ (mv_promote_one _ _ c a p (mv_refl _ p))).
  destruct (a =? b) eqn:Eab.
  - assert (b = a) by lia. subst b. intros Ht. apply Hq3. exact (firstn_In _ _ _ Ht).
  - destruct Hb as [->|Hb]; [lia|apply Hb].
Qed.
Lemma promote_list_QPa c l b p : In b l \/ QPa p b -> QPa (promote_list c l p) b.
Proof.
  apply (fold_each (fun s a => promote_one c a s) (fun _ => True) (fun q => QPa q b) b); [exact (fun _ _ _ => I)| | |exact I].
  - intros q _. apply promote_one_QPa; auto.
  - intros q a _ Hb. apply promote_one_QPa; auto.
Qed.
Lemma promote_all_QPa c p b : QPa (promote_list c (akeys (p_queue p)) p) b.
Proof.
  apply promote_list_QPa. destruct (in_dec N.eq_dec b (akeys (p_queue p))) as [Hin|Hnin]; [auto|right].
  intros t Ht. rewrite (aget_notin b _ Hnin) in Ht. destruct Ht.
Qed.

Lemma demote_all_QPa c : pres (IX QPa) (demote_all c).
Proof.
  intros p. apply (fold_pres (IX QPa) (fun s a => demote_one c a s)). intros a q [Hq HQq]. destruct (demote_one_shape c a q Hq) as [Hq' Qq].
  split; [exact Hq'|]. intros b t Ht. unfold payable, st_bal. rewrite (move_st (fun _ _ => False) _ _ (mv_demote_one _ _ c a q (mv_refl _ q))).
  destruct (Qq b t Ht) as [Hin|[-> [_ Hp]]]; [apply HQq, Hin|exact Hp].
Qed.

Lemma ap_step c p o qo : Inv0 p -> all_pay p -> all_pay (fst (step c p o qo)).
Proof.
  intros H0 HA. pose proof (mv_step c p o qo) as M.
  destruct o as [loc txs|g|r|]; try exact (ap_move c p _ M HA).
  (* a head event re-validates everything: each queue by its promote_one, each pending list by its demote_one *)
  clear M. rewrite step_eq. apply (ap_move c (body c (OHead r) p)); [apply (kept_tail c _ (kept_trace c _)), mv_refl|].
  cbn [body]. set (p1 := do_reset c r p).
  pose proof (reset_IX WRa WRa_acct c r p H0 (WRa_after_swap _ p)) as I2. fold p1 in I2.
  destruct (demote_all_Wa c _ I2) as [A' B'].
  destruct (demote_all_QPa c _ (conj (proj1 I2) (promote_all_QPa c p1))) as [_ Q3].
  apply all_pay_lists; [eapply invr_same; [|exact A']; repeat split|].
  intros a t [Ht|Ht]; [apply (w_pay _ _ (B' a) t Ht)|apply (Q3 a t Ht)].
Qed.

(* non-vacuity: a queued replacement that costs more than anything queued before is dropped
   by the head event whose balance is one below its cost (and kept at exactly its cost) *)
Definition qp_cfg := Cfg 10 16 64 16 256.
Definition qp_hist (bal : N) : list (op * list N) :=
  [(OAdd false [T 0 2 10 21000 1000; T 0 3 10 21000 500], []);
   (OAdd false [T 0 3 20 21000 500], []);
   (OHead (Reset (St [] [(0, bal)] 1 5000000) [] []), [])].
