(* C03 — the pool's senders cache (tx hash -> "signature already verified"): the pool state machine
   keeps "cached => signature verified", so block processing with the cache-derived checkSig is as
   good as the full check.  Lemmas behind the pool theorems of Props/C03.v. *)
From Coq Require Import List NArith Bool.
From GQ Require Import Lib.Lists Model.C03.
Import ListNotations.
Local Open Scope N_scope.

Section PoolFacts.
  Variable pool_valid : N -> bool.
  Variable reinject_valid : N -> bool.
  Variable proc_ok : N -> bool -> bool.
  Variable sigok : N -> bool.

  Notation padd_one := (padd_one pool_valid).
  Notation preinject_one := (preinject_one reinject_valid).
  Notation pstep := (pstep pool_valid reinject_valid proc_ok).
  Notation pfinal := (pfinal pool_valid reinject_valid proc_ok).

  (* every hash in senders and every hash with a cached fee belongs to a transaction whose signature
     verifies under the keys it carries *)
  Definition pinv (st : pstate) : Prop :=
    (forall i, pmem i (p_cache st) = true -> sigok i = true)
    /\ (forall i, pmem i (p_fees st) = true -> sigok i = true).

  (* [pinv st] is [verified (p_cache st) /\ verified (p_fees st)] *)
  Definition verified (l : list N) : Prop := forall i, pmem i l = true -> sigok i = true.

  Lemma pmem_cons : forall i j l, pmem i (j :: l) = (N.eqb i j || pmem i l)%bool.
  Proof. reflexivity. Qed.

  Lemma verified_cons : forall j l, sigok j = true -> verified l -> verified (j :: l).
  Proof.
    intros j l Hj Hl i Hm. rewrite pmem_cons in Hm. apply orb_true_iff in Hm.
    destruct Hm as [He|Hm]; [apply N.eqb_eq in He; subst i; exact Hj|apply Hl; exact Hm].
  Qed.

  Lemma pinv_empty : pinv p_empty.
  Proof. split; intros i Hm; discriminate Hm. Qed.

  (* removal touches qiPool only *)
  Lemma premove_all_inv : forall l st, pinv st -> pinv (premove_all l st).
  Proof. intros l st Hinv. exact Hinv. Qed.

  Section Sound.
    Hypothesis pool_valid_sig : forall i, pool_valid i = true -> sigok i = true.
    Hypothesis reinject_valid_sig : forall i, reinject_valid i = true -> sigok i = true.

    Lemma padd_one_inv : forall qp0 acc i, pinv (fst acc) -> pinv (fst (padd_one qp0 acc i)).
    Proof.
      intros qp0 [st res] i [Hc Hf]. unfold C03.padd_one.
      destruct (pmem i qp0); [split; assumption|].
      destruct (pool_valid i) eqn:Hv; [|split; assumption].
      apply pool_valid_sig in Hv. split; apply verified_cons; assumption.
    Qed.

    Lemma preinject_one_inv : forall st i, pinv st -> pinv (preinject_one st i).
    Proof.
      intros st i [Hc Hf]. unfold C03.preinject_one.
      destruct (pmem i (p_qp st)); [split; assumption|].
      destruct (pmem i (p_fees st)) eqn:Hfee.
      - (* fee cached: re-entered without validation; justified by the fee-cache half of the invariant *)
        split; [apply verified_cons; [apply Hf; exact Hfee|exact Hc]|exact Hf].
      - destruct (reinject_valid i) eqn:Hv; [|split; assumption].
        apply reinject_valid_sig in Hv. split; apply verified_cons; assumption.
    Qed.

    Lemma pstep_inv : forall st op, pinv st -> pinv (fst (pstep st op)).
    Proof.
      intros st op Hinv. destruct op as [l|l|l|l]; cbn [C03.pstep fst].
      - apply (fold_left_inv (fun acc : pstate * list N => pinv (fst acc))); [|exact Hinv].
        intros acc i _. apply padd_one_inv.
      - exact Hinv.
      - apply premove_all_inv. exact Hinv.
      - apply fold_left_inv; [|apply premove_all_inv; exact Hinv].
        intros s i _. apply preinject_one_inv.
    Qed.

    Lemma pfinal_inv : forall ops st, pinv st -> pinv (pfinal st ops).
    Proof.
      intros ops st. unfold C03.pfinal. apply fold_left_inv.
      intros s op _. apply pstep_inv.
    Qed.

    (* [accept i cs]: transaction i passes the check made with checkSig = cs *)
    Lemma cache_check_sound : forall accept : N -> bool -> Prop,
      (forall i, accept i false -> sigok i = true -> accept i true) ->
      forall st ops i, pinv st -> accept i (negb (pmem i (p_cache (pfinal st ops)))) -> accept i true.
    Proof.
      intros accept Hsplit st ops i Hinv Ha.
      destruct (pfinal_inv ops st Hinv) as [Hc _].
      destruct (pmem i (p_cache (pfinal st ops))) eqn:Hm; cbn [negb] in Ha; [|exact Ha].
      apply Hsplit; [exact Ha|apply Hc; exact Hm].
    Qed.
  End Sound.
End PoolFacts.

(* ---- NOT the code: the "negative cache" variant of addQiTxs that remembers the hash of a refused
   transaction in the senders cache ("so that copies are dropped").  Kept only to state that it breaks
   the invariant: a transaction with an invalid signature is accepted by block processing. ---- *)
Section NegCache.
  Variable pool_valid : N -> bool.
  Variable proc_ok : N -> bool -> bool.
  Definition padd_one_neg (qp0 : list N) (acc : pstate * list N) (i : N) : pstate * list N :=
    let '(st, res) := acc in
    if pmem i (p_cache st) then (st, res ++ [1])
    else if pmem i qp0 then (st, res ++ [1])
    else if pool_valid i then (mkP (i :: p_qp st) (i :: p_fees st) (i :: p_cache st), res ++ [0])
    else (mkP (p_qp st) (p_fees st) (i :: p_cache st), res ++ [2]).
  Definition pstep_neg (st : pstate) (op : pop) : pstate * list N :=
    match op with
    | PAdd l => fold_left (padd_one_neg (p_qp st)) l (st, [])
    | _ => pstep pool_valid pool_valid proc_ok st op
    end.
End NegCache.
