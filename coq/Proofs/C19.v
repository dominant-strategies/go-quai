(* C19 -- the invariant of the property statement and the bundle of invariants every step of a
   history keeps; the witnesses of what the model (and the code) does not guarantee. *)
From Coq Require Import List NArith Lia.
From GQ Require Import Model.C19 Proofs.C19_Lists Proofs.C19_Moves Proofs.C19_Struct Proofs.C19_State Proofs.C19_Ops
  Proofs.C19_Heap Proofs.C19_QPay.
Import ListNotations.
Local Open Scope N_scope.

Record pool_invariant (p : pool) : Prop := {
  pi_sorted : forall a, sorted (aget a (p_pend p)) /\ sorted (aget a (p_queue p));
  pi_owned : forall a t, In t (aget a (p_pend p)) \/ In t (aget a (p_queue p)) -> t_from t = a;
  pi_from_state_nonce : forall a t, In t (aget a (p_pend p)) -> st_nonce p a <= t_nonce t;
  pi_front : forall a, aget a (p_pend p) <> [] -> hasn (aget a (p_pend p)) (st_nonce p a);
  pi_affordable : forall a t, In t (aget a (p_pend p)) -> cost t <= st_bal p a /\ t_gas t <= s_maxgas (p_st p);
  pi_disjoint : forall a x y, In x (aget a (p_pend p)) -> In y (aget a (p_queue p)) -> t_nonce x <> t_nonce y;
  pi_all_nodup : NoDup (map fst (p_all p));
  pi_all : forall t, In t (map fst (p_all p)) <-> In t (aget (t_from t) (p_pend p)) \/ In t (aget (t_from t) (p_queue p));
  pi_priced : forall t, In (t, false) (p_all p) -> In t (p_heap p);
  pi_pnonce : forall a, pn_get p a = last_next (st_nonce p a) (aget a (p_pend p))
}.

Lemma invariant_of p : IWT p -> heap_ok p -> pool_invariant p.
Proof.
  intros [H0 [HW HT]] HK. constructor.
  - intros a. split; [apply (ir_pend _ _ _ H0 a)|apply (ir_queue _ _ _ H0 a)].
  - intros a t [H|H]; [apply (proj2 (ir_pend _ _ _ H0 a))|apply (proj2 (ir_queue _ _ _ H0 a))]; exact H.
  - intros a. apply (w_ge _ _ (HW a)).
  - intros a. apply (w_front _ _ (HW a)).
  - intros a t Ht. apply unpayable_false, (w_pay _ _ (HW a) t Ht).
  - apply (ir_disj _ _ _ H0).
  - apply (ir_nodup _ _ _ H0).
  - intros t. pose proof (ir_all _ _ _ H0 t) as X. unfold in_all in X. cbn [In] in X. tauto.
  - exact HK.
  - exact HT.
Qed.

Record InvAll (M : N) (p : pool) : Prop := { ia_iwt : IWT p; ia_heap : heap_ok p; ia_pay : all_pay p; ia_le : all_le M p }.

Lemma InvAll_invariant M p : InvAll M p -> pool_invariant p.
Proof. intros [A B _ _]. apply invariant_of; assumption. Qed.
Lemma InvAll_payable M p a t : InvAll M p -> In t (aget a (p_pend p)) \/ In t (aget a (p_queue p)) ->
  cost t <= st_bal p a /\ t_gas t <= s_maxgas (p_st p).
Proof. intros [A _ C _] Ht. apply unpayable_false, (proj1 (all_pay_lists p (proj1 A)) C a t Ht). Qed.

Lemma step_InvAll c o qo : pres (InvAll (c_gslots c + c_gqueue c)) (fun p => fst (step c p o qo)).
Proof.
  intros p [A B C D]. constructor; [apply step_IWT; exact A|apply hk_step; exact B|apply ap_step; [apply A|exact C]|apply al_step; exact D].
Qed.
Lemma init_InvAll M pl st : InvAll M (init pl st).
Proof.
  constructor; [apply init_IWT|apply hk_init|intros t []|]. unfold all_le, len. cbn. lia.
Qed.
Lemma reachable_InvAll c pl st h : InvAll (c_gslots c + c_gqueue c) (run_hist c (init pl st) h).
Proof. apply (run_hist_pres _ c h (step_InvAll c)), init_InvAll. Qed.

(* what is NOT guaranteed (by the model, and by the code: both witnesses are
   replayed on the real pool by the harness corpus) *)
Definition w_cfg := Cfg 10 16 64 16 64.
Definition w_st0 := St [(0,0)] [(0,1000000000)] 1 5000000.
Definition w_st2 := St [(0,2)] [(0,1000000000)] 1 5000000.
Definition w_A := T 0 0 10 21000 0.
Definition w_B := T 0 1 3 21000 0.      (* below the pool's price limit 5: refused when re-injected *)
Definition w_C := T 0 2 10 21000 0.
(* two transactions are mined elsewhere, a third one is added on top, then the chain
   reorganises back: A is re-injected, B is refused, and [A; C] is promoted with a gap *)
Definition w_gap_history : list (op * list N) :=
  [(OHead (Reset w_st2 [] [w_A; w_B]), []); (OAdd false [w_C], []); (OHead (Reset w_st0 [w_A; w_B] []), [])].

Definition w_st_poor := St [(0,0)] [(0,300000)] 1 5000000.
Definition w_two : list (op * list N) := [(OAdd false [T 0 0 10 21000 0; T 0 1 10 21000 0], [])].
(* non-vacuity: an accepted replacement, and a state with pending and queued transactions *)
Definition nv_st := St [(0,0);(1,0)] [(0,1000000000);(1,1000000000)] 1 5000000.
Definition nv_pool := run_hist w_cfg (init 1 nv_st)
  [(OAdd false [T 0 0 10 21000 0; T 0 1 10 21000 0; T 0 3 10 21000 0; T 1 2 7 21000 0], [])].
