(* C03 — Only the key holder can authorise a transaction; no replay across chains.
   Property theorems, each followed by [Print Assumptions].  Model: Model/C03.v
   Lemmas: Proofs/C03.v, Proofs/C03_Pool.v, Lib/C03_TLVFacts.v.  keccak, ECDSA recovery,
   pubkey->address, Schnorr verification and MuSig2 aggregation are universally quantified
   functions: unforgeability is NOT a theorem; the binding theorems conclude "equal signed fields
   or here is a collision of the primitives". *)
From Coq Require Import List NArith ZArith Bool Lia.
From GQ Require Import Lib.C03_TLVFacts Model.C03 Proofs.C03 Proofs.C03_Pool.
Import ListNotations.
Local Open Scope Z_scope.

(* ---------- generated data (re-derived from /repo on every run) ---------- *)

(* secp256k1halfN = secp256k1N / 2, N is a 256-bit number *)
Theorem curve_half_n_is_half : half_n_is_half = true.
Proof. vm_compute. reflexivity. Qed.
Print Assumptions curve_half_n_is_half.

(* the wire schema (field numbers, wire types, presence) the payload model encodes with is the
   compiled one *)
Theorem wire_schema_matches : schema_matches = true.
Proof. vm_compute. reflexivity. Qed.
Print Assumptions wire_schema_matches.

(* ProtoEncodeTxSigningData sets exactly the reviewed signed fields per type, and every field
   ProtoEncode puts on the wire is signed or is a signature value / work field *)
Theorem signing_covers_all_payload_fields : signing_covers_all_fields = true.
Proof. vm_compute. reflexivity. Qed.
Print Assumptions signing_covers_all_payload_fields.

(* ---------- (a) signature values, for all integers ---------- *)

Theorem sig_values_accepted_iff : forall v r s,
  validate_sig_values v r s = true <->
  (1 <= r < secp_n /\ 1 <= s <= secp_half_n /\ (v = 0%N \/ v = 1%N)).
Proof. exact validate_iff. Qed.
Print Assumptions sig_values_accepted_iff.

Theorem bad_sig_values_rejected : forall v r s,
  r <= 0 \/ s <= 0 \/ r >= secp_n \/ s >= secp_n \/ s > secp_n / 2 \/ (v <> 0%N /\ v <> 1%N) ->
  validate_sig_values v r s = false.
Proof.
  intros v r s Hbad. apply not_true_is_false. rewrite validate_iff.
  rewrite <- half_is_half in Hbad. pose proof half_lt_n. lia.
Qed.
Print Assumptions bad_sig_values_rejected.

(* the ECDSA twin (r, n - s) of an accepted signature is rejected *)
Theorem malleable_twin_is_rejected : forall v v' r s,
  validate_sig_values v r s = true -> validate_sig_values v' r (secp_n - s) = false.
Proof.
  intros v v' r s Hv. apply validate_iff in Hv.
  apply bad_sig_values_rejected. rewrite <- half_is_half. pose proof n_odd. lia.
Qed.
Print Assumptions malleable_twin_is_rejected.

(* recoverPlain, whatever the primitives: bad r / s, or Vb = V+27 outside {27,28,-27,-28} *)
Theorem recover_rejects_bad_values : forall (hash pub addr : Type) ecrecover addr_of_pub h r s vb,
  (r <= 0 \/ s <= 0 \/ r >= secp_n \/ s >= secp_n \/ s > secp_n / 2
   \/ (vb <> 27 /\ vb <> 28 /\ vb <> -27 /\ vb <> -28)) ->
  recover_plain hash pub addr ecrecover addr_of_pub h r s vb = RErrSig.
Proof.
  intros hash pub addr ecrecover addr_of_pub h r s vb Hbad.
  destruct (recover_plain_outcome hash pub addr ecrecover addr_of_pub h r s vb) as [|Hv Hr Hs]; [reflexivity|exfalso].
  rewrite <- half_is_half in Hbad. pose proof half_lt_n. lia.
Qed.
Print Assumptions recover_rejects_bad_values.

(* FULL statement "V not in {0,1} => error" is refuted by the faithful model for negative
   in-memory big.Int values: V = -54 / -55 alias 0 / 1 (BitLen and Uint64 read |V+27|).
   Not decodable from the wire (SetBytes is non-negative).  Replayed on the real code by the
   harness corpus (cases "negV"). *)
Theorem negative_v_aliases_refuted : forall (hash pub addr : Type) H ecrecover addr_of_pub sg f r s p m w,
  signer_sender hash pub addr H ecrecover addr_of_pub sg (mkQ f (-54) r s p m w)
  = signer_sender hash pub addr H ecrecover addr_of_pub sg (mkQ f 0 r s p m w)
  /\ signer_sender hash pub addr H ecrecover addr_of_pub sg (mkQ f (-55) r s p m w)
  = signer_sender hash pub addr H ecrecover addr_of_pub sg (mkQ f 1 r s p m w).
Proof. intros. split; reflexivity. Qed.
Print Assumptions negative_v_aliases_refuted.

(* strongest true statement: every non-negative V other than 0, 1 and every bad r / s errors *)
Theorem out_of_range_rejected_partial : forall (hash pub addr : Type) H ecrecover addr_of_pub sg t,
  (q_r t <= 0 \/ q_s t <= 0 \/ q_r t >= secp_n \/ q_s t >= secp_n \/ q_s t > secp_n / 2
   \/ (0 <= q_v t /\ q_v t <> 0 /\ q_v t <> 1)) ->
  signer_sender hash pub addr H ecrecover addr_of_pub sg t = RErrChain
  \/ signer_sender hash pub addr H ecrecover addr_of_pub sg t = RErrSig.
Proof.
  intros hash pub addr H ecrecover addr_of_pub sg t Hbad. unfold signer_sender.
  destruct (negb (q_chain t =? sg)%N); [left; reflexivity|right].
  apply recover_rejects_bad_values. lia.
Qed.
Print Assumptions out_of_range_rejected_partial.

(* converse: an attributed sender implies the right chain, in-range low-S values and that the
   address is the one of the key recovered from exactly this transaction's signing bytes *)
Theorem sender_is_recovered_from_signing_bytes : forall (hash pub addr : Type) H ecrecover addr_of_pub sg t a,
  signer_sender hash pub addr H ecrecover addr_of_pub sg t = ROk a ->
  q_chain t = sg
  /\ (q_v t = 0 \/ q_v t = 1 \/ q_v t = -54 \/ q_v t = -55)
  /\ 1 <= q_r t < secp_n /\ 1 <= q_s t <= secp_half_n
  /\ exists p, ecrecover (H (signing_bytes (q_f t))) (q_r t) (q_s t) (v_byte (q_v t + 27)) = Some p
               /\ a = addr_of_pub p.
Proof.
  intros hash pub addr H ecrecover addr_of_pub sg t a. unfold signer_sender.
  destruct (N.eqb_spec (q_chain t) sg) as [He|He]; cbn [negb]; [|discriminate].
  destruct (recover_plain_outcome hash pub addr ecrecover addr_of_pub (H (signing_bytes (q_f t))) (q_r t) (q_s t) (q_v t + 27))
    as [|Hv Hr Hss]; [discriminate|].
  destruct (ecrecover _ _ _ _) as [p|]; [|discriminate]. intros Hs. injection Hs as Hs.
  split; [exact He|]. split; [lia|]. split; [exact Hr|]. split; [exact Hss|].
  exists p. split; [reflexivity|symmetry; exact Hs].
Qed.
Print Assumptions sender_is_recovered_from_signing_bytes.

(* ---------- (b) chain ID and the sender cache ---------- *)

Theorem wrong_chain_rejected : forall (hash pub addr : Type) H ecrecover addr_of_pub sg t,
  q_chain t <> sg -> signer_sender hash pub addr H ecrecover addr_of_pub sg t = RErrChain.
Proof.
  intros hash pub addr H ecrecover addr_of_pub sg t Hne. unfold signer_sender.
  destruct (N.eqb_spec (q_chain t) sg) as [He|He]; [contradiction|reflexivity].
Qed.
Print Assumptions wrong_chain_rejected.

(* for every history of Sender(signer_i, tx) and tx.Hash() calls on one fresh object, every
   answer equals the answer computed without any cache *)
Theorem cache_transparent : forall (hash pub addr : Type) H ecrecover addr_of_pub t ops,
  crun hash pub addr H ecrecover addr_of_pub t (None, false) ops
  = map (uncached hash pub addr H ecrecover addr_of_pub t) ops.
Proof. intros. apply crun_simulates, cache_inv_none. Qed.
Print Assumptions cache_transparent.

(* ... in particular a signer of another chain gets ErrInvalidChainId wherever it occurs in the
   history, whatever was cached before *)
Theorem wrong_chain_rejected_in_every_history : forall (hash pub addr : Type) H ecrecover addr_of_pub t ops pre chain loc post,
  ops = pre ++ OSender chain loc :: post -> q_chain t <> chain ->
  nth (length pre) (crun hash pub addr H ecrecover addr_of_pub t (None, false) ops) CNone = CRes RErrChain.
Proof.
  intros hash pub addr H ecrecover addr_of_pub t ops pre chain loc post Hops Hne.
  rewrite cache_transparent. subst ops.
  rewrite map_app, app_nth2, map_length, Nat.sub_diag by (rewrite map_length; apply le_n).
  cbn [map nth uncached]. f_equal. apply wrong_chain_rejected. exact Hne.
Qed.
Print Assumptions wrong_chain_rejected_in_every_history.

(* whatever the history, a cached entry was computed by a signer of the transaction's own chain
   and is that signer's uncached answer *)
Theorem cache_never_crosses_chain : forall (hash pub addr : Type) H ecrecover addr_of_pub t ops cc a,
  fst (crun_state hash pub addr H ecrecover addr_of_pub t (None, false) ops) = Some (cc, a) ->
  cc = q_chain t /\ signer_sender hash pub addr H ecrecover addr_of_pub cc t = ROk a.
Proof.
  intros hash pub addr H ecrecover addr_of_pub t ops cc a Hc.
  assert (Hs : signer_sender hash pub addr H ecrecover addr_of_pub cc t = ROk a).
  { eapply crun_simulates; [apply cache_inv_none|exact Hc]. }
  split; [|exact Hs]. apply sender_is_recovered_from_signing_bytes in Hs. symmetry. exact (proj1 Hs).
Qed.
Print Assumptions cache_never_crosses_chain.

(* the invariant is necessary: an entry written from outside (Transaction.SetFrom, used by the
   RPC client) is returned for its chain without any check *)
Theorem cache_entry_from_outside_is_trusted : forall (hash pub addr : Type) H ecrecover addr_of_pub t a sg,
  sender_cached hash pub addr H ecrecover addr_of_pub (Some (sg, a)) sg t = (Some (sg, a), ROk a).
Proof.
  intros hash pub addr H ecrecover addr_of_pub t a sg. unfold sender_cached.
  rewrite N.eqb_refl. reflexivity.
Qed.
Print Assumptions cache_entry_from_outside_is_trusted.

(* ---------- (c) the signature binds the payload ---------- *)

Theorem signing_bytes_injective : forall f1 f2, signing_bytes f1 = signing_bytes f2 -> f1 = f2.
Proof. intros f1 f2 He. apply signing_msg_inj, encode_msg_inj, He. Qed.
Print Assumptions signing_bytes_injective.

Theorem qi_signing_bytes_injective : forall f1 f2, qi_signing_bytes f1 = qi_signing_bytes f2 -> f1 = f2.
Proof. intros f1 f2 He. apply qi_signing_msg_inj, encode_msg_inj, He. Qed.
Print Assumptions qi_signing_bytes_injective.

(* the pool's sender-cache key tx.Hash() is computed from bytes that determine the signed
   fields, |V|, |R|, |S| and the work fields *)
Theorem pool_cache_key_binds_signature : forall t1 t2, full_bytes t1 = full_bytes t2 ->
  q_f t1 = q_f t2 /\ Z.abs (q_v t1) = Z.abs (q_v t2) /\ Z.abs (q_r t1) = Z.abs (q_r t2)
  /\ Z.abs (q_s t1) = Z.abs (q_s t2)
  /\ q_parent t1 = q_parent t2 /\ q_mix t1 = q_mix t2 /\ q_wnonce t1 = q_wnonce t2.
Proof.
  intros t1 t2 He. apply encode_msg_inj in He. unfold full_msg in He.
  apply signing_msg_app_inj in He. destruct He as [Hf He].
  cbn [app] in He. injection He as Hv Hr Hs He.
  apply be_bytes_inj in Hv. apply be_bytes_inj in Hr. apply be_bytes_inj in Hs.
  apply opt_field_inj in He.
  2: intros v r; destruct (q_mix t1), (q_wnonce t1); discriminate.
  2: intros v r; destruct (q_mix t2), (q_wnonce t2); discriminate.
  destruct He as [Hp He]. apply opt_field_inj in He.
  2: intros v r; destruct (q_wnonce t1); discriminate.
  2: intros v r; destruct (q_wnonce t2); discriminate.
  destruct He as [Hm Hw]. apply opt_field_inj_nil in Hw.
  apply (option_map_inj _ _ _ hash_value_inj) in Hp. apply (option_map_inj _ _ _ hash_value_inj) in Hm.
  apply (option_map_inj _ _ _ VInt_inj) in Hw.
  rewrite <- !N2Z.inj_abs_N, Hv, Hr, Hs. repeat split; assumption.
Qed.
Print Assumptions pool_cache_key_binds_signature.

(* two transactions carrying the same signature values and attributed to the same sender (by
   signers of any chains) have the same signed fields: type, chain ID, nonce, gas price, gas,
   to, value, data, access list — or the primitives collide *)
Theorem sender_binds_payload : forall (hash pub addr : Type) H ecrecover addr_of_pub sg1 sg2 t1 t2 a,
  signer_sender hash pub addr H ecrecover addr_of_pub sg1 t1 = ROk a ->
  signer_sender hash pub addr H ecrecover addr_of_pub sg2 t2 = ROk a ->
  q_r t1 = q_r t2 -> q_s t1 = q_s t2 -> v_byte (q_v t1 + 27) = v_byte (q_v t2 + 27) ->
  q_f t1 = q_f t2 \/ sig_reuse_collision hash pub addr H ecrecover addr_of_pub.
Proof.
  intros hash pub addr H ecrecover addr_of_pub sg1 sg2 t1 t2 a H1 H2 Hr Hs Hv.
  apply sender_is_recovered_from_signing_bytes in H1. destruct H1 as (_ & _ & _ & _ & p1 & He1 & Ha1).
  apply sender_is_recovered_from_signing_bytes in H2. destruct H2 as (_ & _ & _ & _ & p2 & He2 & Ha2).
  destruct (same_fields_or_other_bytes _ _ signing_bytes_injective (q_f t1) (q_f t2)) as [Hf|Hb]; [left; exact Hf|right].
  exists (signing_bytes (q_f t1)), (signing_bytes (q_f t2)), (q_r t1), (q_s t1), (v_byte (q_v t1 + 27)), p1, p2.
  split; [exact Hb|]. split; [exact He1|]. split; [rewrite Hr, Hs, Hv; exact He2|congruence].
Qed.
Print Assumptions sender_binds_payload.

Theorem no_replay_across_chains : forall (hash pub addr : Type) H ecrecover addr_of_pub sg1 sg2 t1 t2 a,
  sg1 <> sg2 ->
  signer_sender hash pub addr H ecrecover addr_of_pub sg1 t1 = ROk a ->
  signer_sender hash pub addr H ecrecover addr_of_pub sg2 t2 = ROk a ->
  q_r t1 = q_r t2 -> q_s t1 = q_s t2 -> v_byte (q_v t1 + 27) = v_byte (q_v t2 + 27) ->
  sig_reuse_collision hash pub addr H ecrecover addr_of_pub.
Proof.
  intros hash pub addr H ecrecover addr_of_pub sg1 sg2 t1 t2 a Hne H1 H2 Hr Hs Hv.
  destruct (sender_binds_payload _ _ _ _ _ _ sg1 sg2 t1 t2 a H1 H2 Hr Hs Hv) as [Hf|Hc]; [exfalso|exact Hc].
  apply sender_is_recovered_from_signing_bytes in H1. apply sender_is_recovered_from_signing_bytes in H2.
  unfold q_chain in H1, H2. rewrite Hf in H1. destruct H1 as [Hc1 _]. destruct H2 as [Hc2 _]. congruence.
Qed.
Print Assumptions no_replay_across_chains.

(* what the collision means for the primitives *)
Theorem collision_is_hash_or_recover_collision : forall (hash pub addr : Type) H ecrecover addr_of_pub,
  (forall x y : hash, {x = y} + {x <> y}) ->
  sig_reuse_collision hash pub addr H ecrecover addr_of_pub ->
  hash_collision hash H \/ recover_collision hash pub addr ecrecover addr_of_pub.
Proof.
  intros hash pub addr H ecrecover addr_of_pub hash_eq_dec (b1 & b2 & r & s & v & p1 & p2 & Hb & H1 & H2 & Ha).
  destruct (hash_eq_dec (H b1) (H b2)) as [Hh|Hh].
  - left. exists b1, b2. split; assumption.
  - right. exists (H b1), (H b2), r, s, v, p1, p2. repeat split; assumption.
Qed.
Print Assumptions collision_is_hash_or_recover_collision.

(* ---------- (d) Qi ---------- *)

(* accepted => right chain, at least one input, every input is spent with a key whose address
   is the consumed entry's owner (pointwise, in input order) and lies in the Qi ledger; with
   checkSig the (aggregated) key of exactly these keys verifies the signature over exactly this
   transaction's signing bytes *)
Theorem qi_needs_owner_keys : forall (hash pub addr sig : Type) H addr_of_pub addr_eqb in_qi_scope parse_ok agg verify
    chain cs f ins sg,
  qi_authorised hash pub addr sig H addr_of_pub addr_eqb in_qi_scope parse_ok agg verify chain cs f ins sg = QOk ->
  ins <> [] /\ qi_chain f = chain
  /\ Forall (owned pub addr addr_of_pub addr_eqb in_qi_scope parse_ok cs) ins
  /\ (cs = true -> exists k, final_key pub agg (map fst ins) = Some k
                            /\ verify k (H (qi_signing_bytes f)) sg = true).
Proof. intros until sg. apply authorised_iff. Qed.
Print Assumptions qi_needs_owner_keys.

(* the same at full strength, with the set lookup explicit (qi_process: input i = (outpoint, key),
   compared with the entry found under ITS OWN outpoint): accepted IF AND ONLY IF there is an input,
   the chain matches, EVERY input - each occurrence, at its own position, not each distinct key -
   carries a Qi-ledger key whose address equals the owner recorded under that input's outpoint, and
   (checkSig) the key aggregated over the carried keys, one per input with repetitions, verifies *)
Theorem qi_accept_iff_every_input_owned : forall (hash pub addr sig : Type) H addr_of_pub addr_eqb in_qi_scope parse_ok agg verify
    (outpoint : Type) utxo chain cs f oins sg,
  qi_process hash pub addr sig H addr_of_pub addr_eqb in_qi_scope parse_ok agg verify outpoint utxo chain cs f oins sg = QOk <->
  (oins <> [] /\ qi_chain f = chain
   /\ Forall (spent_by_owner pub addr addr_of_pub addr_eqb in_qi_scope parse_ok outpoint utxo cs) oins
   /\ (cs = true -> exists k, final_key pub agg (map snd oins) = Some k
                             /\ verify k (H (qi_signing_bytes f)) sg = true)).
Proof.
  intros. unfold qi_process. rewrite authorised_iff, lookup_nil, lookup_owned, lookup_keys. reflexivity.
Qed.
Print Assumptions qi_accept_iff_every_input_owned.

Theorem qi_every_input_needs_its_owner_key : forall (hash pub addr sig : Type) H addr_of_pub addr_eqb in_qi_scope parse_ok agg verify
    (outpoint : Type) utxo chain cs f oins sg,
  qi_process hash pub addr sig H addr_of_pub addr_eqb in_qi_scope parse_ok agg verify outpoint utxo chain cs f oins sg = QOk ->
  forall n op pk, nth_error oins n = Some (op, pk) ->
    spent_by_owner pub addr addr_of_pub addr_eqb in_qi_scope parse_ok outpoint utxo cs (op, pk).
Proof.
  intros until sg. intros Ha n op pk Hn.
  apply qi_accept_iff_every_input_owned in Ha. destruct Ha as (_ & _ & Hf & _).
  rewrite Forall_forall in Hf. apply Hf. eapply nth_error_In. exact Hn.
Qed.
Print Assumptions qi_every_input_needs_its_owner_key.

(* one input anywhere whose entry is missing or owned by another address: refused, whatever the
   other inputs are and whether or not the signature is checked *)
Theorem qi_foreign_input_refused_anywhere : forall (hash pub addr sig : Type) H addr_of_pub addr_eqb in_qi_scope parse_ok agg verify
    chain cs f pre pk e post sg,
  (forall ea, e = Some ea -> addr_eqb (addr_of_pub pk) ea = false) ->
  qi_authorised hash pub addr sig H addr_of_pub addr_eqb in_qi_scope parse_ok agg verify chain cs f (pre ++ (pk, e) :: post) sg <> QOk.
Proof.
  intros until sg. intros Hfor Ha.
  apply qi_needs_owner_keys in Ha. destruct Ha as (_ & _ & Hf & _).
  rewrite Forall_forall in Hf.
  destruct (Hf (pk, e)) as (ea & He & Heq & _); [apply in_elt|].
  cbn [fst snd] in He, Heq. rewrite (Hfor ea He) in Heq. discriminate.
Qed.
Print Assumptions qi_foreign_input_refused_anywhere.

(* a key that legitimately spends one entry does not thereby cover another input carrying the same
   key: if that input's entry is not owned by it the spend is refused, in either order *)
Theorem qi_repeated_key_covers_only_its_own_entries : forall (hash pub addr sig : Type) H addr_of_pub addr_eqb in_qi_scope parse_ok agg verify
    (outpoint : Type) utxo chain cs f pre op0 mid op pk post sg,
  spent_by_owner pub addr addr_of_pub addr_eqb in_qi_scope parse_ok outpoint utxo cs (op0, pk) ->
  (forall ea, utxo op = Some ea -> addr_eqb (addr_of_pub pk) ea = false) ->
  qi_process hash pub addr sig H addr_of_pub addr_eqb in_qi_scope parse_ok agg verify outpoint utxo chain cs f
             (pre ++ (op0, pk) :: mid ++ (op, pk) :: post) sg <> QOk
  /\ qi_process hash pub addr sig H addr_of_pub addr_eqb in_qi_scope parse_ok agg verify outpoint utxo chain cs f
             (pre ++ (op, pk) :: mid ++ (op0, pk) :: post) sg <> QOk.
Proof.
  (* the list of looked-up inputs holds (pk, utxo op) somewhere *)
  intros until sg. intros _ Hfor. unfold qi_process, qi_lookup. split.
  - rewrite app_comm_cons, app_assoc, map_app. apply qi_foreign_input_refused_anywhere. exact Hfor.
  - rewrite map_app. apply qi_foreign_input_refused_anywhere. exact Hfor.
Qed.
Print Assumptions qi_repeated_key_covers_only_its_own_entries.

(* the per-distinct-key variant of the loop (NOT the code; Proofs/C03.v own_loop_per_key) is not
   equivalent: it accepts [key 1 on an entry of 1; key 1 on an entry of 2], the code's loop answers
   QOwner, with and without checkSig *)
Theorem qi_per_distinct_key_check_refuted :
  exists ins : list (N * option N),
    own_loop_per_key N N (fun p => p) N.eqb (fun _ => true) (fun _ => true) N.eqb true [] ins = QOk
    /\ own_loop N N (fun p => p) N.eqb (fun _ => true) (fun _ => true) true ins = QOwner
    /\ own_loop_per_key N N (fun p => p) N.eqb (fun _ => true) (fun _ => true) N.eqb false [] ins = QOk
    /\ own_loop N N (fun p => p) N.eqb (fun _ => true) (fun _ => true) false ins = QOwner.
Proof. exists [(1%N, Some 1%N); (1%N, Some 2%N)]. vm_compute. repeat split. Qed.
Print Assumptions qi_per_distinct_key_check_refuted.

Theorem qi_sig_binds_payload : forall (hash pub addr sig : Type) H addr_of_pub addr_eqb in_qi_scope parse_ok agg verify
    chain1 chain2 f1 f2 ins1 ins2 sg,
  qi_authorised hash pub addr sig H addr_of_pub addr_eqb in_qi_scope parse_ok agg verify chain1 true f1 ins1 sg = QOk ->
  qi_authorised hash pub addr sig H addr_of_pub addr_eqb in_qi_scope parse_ok agg verify chain2 true f2 ins2 sg = QOk ->
  map fst ins1 = map fst ins2 ->
  f1 = f2 \/ schnorr_reuse hash pub sig H verify.
Proof.
  intros until sg. intros H1 H2 Hk.
  apply qi_needs_owner_keys in H1. destruct H1 as (_ & _ & _ & H1). destruct (H1 eq_refl) as (k1 & Hk1 & Hv1).
  apply qi_needs_owner_keys in H2. destruct H2 as (_ & _ & _ & H2). destruct (H2 eq_refl) as (k2 & Hk2 & Hv2).
  rewrite Hk, Hk2 in Hk1. injection Hk1 as Hk1. subst k2.
  destruct (same_fields_or_other_bytes _ _ qi_signing_bytes_injective f1 f2) as [Hf|Hb]; [left; exact Hf|right].
  exists (qi_signing_bytes f1), (qi_signing_bytes f2), k1, sg. repeat split; assumption.
Qed.
Print Assumptions qi_sig_binds_payload.

(* PARTIAL: with checkSig = false (tx hash found in the pool's sender cache) the verdict does
   not depend on the signature at all; authorisation then rests on the pool having verified a
   transaction with the same tx.Hash(), which covers the signature field (obligation
   signing_covers_all_payload_fields: field 17 is encoded) *)
Theorem qi_unchecked_ignores_signature_partial : forall (hash pub addr sig : Type) H addr_of_pub addr_eqb in_qi_scope parse_ok agg verify
    chain f ins sg sg',
  qi_authorised hash pub addr sig H addr_of_pub addr_eqb in_qi_scope parse_ok agg verify chain false f ins sg
  = qi_authorised hash pub addr sig H addr_of_pub addr_eqb in_qi_scope parse_ok agg verify chain false f ins sg'.
Proof.
  intros. unfold qi_authorised.
  destruct ins; [reflexivity|]. destruct (negb (qi_chain f =? chain)%N); [reflexivity|].
  destruct (own_loop _ _ _ _ _ _ false _); reflexivity.
Qed.
Print Assumptions qi_unchecked_ignores_signature_partial.

(* ---------- the pool's senders cache and the cache-derived checkSig of block processing ---------- *)

(* the checked verdict is exactly: the unchecked verdict (chain, every input owned, against the UTXO
   set at hand) AND a part that depends on the transaction alone - every carried key parses and the
   final key of exactly the carried keys verifies the signature over this payload.  The second part is
   what checkSig = false skips and what an entry of the senders cache has to stand for. *)
Theorem qi_checked_is_unchecked_and_signature : forall (hash pub addr sig : Type) H addr_of_pub addr_eqb in_qi_scope parse_ok agg verify
    (outpoint : Type) utxo chain f oins sg,
  qi_process hash pub addr sig H addr_of_pub addr_eqb in_qi_scope parse_ok agg verify outpoint utxo chain true f oins sg = QOk <->
  (qi_process hash pub addr sig H addr_of_pub addr_eqb in_qi_scope parse_ok agg verify outpoint utxo chain false f oins sg = QOk
   /\ qi_sig_ok hash pub sig H parse_ok agg verify f (map snd oins) sg = true).
Proof. intros. unfold qi_process. rewrite authorised_split, lookup_keys. reflexivity. Qed.
Print Assumptions qi_checked_is_unchecked_and_signature.

(* for EVERY history of pool operations (adds of valid / refused / known transactions, single or in a
   batch, removals, reorg re-injections with or without a cached fee) from any state satisfying it:
   every hash in the senders cache and every hash with a cached fee belongs to a transaction whose
   signature part holds - provided pool validation implies the signature part *)
Theorem pool_cache_holds_only_verified_signatures : forall (pool_valid reinject_valid : N -> bool) proc_ok (sigok : N -> bool),
  (forall i, pool_valid i = true -> sigok i = true) ->
  (forall i, reinject_valid i = true -> sigok i = true) ->
  forall ops st, pinv sigok st -> pinv sigok (pfinal pool_valid reinject_valid proc_ok st ops).
Proof. exact pfinal_inv. Qed.
Print Assumptions pool_cache_holds_only_verified_signatures.

(* a refused add records nothing: every table is as before (no "seen" entry in the senders cache) *)
Theorem refused_add_leaves_no_trace : forall (pool_valid reinject_valid : N -> bool) proc_ok st i,
  pool_valid i = false -> pmem i (p_qp st) = false ->
  pstep pool_valid reinject_valid proc_ok st (PAdd [i]) = (st, [2%N]).
Proof.
  intros pool_valid reinject_valid proc_ok st i Hv Hq.
  cbn [pstep fold_left]. unfold padd_one. rewrite Hq, Hv. reflexivity.
Qed.
Print Assumptions refused_add_leaves_no_trace.

(* block processing with checkSig := hash not in the senders cache, after ANY pool history starting from
   the empty pool, at ANY later UTXO set: accepted => the fully checked verdict accepts (hence
   qi_accept_iff_every_input_owned applies: every input owned, signature of exactly the carried keys).
   The pool may have validated each transaction against any UTXO view of its own. *)
Theorem block_check_with_pool_cache_accepts_only_authorised : forall (hash pub addr sig outpoint : Type) H addr_of_pub addr_eqb in_qi_scope parse_ok agg verify
    chain (tf : N -> qfields) (tins : N -> list (outpoint * pub)) (tsg : N -> sig) (pool_valid reinject_valid : N -> bool) (proc0 : N -> bool -> bool),
  (forall i, pool_valid i = true ->
     exists utxo, qi_process hash pub addr sig H addr_of_pub addr_eqb in_qi_scope parse_ok agg verify outpoint utxo chain true (tf i) (tins i) (tsg i) = QOk) ->
  (forall i, reinject_valid i = true ->
     exists utxo, qi_process hash pub addr sig H addr_of_pub addr_eqb in_qi_scope parse_ok agg verify outpoint utxo chain true (tf i) (tins i) (tsg i) = QOk) ->
  forall ops utxo' i,
    qi_process hash pub addr sig H addr_of_pub addr_eqb in_qi_scope parse_ok agg verify outpoint utxo' chain
      (negb (pmem i (p_cache (pfinal pool_valid reinject_valid proc0 p_empty ops)))) (tf i) (tins i) (tsg i) = QOk ->
    qi_process hash pub addr sig H addr_of_pub addr_eqb in_qi_scope parse_ok agg verify outpoint utxo' chain true (tf i) (tins i) (tsg i) = QOk.
Proof.
  intros until proc0. intros Hpv Hrv ops utxo' i.
  apply cache_check_sound
    with (sigok := fun j => qi_sig_ok hash pub sig H parse_ok agg verify (tf j) (map snd (tins j)) (tsg j))
         (accept := fun j cs => qi_process hash pub addr sig H addr_of_pub addr_eqb in_qi_scope parse_ok agg verify outpoint
                                  utxo' chain cs (tf j) (tins j) (tsg j) = QOk).
  - intros j Hj. destruct (Hpv j Hj) as [utxo Hu]. apply qi_checked_is_unchecked_and_signature in Hu. exact (proj2 Hu).
  - intros j Hj. destruct (Hrv j Hj) as [utxo Hu]. apply qi_checked_is_unchecked_and_signature in Hu. exact (proj2 Hu).
  - intros j Hu Hs. apply qi_checked_is_unchecked_and_signature. split; assumption.
  - apply pinv_empty.
Qed.
Print Assumptions block_check_with_pool_cache_accepts_only_authorised.

(* the same on the observation the harness compares: a PProc step that reports "accepted" *)
Theorem accepted_block_step_is_authorised : forall (pool_valid reinject_valid : N -> bool) proc_ok (sigok : N -> bool),
  (forall i, pool_valid i = true -> sigok i = true) ->
  (forall i, reinject_valid i = true -> sigok i = true) ->
  (forall i, proc_ok i false = true -> sigok i = true -> proc_ok i true = true) ->
  forall ops i c,
    snd (pstep pool_valid reinject_valid proc_ok (pfinal pool_valid reinject_valid proc_ok p_empty ops) (PProc [i])) = [c; 1%N] -> proc_ok i true = true.
Proof.
  intros pool_valid reinject_valid proc_ok sigok Hpv Hrv Hsplit ops i c Hs.
  cbn [pstep snd flat_map app] in Hs. injection Hs as _ Ha.
  apply (cache_check_sound pool_valid reinject_valid proc_ok sigok Hpv Hrv (fun j cs => proc_ok j cs = true) Hsplit p_empty ops i (pinv_empty sigok)).
  destruct (proc_ok i (negb (pmem i (p_cache (pfinal pool_valid reinject_valid proc_ok p_empty ops))))); [reflexivity|discriminate Ha].
Qed.
Print Assumptions accepted_block_step_is_authorised.

(* the "negative cache" variant of addQiTxs (NOT the code; Proofs/C03_Pool.v padd_one_neg: the hash of a
   refused transaction is remembered in the senders cache) breaks it.  Universe: transaction 0 passes
   every UTXO check but its signature is invalid; it is refused by a block when never seen, refused by
   the pool, and then accepted by a block *)
Theorem negative_sender_cache_refuted :
  let pool_valid := fun _ : N => false in
  let proc_ok := fun (_ : N) (cs : bool) => negb cs in
  let st1 := fst (pstep_neg pool_valid proc_ok p_empty (PAdd [0%N])) in
  proc_ok 0%N true = false
  /\ snd (pstep pool_valid pool_valid proc_ok p_empty (PProc [0%N])) = [0%N; 0%N]
  /\ snd (pstep_neg pool_valid proc_ok p_empty (PAdd [0%N])) = [2%N]
  /\ snd (pstep_neg pool_valid proc_ok st1 (PProc [0%N])) = [1%N; 1%N]
  /\ snd (pstep pool_valid pool_valid proc_ok (fst (pstep pool_valid pool_valid proc_ok p_empty (PAdd [0%N]))) (PProc [0%N])) = [0%N; 0%N].
Proof. vm_compute. repeat split. Qed.
Print Assumptions negative_sender_cache_refuted.

(* ---------- non-vacuity ---------- *)

Example sig_values_nonvacuous :
  validate_sig_values 1 1 secp_half_n = true /\ validate_sig_values 0 (secp_n - 1) 1 = true
  /\ validate_sig_values 0 1 (secp_half_n + 1) = false /\ validate_sig_values 2 1 1 = false.
Proof. vm_compute. repeat split. Qed.

Local Open Scope N_scope.

Definition ex_f : sfields := mkS 9000 3 (2 * 10 ^ 9) 21000 (Some [0; 1; 2]) (10 ^ 18) [222; 173] [([0; 9], [[7]; [8]])].
Definition ex_t : qtx := mkQ ex_f 1%Z 5%Z 7%Z None (Some [1]) (Some 4).

Example sender_nonvacuous :
  x_sender (Some [10; 11]) 9000 ex_t = ROk [10; 11]
  /\ x_sender (Some [10; 11]) 1 ex_t = RErrChain
  /\ x_crun (Some [10; 11]) ex_t (None, false) [OHash; OSender 1 0; OSender 9000 1; OSender 1 0; OHash]
     = [CNone; CRes RErrChain; CRes (ROk [10; 11]); CRes RErrChain; CNone].
Proof. vm_compute. repeat split. Qed.

Example signing_bytes_nonvacuous : signing_bytes ex_f <> signing_bytes (mkS 9001 3 (2 * 10 ^ 9) 21000 (Some [0; 1; 2]) (10 ^ 18) [222; 173] [([0; 9], [[7]; [8]])]).
Proof. intros He. apply signing_bytes_injective in He. discriminate He. Qed.

Example qi_nonvacuous :
  let f := mkQi 9000 [([1; 2], 0, [2; 5])] [(3, Some [0; 200], 0)] [] in
  x_qi 9000 true f [(([0; 200; 1], true, true), Some ([0; 200; 1], true))] true true = QOk
  /\ x_qi 9000 true f [(([0; 200; 2], true, true), Some ([0; 200; 1], true))] true true = QOwner
  /\ x_qi 9000 true f [(([0; 200; 1], true, true), Some ([0; 200; 1], true))] true false = QSig
  /\ x_qi 1 true f [(([0; 200; 1], true, true), Some ([0; 200; 1], true))] true true = QChain.
Proof. vm_compute. repeat split. Qed.

(* repeated key: accepted on two entries it owns; refused (checked and unchecked) as soon as one
   occurrence - second or first - consumes an entry of another owner *)
Example qi_repeated_key_nonvacuous :
  let f := mkQi 9000 [] [] [] in
  let a := ([0; 200; 1], true, true) in
  x_qi 9000 true f [(a, Some ([0; 200; 1], true)); (a, Some ([0; 200; 1], true))] true true = QOk
  /\ x_qi 9000 true f [(a, Some ([0; 200; 1], true)); (a, Some ([0; 200; 2], true))] true true = QOwner
  /\ x_qi 9000 false f [(a, Some ([0; 200; 1], true)); (a, Some ([0; 200; 2], true))] true true = QOwner
  /\ x_qi 9000 true f [(a, Some ([0; 200; 2], true)); (a, Some ([0; 200; 1], true))] true true = QOwner.
Proof. vm_compute. repeat split. Qed.

(* pool histories over a universe {0: owner-signed, 1: owner's key + foreign signature}: the forged one
   is never cached and never accepted by a block, before or after the pool refused it / a reorg handed
   it back; the valid one is cached after its add and then accepted unchecked *)
Example qi_pool_nonvacuous :
  let f := mkQi 9000 [] [] [] in
  let a := ([0; 200; 1], true, true, Some [0; 200; 1]) in
  let txs := [(f, [a], true, true, true, true); (f, [a], true, false, true, true)] in
  map fst (prun (fun i => x_pool_active txs i && x_pool_ok 9000 txs true i) (x_pool_ok 9000 txs true) (fun i cs => x_pool_ok 9000 txs cs i) p_empty
         [PProc [1]; PAdd [1]; PProc [1]; PReorg [1]; PProc [1]; PAdd [0; 1]; PProc [0]; PAdd [0]; PReorg [0; 1]; PProc [0]; PProc [1]])
  = [[0; 0]; [2]; [0; 0]; []; [0; 0]; [0; 2]; [1; 1]; [1]; []; [1; 1]; [0; 0]].
Proof. vm_compute. reflexivity. Qed.
