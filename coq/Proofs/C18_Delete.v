(* C18 -- trie.go:delete : no panic, canonical form preserved (node collapse), the key is gone,
   other keys untouched, "not dirty" means unchanged. *)
From Coq Require Import List NArith Arith Lia.
From GQ Require Import Lib.Key Lib.Lists Model.C18 Proofs.C18_Base Proofs.C18_Insert.
Import ListNotations.

Lemma scan_one cs i j0 :
  scan cs i (SOne j0) = if Nat.eqb (count_nonnil cs) 0 then SOne j0 else SMany.
Proof.
  revert i. induction cs as [|x r IH]; intros i; [reflexivity|].
  destruct x; cbn [scan count_nonnil is_nil]; try reflexivity. apply IH.
Qed.

Lemma scan_cons x r i :
  scan (x :: r) i SNone =
  if is_nil x then scan r (S i) SNone else if Nat.eqb (count_nonnil r) 0 then SOne i else SMany.
Proof. destruct x; cbn [scan is_nil]; try apply scan_one; reflexivity. Qed.

Lemma scan_spec cs i :
  match scan cs i SNone with
  | SNone => count_nonnil cs = 0
  | SOne j => count_nonnil cs = 1 /\ i <= j /\
              exists z, nth_error cs (j - i) = Some z /\ is_nil z = false
  | SMany => 2 <= count_nonnil cs
  end.
Proof.
  revert i. induction cs as [|x r IH]; intros i; [reflexivity|].
  rewrite scan_cons. cbn [count_nonnil]. destruct (is_nil x) eqn:Hx.
  - specialize (IH (S i)). destruct (scan r (S i) SNone) as [|j|]; auto.
    destruct IH as (Hc & Hle & z & Hz & Hzn). split; [lia|]. split; [lia|].
    exists z. replace (j - i) with (S (j - S i)) by lia. auto.
  - destruct (Nat.eqb_spec (count_nonnil r) 0) as [E|E]; [|lia].
    split; [lia|]. split; [lia|]. exists x. rewrite Nat.sub_diag. auto.
Qed.

Lemma count_one_others cs j z :
  count_nonnil cs = 1 -> nth_error cs j = Some z -> is_nil z = false ->
  forall i w, i <> j -> nth_error cs i = Some w -> w = Nil.
Proof.
  intros Hc Hz Hzn i w Hij Hw.
  pose proof (count_set_nth cs j Nil z Hz) as Hs. rewrite Hzn in Hs. cbn [is_nil] in Hs.
  apply (count_zero_all_nil (set_nth cs j Nil) ltac:(lia) i w).
  rewrite nth_error_set_nth_neq; auto.
Qed.

Lemma single_child_lookup cs pos z :
  count_nonnil cs = 1 -> nth_error cs pos = Some z -> is_nil z = false ->
  forall q, lookup (Full cs) q = lookup (Short [N.of_nat pos] z) q.
Proof.
  intros Hc Hz Hzn q. destruct q as [|s r]; [reflexivity|].
  rewrite lookup_full, lookup_short. cbn [strip].
  destruct (N.eqb_spec (N.of_nat pos) s) as [<-|Hn].
  - rewrite Nat2N.id, Hz. reflexivity.
  - destruct (nth_error cs (N.to_nat s)) as [w|] eqn:Hw; auto.
    rewrite (count_one_others cs pos z Hc Hz Hzn (N.to_nat s) w); auto.
    intros E. apply Hn. rewrite <- E, N2Nat.id. reflexivity.
Qed.

(* trie.go:delete puts a short node over what is left below it; two short nodes in a row are merged
   (concat) *)
Definition short_over (p : hkey) (c : node) : node :=
  match c with Short k2 c2 => Short (p ++ k2) c2 | _ => Short p c end.

Lemma lookup_short_over p c q : lookup (short_over p c) q = lookup (Short p c) q.
Proof.
  destruct c; try reflexivity. cbn [short_over]. rewrite !lookup_short, strip_app_l.
  destruct (strip p q); reflexivity.
Qed.

Lemma wfn_short_over p c : p <> [] -> wfn c = true -> wfn (short_over p c) = true.
Proof.
  intros Hp Hw. destruct c as [|v|k2 c2|cs]; cbn [short_over]; apply wfn_short; auto.
  apply wfn_short in Hw as (Hk2 & Hs2 & Hc2). split; [|split]; auto.
  destruct p; [congruence|discriminate].
Qed.

(* with the terminator discipline, what hangs in slot 16 only holds the empty key *)
Lemma slot16_not_short cs z :
  okdom (Full cs) -> nth_error cs 16 = Some z -> wfn z = true -> is_short z = false.
Proof.
  intros Ho Hz Hw. destruct z as [|v|k2 c2|cs2]; auto. exfalso.
  apply wfn_short in Hw as (Hk2 & _ & Hc2).
  destruct (wfn_nonempty _ Hc2) as (q & v & Hq).
  assert (Ht : tk (16%N :: k2 ++ q)).
  { apply Ho. rewrite lookup_full. change (N.to_nat 16) with 16. rewrite Hz, lookup_short_app. congruence. }
  cbn [tk] in Ht. destruct (k2 ++ q) eqn:E.
  - destruct k2; [congruence|discriminate].
  - destruct Ht as [Ht _]. lia.
Qed.

(* what trie.go:delete leaves of a full node one of whose children vanished *)
Definition shrink_full (cs : list node) : node :=
  match scan cs 0 SNone with
  | SOne pos =>
      if negb (Nat.eqb pos 16) then short_over [N.of_nat pos] (nth pos cs Nil)
      else Short [N.of_nat pos] (nth pos cs Nil)
  | _ => Full cs
  end.

Lemma shrink_full_correct cs :
  length cs = 17 -> 1 <= count_nonnil cs ->
  (forall i z, nth_error cs i = Some z -> wf z = true) -> okdom (Full cs) ->
  wfn (shrink_full cs) = true /\ forall q, lookup (shrink_full cs) q = lookup (Full cs) q.
Proof.
  intros Hlen Hcnt Hch Ho. unfold shrink_full. pose proof (scan_spec cs 0) as Hscan.
  destruct (scan cs 0 SNone) as [|pos|].
  - lia.
  - destruct Hscan as (Hone & _ & z & Hz & Hzn). rewrite Nat.sub_0_r in Hz.
    rewrite (nth_error_nth _ _ Nil Hz).
    assert (Hwz : wfn z = true) by (destruct (wf_cases _ (Hch _ _ Hz)) as [->|]; [discriminate|auto]).
    replace (if negb (Nat.eqb pos 16) then short_over [N.of_nat pos] z else Short [N.of_nat pos] z)
      with (short_over [N.of_nat pos] z).
    + split; [apply wfn_short_over; [discriminate|exact Hwz]|].
      intros q. rewrite lookup_short_over. symmetry. apply single_child_lookup; auto.
    + destruct (Nat.eqb_spec pos 16) as [->|]; [|reflexivity].
      pose proof (slot16_not_short cs z Ho Hz Hwz). destruct z; try reflexivity; discriminate.
  - split; [apply wfn_full; auto|reflexivity].
Qed.

Lemma delete_Short_mismatch p ra y rb child :
  match ra with x :: _ => x <> y | [] => True end ->
  delete (Short (p ++ y :: rb) child) (p ++ ra) = Some (false, Short (p ++ y :: rb) child).
Proof.
  intros Hd. cbn [delete].
  rewrite (prefix_len_app p ra (y :: rb)) by (destruct ra; auto).
  replace (Nat.ltb (length p) (length (p ++ y :: rb))) with true; auto.
  symmetry. apply Nat.ltb_lt. rewrite app_length. cbn. lia.
Qed.

Lemma delete_Short_match k child ra :
  delete (Short k child) (k ++ ra) =
  match ra with
  | [] => Some (true, Nil)
  | _ :: _ =>
      match delete child ra with
      | None => None
      | Some (false, _) => Some (false, Short k child)
      | Some (true, c') => Some (true, short_over k c')
      end
  end.
Proof.
  cbn [delete]. rewrite prefix_len_self_app, Nat.ltb_irrefl, skipn_app_length. destruct ra as [|s ra].
  - rewrite app_nil_r, Nat.eqb_refl. reflexivity.
  - replace (Nat.eqb (length k) (length (k ++ s :: ra))) with false
      by (symmetry; apply Nat.eqb_neq; rewrite app_length; cbn; lia).
    destruct (delete child (s :: ra)) as [[[] []]|]; reflexivity.
Qed.

Lemma delete_Full cs c rest :
  delete (Full cs) (c :: rest) =
  match nth_error cs (N.to_nat c) with
  | None => None
  | Some x =>
    match delete x rest with
    | None => None
    | Some (false, _) => Some (false, Full cs)
    | Some (true, nn) =>
        let cs' := set_nth cs (N.to_nat c) nn in
        Some (true, if is_nil nn then shrink_full cs' else Full cs')
    end
  end.
Proof.
  cbn [delete]. rewrite child_app_spec. destruct (nth_error cs (N.to_nat c)); [|reflexivity].
  destruct (delete n rest) as [[[] nn]|]; try reflexivity.
  destruct nn; try reflexivity. unfold shrink_full. cbn [is_nil].
  destruct (scan _ 0 SNone); try reflexivity.
  destruct (negb _); [|reflexivity]. destruct (nth _ _ Nil); reflexivity.
Qed.

(* every [false] of trie.go:delete is [return false, n] *)
Lemma delete_clean t key t' : delete t key = Some (false, t') -> t' = t.
Proof.
  destruct t as [|v|k c|cs]; cbn [delete].
  - congruence.
  - discriminate.
  - destruct (Nat.ltb _ _); [congruence|]. destruct (Nat.eqb _ _); [discriminate|].
    destruct (delete c _) as [[[] []]|]; congruence.
  - destruct key as [|c rest]; [discriminate|].
    destruct (child_app _ _ _ _) as [[[] nn]|]; [|congruence|discriminate].
    destruct nn; try discriminate. destruct (scan _ _ _); try discriminate.
    destruct (negb _); [destruct (nth _ _ _)|]; discriminate.
Qed.

Lemma sets_absent t key : lookup t key = None -> sets t key None t.
Proof. intros H q. destruct (keqb q key) eqn:E; auto. apply keqb_eq in E. subst q. exact H. Qed.

Lemma sets_clear t : pf t [] -> sets t [] None Nil.
Proof.
  intros Hp [|a q]; [reflexivity|]. rewrite keqb_cons_nil. symmetry. apply (pf_nil_key t _ Hp). discriminate.
Qed.

Lemma delete_correct : forall t key,
  fits t key -> okdom t ->
  exists d t', delete t key = Some (d, t') /\ wf t' = true /\ sets t key None t'.
Proof.
  intros t.
  induction t as [|v0|k child IH|cs IH] using node_ind'; intros key Hf Ho.
  - exists false, Nil.
    split; [reflexivity|]. split; [reflexivity|apply sets_absent; reflexivity].
  - (* only the empty key fits *)
    rewrite (fits_val _ _ Hf). exists true, Nil.
    split; [reflexivity|]. split; [reflexivity|intros q; destruct q; reflexivity].
  - pose proof Hf as (Hw & Hp & _). pose proof Hw as (Hkne & Hs & Hc)%wfn_short.
    destruct (common_prefix key k) as (p & ra & rb & -> & -> & Hd).
    destruct rb as [|y rb].
    + rewrite app_nil_r in *. rewrite delete_Short_match. destruct ra as [|s ra].
      * (* whole match: the child holds the empty key only, and the short node disappears with it *)
        exists true, Nil. split; [reflexivity|]. split; [reflexivity|].
        apply (sets_equiv _ _ _ (Short p Nil)); [|exact (sets_short p _ _ _ _ (sets_clear child (pf_short _ _ _ Hp)))].
        intros q. rewrite lookup_short. destruct (strip p q); reflexivity.
      * (* the key continues below the short node, whose child then is a full node *)
        pose proof (fits_short _ _ _ Hf) as Hfc.
        destruct child as [|v1|k1 c1|ccs]; try discriminate; [discriminate (fits_val _ _ Hfc)|].
        destruct (IH (s :: ra) Hfc (okdom_short _ _ Ho)) as (d & c' & Hdel & Hwc & Hl).
        rewrite Hdel. destruct d.
        -- exists true, (short_over p c'). split; [reflexivity|]. split.
           ++ apply wfn_wf, wfn_short_over; [exact Hkne|]. apply wf_cases in Hwc as [->|Hwc]; [exfalso|exact Hwc].
              (* a full node keeps a key that does not start with s *)
              destruct (wfn_full_other ccs s Hc) as (s' & q & v & Hn & Hq).
              specialize (Hl (s' :: q)). rewrite Hq, keqb_cons in Hl.
              destruct (N.eqb_spec s' s); [congruence|discriminate].
           ++ exact (sets_equiv _ _ _ _ _ (lookup_short_over p c') (sets_short p _ _ _ _ Hl)).
        -- rewrite (delete_clean _ _ _ Hdel) in Hl. exists false, (Short p (Full ccs)).
           split; [reflexivity|]. split; [exact Hw|exact (sets_short p _ _ _ _ Hl)].
    + exists false, (Short (p ++ y :: rb) child). rewrite delete_Short_mismatch by exact Hd.
      split; [reflexivity|]. split; [exact Hw|].
      apply sets_absent. rewrite lookup_short, strip_app_l, strip_app.
      destruct ra as [|x ra]; [reflexivity|]. cbn [strip]. destruct (N.eqb_spec y x); [congruence|reflexivity].
  - destruct (fits_full _ _ Hf) as (c & rest & x & -> & Hx & Hfx).
    destruct (IH _ x Hx rest Hfx (okdom_full _ _ _ Hx Ho)) as (d & nn & Hdel & Hwn & Hlk).
    destruct Hf as (Hw & _). pose proof Hw as (Hl & Hcnt & Hch)%wfn_full.
    rewrite delete_Full, Hx, Hdel. cbn zeta. apply (sets_full cs c rest x) in Hlk; [|exact Hx].
    destruct d.
    2:{ rewrite (delete_clean _ _ _ Hdel), (set_nth_same _ _ _ Hx) in Hlk. exists false, (Full cs).
        split; [reflexivity|]. split; [exact Hw|exact Hlk]. }
    eexists true, _. split; [reflexivity|].
    apply wf_cases in Hwn as [->|Hwn]; [|rewrite (wfn_not_nil _ Hwn)].
    + destruct (shrink_full_correct (set_nth cs (N.to_nat c) Nil)) as [Hws Hls].
      * rewrite set_nth_length. exact Hl.
      * pose proof (count_set_nth cs _ Nil x Hx) as Hcs. cbn [is_nil] in Hcs. destruct (is_nil x); lia.
      * apply set_nth_all; [exact Hch|reflexivity].
      * intros q Hq. apply Ho. rewrite Hlk in Hq. destruct (keqb q (c :: rest)); congruence.
      * cbn [is_nil]. split; [apply wfn_wf, Hws|exact (sets_equiv _ _ _ _ _ Hls Hlk)].
    + split; [exact (wfn_full_set _ _ _ _ Hw Hx Hwn)|exact Hlk].
Qed.
