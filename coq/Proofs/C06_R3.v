(* C06 — (a) head switch: one iteration of the rollback loop of SetCurrentHeader restores the parent's UTXO set, also
       for outputs created and spent inside the rolled-back block;
   (b) the block batch shared by the TrimBlock goroutines: under the trim lock every Delete is recorded, whatever
       the order in which the goroutines get the lock. *)
From Coq Require Import List NArith Bool Lia.
From GQ Require Import Lib.Lists Model.C06 Proofs.C06_Db.
Import ListNotations.

Lemma puts_ok : forall l d, db_ok d -> db_ok (puts l d).
Proof. intros l. apply fold_left_inv. intros d kv _. apply put_ok. Qed.

Lemma puts_app : forall l1 l2 d, puts (l1 ++ l2) d = puts l2 (puts l1 d).
Proof. intros l1 l2 d. apply fold_left_app. Qed.

Fixpoint last_bind (l : list (key * elem)) (k : key) : option elem :=
  match l with
  | [] => None
  | (k', e) :: t => match last_bind t k with Some e' => Some e' | None => if N.eqb k k' then Some e else None end
  end.

Lemma get_puts : forall l d k, db_ok d ->
  db_get (puts l d) k = match last_bind l k with Some e => Some e | None => db_get d k end.
Proof.
  induction l as [|[k' e] t IH]; intros d k Hok; [reflexivity|].
  change (puts ((k', e) :: t) d) with (puts t (db_put k' e d)). cbn [last_bind].
  rewrite IH by (apply put_ok, Hok). destruct (last_bind t k); [reflexivity|].
  rewrite get_put by exact Hok. destruct (N.eqb k k'); reflexivity.
Qed.

Lemma last_bind_spec : forall l k,
  match last_bind l k with Some e => In (k, e) l | None => ~ In k (map fst l) end.
Proof.
  induction l as [|[k' e] t IH]; intros k; cbn [last_bind map fst In]; [tauto|].
  specialize (IH k). destruct (last_bind t k) as [e'|]; [right; exact IH|].
  destruct (N.eqb_spec k k') as [->|Hne]; [left; reflexivity|].
  intros [H|H]; [apply Hne; symmetry; exact H|exact (IH H)].
Qed.

Lemma last_bind_none : forall l k, ~ In k (map fst l) -> last_bind l k = None.
Proof.
  intros l k Hn. pose proof (last_bind_spec l k) as B. destruct (last_bind l k) as [e|]; [|reflexivity].
  exfalso. apply Hn, (in_map fst _ _ B).
Qed.

(* the keys of the outputs a block creates are new: not in the parent's set (transaction hashes are fresh).
   Not [creates_fresh], which asks for absence from the batch view at the moment of the Create: [Spend 1; Create 1 e]
   over a parent holding key 1 is fresh and not new, [Create 1 e; Create 1 e'] over the empty set is new and not fresh. *)
Definition creates_new (d0 : db) (ops : list op) : Prop :=
  forall k e, In (Create k e) ops -> db_get d0 k = None.

Lemma creates_new_Forall : forall d0 ops,
  Forall (fun o => match o with Create k _ => db_get d0 k = None | _ => True end) ops -> creates_new d0 ops.
Proof. intros d0 ops F k e Hi. rewrite Forall_forall in F. exact (F _ Hi). Qed.

(* the CreatedUTXOKeys record: read off the operations alone *)
Definition created_keys (ops : list op) : list key :=
  flat_map (fun o => match o with Create k _ => [k] | _ => [] end) ops.

Lemma undo_created : forall ops d, snd (undo_records d ops) = created_keys ops.
Proof.
  induction ops as [|o t IH]; intros d; cbn [undo_records created_keys flat_map]; [reflexivity|].
  fold (created_keys t). destruct (eff d o) as [[d1 c1] x1]. rewrite <- (IH d1). destruct (undo_records d1 t) as [sp cr].
  destruct o as [k e|k e|k]; [reflexivity|reflexivity|destruct (db_get d k); reflexivity].
Qed.

Lemma in_created_keys : forall ops k, In k (created_keys ops) -> exists e, In (Create k e) ops.
Proof.
  intros ops k Hi. apply in_flat_map in Hi. destruct Hi as [[k0 e|k0 e|k0] [Ho Hk]]; [|destruct Hk..].
  destruct Hk as [<-|[]]. exists e. exact Ho.
Qed.

(* The left side is the lookup after the SpentUTXOs records are written back over the database the loop leaves
   ([get_puts]).  The first Spend that finds the key live records the value it had when the loop started; later ones
   find it gone, so no later record of the key exists. *)
Lemma spent_records_restore : forall ops d k, db_ok d -> forallb is_ut ops = true ->
  ~ In k (created_keys ops) ->
  match last_bind (fst (undo_records d ops)) k with Some e => Some e | None => db_get (fst (fst (run_ops d ops))) k end
  = db_get d k.
Proof.
  induction ops as [|o t IH]; intros d k Hok Hut Hn; cbn [run_ops undo_records forallb] in *; [reflexivity|].
  apply andb_true_iff in Hut. destruct Hut as [Ho Hut].
  pose proof (eff_db d o) as Ed. destruct (eff d o) as [[d1 c1] x1]. cbn [fst] in Ed. subst d1.
  specialize (IH (op_db d o) k (op_db_ok d o Hok) Hut). rewrite get_op_db in IH by exact Hok.
  destruct (run_ops (op_db d o) t) as [[d2 c2] x2]. destruct (undo_records (op_db d o) t) as [sp cr]. cbn [fst snd] in *.
  destruct o as [k0 e0|k0 e0|k0]; [|discriminate Ho|]; cbn [created_keys flat_map app] in Hn.
  - cbn [fst]. rewrite IH by (intros H; apply Hn; right; exact H).
    destruct (N.eqb_spec k k0) as [->|]; [exfalso; apply Hn; left; reflexivity|reflexivity].
  - specialize (IH Hn). destruct (db_get d k0) as [old|] eqn:G0; cbn [fst last_bind]; [|rewrite IH].
    + destruct (N.eqb_spec k k0) as [->|]; [|destruct (last_bind sp k); exact IH].
      (* this Spend records k0; a later record of k0 would be restored over it, while by IH None is restored at k0 *)
      destruct (last_bind sp k0); [discriminate IH|]. symmetry. exact G0.
    + destruct (N.eqb_spec k k0) as [->|]; [symmetry; exact G0|reflexivity].
Qed.

(* SetCurrentHeader's rollback iteration, order as in the source.
   [tr] = the block's TrimmedUTXOs record: entries of the parent's set (what TrimBlock read from the database). *)
Lemma rollback_restores : forall d ops tr, db_ok d -> forallb is_ut ops = true -> creates_new d ops ->
  (forall kv, In kv tr -> db_get d (fst kv) = Some (snd kv)) ->
  undo RestoreThenDelete (fst (undo_records d ops) ++ tr) (snd (undo_records d ops))
       (dels tr (fst (fst (run_ops d ops)))) = d.
Proof.
  intros d ops tr Hok Hut Hnew Htr. pose proof (run_ops_ok ops d Hok) as Hok1. cbn [undo].
  apply db_ext; [apply delks_ok, puts_ok, dels_ok, Hok1|exact Hok|].
  (* key by key: a created key was not in the parent and is deleted last; a trimmed key is restored from its record,
     which carries the parent's value; for any other key the spent records restore the parent's value *)
  intros k. rewrite undo_created, get_delks by (apply puts_ok, dels_ok, Hok1).
  destruct (memN k (created_keys ops)) eqn:M.
  - apply memN_In in M. destruct (in_created_keys ops k M) as [e He]. symmetry. eapply Hnew, He.
  - rewrite puts_app, get_puts by (apply puts_ok, dels_ok, Hok1).
    pose proof (last_bind_spec tr k) as B. destruct (last_bind tr k) as [e|].
    + symmetry. apply (Htr (k, e) B).
    + rewrite get_puts, dels_delks, get_delks by (try apply dels_ok; exact Hok1).
      destruct (memN k (map fst tr)) eqn:Mt; [apply memN_In in Mt; contradiction|].
      apply (spent_records_restore ops d k Hok Hut). intros H. apply memN_In in H. congruence.
Qed.

Lemma set_nth_end : forall l k, set_nth (length l) k l = l ++ [k].
Proof.
  intros l k. unfold set_nth. rewrite firstn_all. rewrite skipn_all2 by lia. reflexivity.
Qed.

Lemma locked_sched_cons : forall g k t, locked_sched ((g, k) :: t) = ERead g :: EWrite g k :: locked_sched t.
Proof. reflexivity. Qed.

(* each locked Delete reads the published length and writes at the end *)
Lemma locked_written_from : forall ks log regs,
  written (run_sched (mkBuf log (length log)) regs (locked_sched ks)) = log ++ map snd ks.
Proof.
  induction ks as [|[g k] t IH]; intros log regs.
  - cbn [locked_sched flat_map run_sched map]. unfold written. cbn [rb_n rb_log].
    rewrite firstn_all, app_nil_r. reflexivity.
  - rewrite locked_sched_cons. cbn [run_sched rb_n rb_log reg].
    rewrite N.eqb_refl, set_nth_end, <- (last_length log k).
    rewrite IH, <- app_assoc. reflexivity.
Qed.

Lemma locked_written : forall ks, written (run_sched empty_buf [] (locked_sched ks)) = map snd ks.
Proof. intros ks. exact (locked_written_from ks [] []). Qed.

Lemma locked_sched_wf : forall ks, sched_wf [] (locked_sched ks) = true.
Proof.
  induction ks as [|[g k] t IH]; [reflexivity|].
  rewrite locked_sched_cons. cbn [sched_wf memN existsb negb andb filter].
  rewrite N.eqb_refl. cbn [orb negb andb]. exact IH.
Qed.
