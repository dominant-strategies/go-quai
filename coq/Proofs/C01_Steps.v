(* C01 -- the output loop and the fee part of ProcessQiTx / processQiTx, accepting path by accepting path.
   Each case lemma reads one walk through the checks twice: for the run at hand and for a second run in either
   order of checks (worker.go: SubGas before the eligibility test) from a larger gas pool.  Only the last two checks
   of out_emit and the last of post_inputs look at the order or the pool, and a larger pool passes them, so the
   second run accepts what the first does, with the same result up to the pool.  The processor's pool is the larger
   one: a transaction the worker rejects keeps the gas it had taken. *)
From Coq Require Import List NArith Bool Lia.
From GQ Require Import Lib.Key Lib.Lists Generated.C01Params Model.C01 Proofs.C01_Worker.
Import ListNotations.
Local Open Scope N_scope.

Lemma amem_In a l : amem a l = true <-> In a l.
Proof. exact (existsb_eqb_In keqb keqb_eq a l). Qed.

Definition is_conv_out (c : ctx) (t : tx) (o : txout) : bool :=
  is_local c (o_addr o) && is_quai (o_addr o) && (len (t_data t) =? max_qi_tx_data_length).
Definition is_wrap_out (c : ctx) (t : tx) (o : txout) : bool :=
  negb (is_conv_out c t o) && (is_local c (o_addr o) && is_quai (o_addr o) && (len (t_data t) =? address_length)).
(* on neither aggregating branch of out_step: the outputs whose denominations CheckDenominations counts *)
Definition counts (c : ctx) (t : tx) (o : txout) : bool := negb (is_conv_out c t o) && negb (is_wrap_out c t o).
Definition prefork (c : ctx) : bool := negb (qi_wrapping_change_block <=? c_ptn c).

Definition rgas_after (c : ctx) (a : oacc) (o : txout) : N :=
  if a_region (o_addr o) =? c_region c then oa_rgas a + tx_gas else oa_rgas a.
Definition pgas_after (c : ctx) (a : oacc) (o : txout) : N :=
  if a_region (o_addr o) =? c_region c then oa_pgas a else oa_pgas a + tx_gas.
Definition new_utxo (t : tx) (a : oacc) (o : txout) : key * utxo :=
  (outkey (t_hash t) (oa_idx a), mkU (o_den o) (o_addr o) 0).

Definition etx_acc (c : ctx) (a : oacc) (o : txout) : oacc :=
  mkOA (oa_idx a + 1) (oa_addrs a) (oa_total a) (oa_conv a) (oa_isconv a) (oa_iswrap a) (oa_caddr a) (oa_dens a)
       (oa_etxs a ++ [mkEtx etx_default_type (o_addr o) (o_den o) (oa_idx a) tx_gas]) (oa_creates a)
       (oa_gp a - etx_gas) (oa_used a + etx_gas) (rgas_after c a o) (pgas_after c a o).
Definition create_acc (t : tx) (a : oacc) (o : txout) : oacc :=
  mkOA (oa_idx a + 1) (oa_addrs a) (oa_total a) (oa_conv a) (oa_isconv a) (oa_iswrap a) (oa_caddr a) (oa_dens a)
       (oa_etxs a) (oa_creates a ++ [new_utxo t a o]) (oa_gp a) (oa_used a) (oa_rgas a) (oa_pgas a).
Definition etx_ok (c : ctx) (rl pl : N) (a : oacc) (o : txout) : Prop :=
  rgas_after c a o <= rl /\ pgas_after c a o <= pl /\ is_qi (o_addr o) = true
  /\ eligible c (o_addr o) = true /\ etx_gas <= oa_gp a.

Lemma out_emit_local w c rl pl t a o : is_local c (o_addr o) = true ->
  out_emit w c rl pl t a o = Ok (create_acc t a o).
Proof. intros E. unfold out_emit. rewrite E. reflexivity. Qed.

Lemma out_emit_etx w c rl pl t a o : is_local c (o_addr o) = false ->
  match out_emit w c rl pl t a o with
  | Err _ g => g <= oa_gp a
  | Ok a' => etx_ok c rl pl a o /\ a' = etx_acc c a o
  end.
Proof.
  intros E. unfold out_emit, etx_ok. rewrite E. cbn [negb]. fold (rgas_after c a o) (pgas_after c a o).
  destruct (rl <? rgas_after c a o) eqn:Er; [apply N.le_refl|]. apply N.ltb_ge in Er.
  destruct (pl <? pgas_after c a o) eqn:Ep; [apply N.le_refl|]. apply N.ltb_ge in Ep.
  destruct (is_qi (o_addr o)); cbn [negb]; [|apply N.le_refl].
  destruct w.
  - destruct (oa_gp a <? etx_gas) eqn:Eg; [apply N.le_refl|]. apply N.ltb_ge in Eg.
    destruct (eligible c (o_addr o)); cbn [negb]; [|apply N.le_sub_l].
    repeat split; assumption.
  - destruct (eligible c (o_addr o)); cbn [negb]; [|apply N.le_refl].
    destruct (oa_gp a <? etx_gas) eqn:Eg; [apply N.le_refl|]. apply N.ltb_ge in Eg.
    repeat split; assumption.
Qed.

Lemma out_emit_etx_ok w c rl pl t a o : is_local c (o_addr o) = false -> etx_ok c rl pl a o ->
  out_emit w c rl pl t a o = Ok (etx_acc c a o).
Proof.
  intros E (Hr & Hp & Hq & He & Hg). apply N.ltb_ge in Hr, Hp, Hg.
  unfold out_emit. rewrite E. cbn [negb]. fold (rgas_after c a o) (pgas_after c a o).
  rewrite Hr, Hp, Hq, He, Hg. destruct w; reflexivity.
Qed.

Definition accepts_too {A} (set : A -> N -> A) (gp : A -> N) (r : result A) (a' : A) : Prop :=
  exists g', r = Ok (set a' g') /\ gp a' <= g'.

Lemma out_emit_etx_too w' c rl pl t a o g : is_local c (o_addr o) = false -> etx_ok c rl pl a o -> oa_gp a <= g ->
  accepts_too set_gp oa_gp (out_emit w' c rl pl t (set_gp a g) o) (etx_acc c a o).
Proof.
  intros El (Hr & Hp & Hq & He & Hgas) Hg. exists (g - etx_gas). split; [|cbn [etx_acc oa_gp]; lia].
  apply (out_emit_etx_ok w' c rl pl t (set_gp a g) o El). repeat split; try assumption. cbn [set_gp oa_gp]. lia.
Qed.

(* a1 of out_step; its next (agg _ _), with the record out_emit adds before the fork *)
Definition count_acc (a : oacc) (o : txout) : oacc :=
  mkOA (oa_idx a) (o_addr o :: oa_addrs a) (oa_total a + den_value (o_den o)) (oa_conv a) (oa_isconv a) (oa_iswrap a)
       (oa_caddr a) (o_den o :: oa_dens a) (oa_etxs a) (oa_creates a) (oa_gp a) (oa_used a) (oa_rgas a) (oa_pgas a).
Definition agg_acc (a : oacc) (o : txout) (isconv iswrap : bool) (creates : list (key * utxo)) : oacc :=
  mkOA (oa_idx a + 1) (aremove (o_addr o) (o_addr o :: oa_addrs a)) (oa_total a + den_value (o_den o))
       (oa_conv a + den_value (o_den o)) isconv iswrap (o_addr o) (oa_dens a) (oa_etxs a) creates
       (oa_gp a) (oa_used a) (oa_rgas a) (oa_pgas a).

Inductive out_ok (c : ctx) (t : tx) (a : oacc) (o : txout) : oacc -> Prop :=
| out_conv : is_conv_out c t o = true -> out_ok c t a o (agg_acc a o true (oa_iswrap a) (oa_creates a))
| out_wrap : is_wrap_out c t o = true ->
    out_ok c t a o (agg_acc a o (oa_isconv a) true (if prefork c then oa_creates a ++ [new_utxo t a o] else oa_creates a))
| out_create : is_conv_out c t o = false -> is_wrap_out c t o = false -> out_ok c t a o (create_acc t (count_acc a o) o)
| out_etx : is_conv_out c t o = false -> is_wrap_out c t o = false -> etx_gas <= oa_gp a ->
    out_ok c t a o (etx_acc c (count_acc a o) o).

Lemma out_step_cases w w' c rl pl t a o g : oa_gp a <= g ->
  match out_step w c rl pl t a o with
  | Err _ g0 => g0 <= oa_gp a
  | Ok a' => out_ok c t a o a' /\ accepts_too set_gp oa_gp (out_step w' c rl pl t (set_gp a g) o) a'
  end.
Proof.
  intros Hg. unfold out_step. cbv zeta.
  cbn [set_gp oa_idx oa_addrs oa_total oa_conv oa_isconv oa_iswrap oa_caddr oa_dens oa_etxs oa_creates oa_gp oa_used oa_rgas oa_pgas].
  destruct (max_output_index <? oa_idx a); [apply N.le_refl|].
  destruct (max_denomination <? o_den o); [apply N.le_refl|].
  destruct (o_lock o =? 0); cbn [negb]; [|apply N.le_refl].
  destruct (amem (o_addr o) (oa_addrs a)); [apply N.le_refl|].
  fold (is_conv_out c t o).
  destruct (is_conv_out c t o) eqn:Ec.
  { destruct (oa_isconv a && negb (keqb (o_addr o) (oa_caddr a))); [apply N.le_refl|].
    refine (conj (out_conv _ _ _ _ Ec) _). exists g; split; [reflexivity|exact Hg]. }
  assert (is_wrap_out c t o = (is_local c (o_addr o) && is_quai (o_addr o) && (len (t_data t) =? address_length))) as Ew
      by (unfold is_wrap_out; rewrite Ec; reflexivity).
  rewrite <- Ew.
  destruct (is_wrap_out c t o) eqn:Ew'.
  { destruct (is_qi (t_data t) || negb (is_internal c (t_data t))); [apply N.le_refl|].
    pose proof (out_wrap c t a o Ew') as Hw. unfold prefork in Hw.
    destruct (qi_wrapping_change_block <=? c_ptn c); cbn [negb] in Hw.
    - refine (conj Hw _). exists g; split; [reflexivity|exact Hg].
    - (* before the fork the aggregated output also goes through out_emit, as a local one *)
      symmetry in Ew. apply andb_prop in Ew as (Ew & _). apply andb_prop in Ew as (El & _).
      rewrite !out_emit_local by exact El. refine (conj Hw _). exists g; split; [reflexivity|exact Hg]. }
  destruct (is_quai (o_addr o)); [apply N.le_refl|].
  fold (count_acc a o).
  destruct (is_local c (o_addr o)) eqn:El.
  - rewrite !out_emit_local by exact El.
    refine (conj (out_create _ _ _ _ Ec Ew') _). exists g; split; [reflexivity|exact Hg].
  - pose proof (out_emit_etx w c rl pl t (count_acc a o) o El) as He.
    destruct (out_emit w c rl pl t (count_acc a o) o) as [a1|]; [|exact He]. destruct He as (He & ->).
    pose proof He as (_ & _ & _ & _ & Hgas).
    exact (conj (out_etx c t a o Ec Ew' Hgas) (out_emit_etx_too w' c rl pl t (count_acc a o) o g El He Hg)).
Qed.

Definition value_of (cs : list (key * utxo)) : N := sum_den (map (fun kv => u_den (snd kv)) cs).
Definition etx_val (e : etx) : N :=
  if e_type e =? etx_default_type then den_value (e_value e) else e_value e.   (* default Qi ETXs carry a denomination index *)
Definition etxs_value (l : list etx) : N := fold_right (fun e acc => etx_val e + acc) 0 l.
(* before QiWrappingChangeBlock a wrapped output is written to the UTXO set AND carried by the wrapping ETX *)
Definition dbl (c : ctx) (t : tx) (o : txout) : N :=
  if prefork c && is_wrap_out c t o then den_value (o_den o) else 0.
Definition dbl_sum (c : ctx) (t : tx) (outs : list txout) : N := fold_right (fun o acc => dbl c t o + acc) 0 outs.

(* the sums of the model are all of this shape *)
Lemma sum_app {A} (f : A -> N) a b :
  fold_right (fun x s => f x + s) 0 (a ++ b) = fold_right (fun x s => f x + s) 0 a + fold_right (fun x s => f x + s) 0 b.
Proof. induction a as [|x a IH]; cbn [app fold_right]; [reflexivity|]. rewrite IH. apply N.add_assoc. Qed.
Lemma sum_zero {A} (f : A -> N) l : (forall x, f x = 0) -> fold_right (fun x s => f x + s) 0 l = 0.
Proof. intros H. induction l as [|x l IH]; cbn [fold_right]; [reflexivity|]. rewrite H, IH. reflexivity. Qed.

Lemma sum_den_app a b : sum_den (a ++ b) = sum_den a + sum_den b.
Proof. exact (sum_app den_value a b). Qed.
Lemma value_of_app a b : value_of (a ++ b) = value_of a + value_of b.
Proof. unfold value_of. rewrite map_app. apply sum_den_app. Qed.
Lemma etxs_value_app a b : etxs_value (a ++ b) = etxs_value a + etxs_value b.
Proof. exact (sum_app etx_val a b). Qed.
Lemma value_of_one k u : value_of [(k, u)] = den_value (u_den u).
Proof. unfold value_of; cbn [map sum_den fold_right snd]. lia. Qed.
Lemma etxs_value_default to d i g : etxs_value [mkEtx etx_default_type to d i g] = den_value d.
Proof. unfold etxs_value, etx_val; cbn [fold_right e_type e_value]. rewrite N.eqb_refl. lia. Qed.

Definition measure (a : oacc) : N := value_of (oa_creates a) + etxs_value (oa_etxs a) + oa_conv a.

Definition created_by (t : tx) (lo hi : N) (kv : key * utxo) : Prop :=
  exists i, lo <= i < hi /\ fst kv = outkey (t_hash t) i /\ u_lock (snd kv) = 0.

Definition acc_ok (t : tx) (a : oacc) : Prop :=
  (oa_isconv a = false /\ oa_iswrap a = false -> oa_conv a = 0)
  /\ Forall (created_by t 0 (oa_idx a)) (oa_creates a).

Lemma created_by_step t a o cs : Forall (created_by t 0 (oa_idx a)) (oa_creates a) ->
  cs = oa_creates a \/ cs = oa_creates a ++ [new_utxo t a o] -> Forall (created_by t 0 (oa_idx a + 1)) cs.
Proof.
  intros H Hcs.
  assert (Forall (created_by t 0 (oa_idx a + 1)) (oa_creates a)) as H'.
  { eapply Forall_impl; [|exact H]. intros kv (i & Hi & Hk). exists i. split; [lia|exact Hk]. }
  destruct Hcs as [->| ->]; [exact H'|]. apply Forall_app. split; [exact H'|]. constructor; [|constructor].
  exists (oa_idx a). cbn [new_utxo fst snd u_lock]. repeat split; lia.
Qed.

Definition out_done (c : ctx) (t : tx) (outs : list txout) (a a' : oacc) : Prop :=
  measure a' = measure a + sum_den (map o_den outs) + dbl_sum c t outs
  /\ oa_total a' = oa_total a + sum_den (map o_den outs)
  /\ oa_gp a' <= oa_gp a /\ oa_gp a' + oa_used a' = oa_gp a + oa_used a
  /\ oa_idx a' = oa_idx a + len outs
  /\ oa_dens a' = rev (map o_den (filter (counts c t) outs)) ++ oa_dens a
  /\ (acc_ok t a -> acc_ok t a').

Lemma out_done_gp c t outs a a' : out_done c t outs a a' -> oa_gp a' <= oa_gp a.
Proof. intros (_ & _ & H & _). exact H. Qed.

Lemma out_done_nil c t a : out_done c t [] a a.
Proof. unfold out_done, len; cbn [map sum_den fold_right dbl_sum length filter rev app]. repeat (split; [lia|]). auto. Qed.

Lemma out_done_cons c t o r a a1 a' : out_done c t [o] a a1 -> out_done c t r a1 a' -> out_done c t (o :: r) a a'.
Proof.
  unfold out_done, len; cbn [map sum_den fold_right dbl_sum length].
  fold (sum_den (map o_den r)). fold (dbl_sum c t r).
  intros (E1 & E2 & E3 & E4 & E5 & E6 & E7) (H1 & H2 & H3 & H4 & H5 & H6 & H7). repeat (split; [lia|]).
  split; [|auto]. rewrite H6, E6. change (o :: r) with ([o] ++ r). rewrite filter_app, map_app, rev_app_distr, app_assoc. reflexivity.
Qed.

Lemma out_ok_done c t a o a' : out_ok c t a o a' -> out_done c t [o] a a'.
Proof.
  intros H.
  unfold out_done, len; cbn [map sum_den fold_right dbl_sum length filter]. unfold counts, dbl, measure, acc_ok.
  (* on each path, with its tests rewritten, the clause on oa_dens holds by computation: [split] closes it *)
  destruct H as [Hc|Hw|Hc Hw|Hc Hw Hg].
  - assert (is_wrap_out c t o = false) as -> by (unfold is_wrap_out; rewrite Hc; reflexivity).
    rewrite Hc, andb_false_r. cbn [agg_acc oa_idx oa_total oa_conv oa_isconv oa_iswrap oa_dens oa_etxs oa_creates oa_gp oa_used].
    repeat split; try lia. apply (created_by_step t a o); [tauto|auto].
  - rewrite Hw, andb_true_r, andb_false_r. cbn [agg_acc oa_idx oa_total oa_conv oa_isconv oa_iswrap oa_dens oa_etxs oa_creates oa_gp oa_used].
    destruct (prefork c); unfold new_utxo; rewrite ?value_of_app, ?value_of_one; cbn [u_den];
      (repeat split; try lia; try (intros [_ ?]; discriminate); apply (created_by_step t a o); [tauto|auto]).
  - rewrite Hc, Hw, andb_false_r.
    cbn [create_acc count_acc oa_idx oa_total oa_conv oa_isconv oa_iswrap oa_dens oa_etxs oa_creates oa_gp oa_used].
    unfold new_utxo. rewrite value_of_app, value_of_one. cbn [u_den].
    repeat split; try lia; try tauto. apply (created_by_step t a o); [tauto|auto].
  - rewrite Hc, Hw, andb_false_r.
    cbn [etx_acc count_acc oa_idx oa_total oa_conv oa_isconv oa_iswrap oa_dens oa_etxs oa_creates oa_gp oa_used].
    rewrite etxs_value_app, etxs_value_default.
    repeat split; try lia; try tauto. apply (created_by_step t a o); [tauto|auto].
Qed.

Lemma out_loop_cases w w' c rl pl t outs : forall a g, oa_gp a <= g ->
  match out_loop w c rl pl t a outs with
  | Err _ g0 => g0 <= oa_gp a
  | Ok a' => out_done c t outs a a' /\ accepts_too set_gp oa_gp (out_loop w' c rl pl t (set_gp a g) outs) a'
  end.
Proof.
  induction outs as [|o r IH]; intros a g Hg; cbn [out_loop].
  - split; [apply out_done_nil|exists g; split; [reflexivity|exact Hg]].
  - pose proof (out_step_cases w w' c rl pl t a o g Hg) as C.
    destruct (out_step w c rl pl t a o) as [a1|e1 g1]; [|exact C]. destruct C as (E & g1 & -> & Hg1).
    apply out_ok_done in E. specialize (IH a1 g1 Hg1).
    destruct (out_loop w c rl pl t a1 r) as [a'|e g0].
    + exact (conj (out_done_cons _ _ _ _ _ _ _ E (proj1 IH)) (proj2 IH)).
    + exact (N.le_trans _ _ _ IH (out_done_gp _ _ _ _ _ E)).
Qed.

Definition oa0 (addrs : list (list N)) (gp used : N) : oacc :=
  mkOA 0 addrs 0 0 false false [] [] [] [] gp used 0 0.

Lemma etx_types_distinct :
  (etx_conversion_type =? etx_default_type) = false /\ (etx_wrapping_qi_type =? etx_default_type) = false.
Proof. split; vm_compute; reflexivity. Qed.

Lemma conv_etx_value (wrap : bool) to v g :
  etxs_value [mkEtx (if wrap then etx_wrapping_qi_type else etx_conversion_type) to v 0 g] = v.
Proof.
  unfold etxs_value, etx_val; cbn [fold_right e_type e_value].
  destruct etx_types_distinct as (Hc & Hw). destruct wrap; rewrite ?Hc, ?Hw; lia.
Qed.

Set Implicit Arguments.
Record post_facts (c : ctx) (t : tx) (gp used tot : N) (p : pres) : Prop := {
  pf_balance : tot + dbl_sum c t (t_outs t) = value_of (p_creates p) + etxs_value (p_etxs p) + p_fee p;
  pf_created : Forall (created_by t 0 (len (t_outs t))) (p_creates p);
  pf_fee_floor : t_intrinsic t * c_basefee c <= c_quai_reward c * p_fee p / c_qi_reward c;
  pf_gp : p_gp p <= gp;
  pf_gas : p_gp p + p_used p = gp + used;
  pf_outdens : p_outdens p = rev (map o_den (filter (counts c t) (t_outs t)))
}.
Unset Implicit Arguments.

Lemma post_inputs_cases w w' c rl pl t gp g used addrs tot : gp <= g ->
  match post_inputs w c rl pl t gp used addrs tot with
  | Err _ g0 => g0 <= gp
  | Ok p => post_facts c t gp used tot p
            /\ accepts_too set_pgp p_gp (post_inputs w' c rl pl t g used addrs tot) p
  end.
Proof.
  intros Hg. unfold post_inputs. fold (oa0 addrs gp used) (oa0 addrs g used).
  pose proof (out_loop_cases w w' c rl pl t (t_outs t) (oa0 addrs gp used) g Hg) as Hl.
  change (set_gp (oa0 addrs gp used) g) with (oa0 addrs g used) in Hl.
  destruct (out_loop w c rl pl t (oa0 addrs gp used) (t_outs t)) as [a|e g0]; [|exact Hl].
  destruct Hl as ((Hm & Htot & Hgp & Hgu & Hidx & Hdens & Hok) & g1 & -> & Hg1).
  (* what the loop has done, from the empty accumulator *)
  destruct Hok as (Hzero & Hcb); [split; [reflexivity|constructor]|].
  unfold measure in Hm. cbv zeta.
  cbn [oa0 set_gp oa_idx oa_addrs oa_total oa_conv oa_isconv oa_iswrap oa_caddr oa_dens oa_etxs oa_creates oa_gp oa_used oa_rgas oa_pgas] in *.
  rewrite Hidx in Hcb. rewrite app_nil_r in Hdens. change (value_of []) with 0 in Hm. change (etxs_value []) with 0 in Hm.
  destruct (tot <? oa_total a) eqn:E1; [exact Hgp|]. apply N.ltb_ge in E1.
  destruct (_ <? t_intrinsic t) eqn:E2; [exact Hgp|]. apply N.ltb_ge in E2.
  destruct (_ <? _ * c_basefee c) eqn:E3; [exact Hgp|]. apply N.ltb_ge in E3.
  assert (t_intrinsic t * c_basefee c <= c_quai_reward c * (tot - oa_total a) / c_qi_reward c) as Hfloor
      by (etransitivity; [apply N.mul_le_mono_r; exact E2|exact E3]).
  clear E2 E3.   (* the modulus and the division, kept from lia *)
  destruct (oa_isconv a && in_hold c kawpow_fork_block); [exact Hgp|].
  destruct (oa_isconv a && in_hold c sha_equivalent_difficulty_fork_block); [exact Hgp|].
  destruct (oa_isconv a || oa_iswrap a) eqn:Eor.
  - destruct (oa_isconv a && oa_iswrap a); [exact Hgp|].
    destruct (_ <? _ * c_basefee c); [exact Hgp|].
    destruct (pl <? oa_pgas a + qi_to_quai_conversion_gas); [exact Hgp|].
    (* the one check that looks at the pool *)
    destruct (oa_gp a <? etx_gas) eqn:Eg; [exact Hgp|]. apply N.ltb_ge in Eg.
    assert (g1 <? etx_gas = false) as -> by (apply N.ltb_ge; lia).
    split; [|exists (g1 - etx_gas); split; [reflexivity|cbn [p_gp]; lia]].
    split; cbn [p_fee p_etxs p_creates p_gp p_used p_outdens]; rewrite ?etxs_value_app, ?conv_etx_value; assumption || lia.
  - apply orb_false_elim in Eor. rewrite Hzero in Hm by exact Eor.
    split; [|exists g1; split; [reflexivity|exact Hg1]].
    split; cbn [p_fee p_etxs p_creates p_gp p_used p_outdens]; assumption || lia.
Qed.

Lemma post_inputs_spec w c rl pl t gp used addrs tot p :
  post_inputs w c rl pl t gp used addrs tot = Ok p -> post_facts c t gp used tot p.
Proof.
  intros H. pose proof (post_inputs_cases w w c rl pl t gp _ used addrs tot (N.le_refl _)) as C. rewrite H in C. exact (proj1 C).
Qed.
