(* C06 — the accumulator as a formal sum (free abelian group over elements) and its image under any
   abelian-group homomorphism (the real MuHash). *)
From Coq Require Import List NArith ZArith Lia Permutation.
From GQ Require Import Model.C06.
Import ListNotations.

Fixpoint occ (l : list elem) (e : elem) : Z :=
  match l with
  | [] => 0%Z
  | x :: t => ((if N.eqb x e then 1 else 0) + occ t e)%Z
  end.

Definition ceq (a b : acc) : Prop := forall e, count a e = count b e.

Lemma ceq_refl : forall a, ceq a a.
Proof. intros a e; reflexivity. Qed.
Lemma ceq_sym : forall a b, ceq a b -> ceq b a.
Proof. intros a b H e; symmetry; apply H. Qed.
Lemma ceq_trans : forall a b c, ceq a b -> ceq b c -> ceq a c.
Proof. intros a b c H1 H2 e; rewrite H1; apply H2. Qed.

Lemma count_app : forall a b e, count (a ++ b) e = (count a e + count b e)%Z.
Proof.
  induction a as [|[x s] t IH]; intros b e; cbn [count app]; [lia|rewrite IH; destruct (N.eqb x e); lia].
Qed.

Lemma count_perm : forall a b, Permutation a b -> ceq a b.
Proof.
  intros a b P; induction P; intros e.
  - reflexivity.
  - destruct x as [x s]; cbn [count]; rewrite IHP; lia.
  - destruct x as [x s], y as [y s']; cbn [count]; destruct (N.eqb x e), (N.eqb y e); lia.
  - rewrite IHP1; apply IHP2.
Qed.

Lemma count_not_in : forall a e, ~ In e (map fst a) -> count a e = 0%Z.
Proof.
  induction a as [|[x s] t IH]; intros e Hn; cbn [count]; [reflexivity|].
  cbn [map fst] in Hn.
  destruct (N.eqb_spec x e) as [->|Hne]; [exfalso; apply Hn; left; reflexivity|].
  rewrite IH; [lia|]. intro Hi; apply Hn; right; exact Hi.
Qed.

Lemma occ_count_occ : forall l e, occ l e = Z.of_nat (count_occ N.eq_dec l e).
Proof.
  induction l as [|x t IH]; intros e; cbn [occ count_occ]; [reflexivity|].
  rewrite IH. destruct (N.eq_dec x e), (N.eqb_spec x e); lia.
Qed.

Lemma occ_app : forall l1 l2 e, occ (l1 ++ l2) e = (occ l1 e + occ l2 e)%Z.
Proof. intros l1 l2 e. rewrite !occ_count_occ, count_occ_app. apply Nat2Z.inj_add. Qed.

Lemma occ_perm : forall l1 l2, Permutation l1 l2 -> forall e, occ l1 e = occ l2 e.
Proof. intros l1 l2 P e. rewrite !occ_count_occ. f_equal. apply Permutation_count_occ, P. Qed.

Lemma occ_not_in : forall l e, ~ In e l -> occ l e = 0%Z.
Proof. intros l e Hn. apply (count_occ_not_In N.eq_dec) in Hn. rewrite occ_count_occ, Hn. reflexivity. Qed.

Lemma occ_in_pos : forall l e, In e l -> (0 < occ l e)%Z.
Proof. intros l e Hi. apply (count_occ_In N.eq_dec) in Hi. rewrite occ_count_occ. lia. Qed.

Lemma count_fold : forall s l a e,
  count (fold_left (fun a x => (x, s) :: a) l a) e = (count a e + sgn s * occ l e)%Z.
Proof.
  induction l as [|x t IH]; intros a e; cbn [fold_left occ]; [lia|].
  rewrite IH. cbn [count]. destruct (N.eqb x e); lia.
Qed.

Lemma count_adds : forall l a e, count (acc_adds a l) e = (count a e + occ l e)%Z.
Proof. intros l a e. unfold acc_adds. rewrite (count_fold true). cbn [sgn]. lia. Qed.

Lemma count_removes : forall l a e, count (acc_removes a l) e = (count a e - occ l e)%Z.
Proof. intros l a e. unfold acc_removes. rewrite (count_fold false). cbn [sgn]. lia. Qed.

Lemma count_block : forall a cr de tr e,
  count (acc_removes (acc_adds a cr) (de ++ tr)) e = (count a e + occ cr e - occ de e - occ tr e)%Z.
Proof. intros; rewrite count_removes, count_adds, occ_app; lia. Qed.

Lemma count_of_content : forall l e, count (of_content l) e = occ l e.
Proof. intros l e; unfold of_content; rewrite count_adds; cbn [count]; lia. Qed.

Lemma acc_eqb_spec : forall a b, acc_eqb a b = true <-> ceq a b.
Proof.
  intros a b; unfold acc_eqb; rewrite forallb_forall; split.
  - intros H e.
    destruct (in_dec N.eq_dec e (map fst a ++ map fst b)) as [Hi|Hn].
    + apply Z.eqb_eq, H, Hi.
    + rewrite (count_not_in a), (count_not_in b); [reflexivity| |];
        intro Hx; apply Hn, in_or_app; [right|left]; exact Hx.
  - intros H e _. apply Z.eqb_eq, H.
Qed.

(* Image of a formal sum under a homomorphism into ANY abelian group: the real accumulator is
   MuHash (numerator / denominator in Z_p^*, p prime): multiSet.Add multiplies by H(e),
   multiSet.Remove by its inverse. *)
Section Mu.
  Variable G : Type.
  Variable op : G -> G -> G.
  Variable inv : G -> G.
  Variable one : G.
  Variable H : elem -> G.
  Hypothesis op_assoc : forall x y z, op x (op y z) = op (op x y) z.
  Hypothesis op_comm : forall x y, op x y = op y x.
  Hypothesis op_one : forall x, op one x = x.
  Hypothesis op_inv : forall x, op (inv x) x = one.

  Definition term (p : elem * bool) : G := if snd p then H (fst p) else inv (H (fst p)).
  Fixpoint mu (a : acc) : G :=
    match a with
    | [] => one
    | p :: t => op (term p) (mu t)
    end.

  Lemma mu_app : forall a b, mu (a ++ b) = op (mu a) (mu b).
  Proof using op_assoc op_one.
    induction a as [|p t IH]; intros b; cbn [mu app]; [symmetry; apply op_one|].
    rewrite IH; apply op_assoc.
  Qed.

  Lemma mu_perm : forall a b, Permutation a b -> mu a = mu b.
  Proof using op_assoc op_comm.
    intros a b P; induction P; cbn [mu].
    - reflexivity.
    - rewrite IHP; reflexivity.
    - rewrite !op_assoc, (op_comm (term y) (term x)); reflexivity.
    - rewrite IHP1; exact IHP2.
  Qed.

  Lemma term_cancel : forall x s, op (term (x, s)) (term (x, negb s)) = one.
  Proof using op_comm op_inv.
    intros x [|]; unfold term; cbn [fst snd negb]; [rewrite op_comm; apply op_inv|apply op_inv].
  Qed.

  Lemma find_opposite : forall t x s, (sgn s * count t x < 0)%Z -> In (x, negb s) t.
  Proof.
    induction t as [|[y s'] t IH]; intros x s Hc; cbn [count] in Hc; [lia|].
    destruct (N.eqb_spec y x) as [->|_].
    - destruct s, s'; cbn [sgn] in Hc; try (left; reflexivity); right; apply IH; cbn [sgn]; lia.
    - right; apply IH; lia.
  Qed.

  Lemma mu_zero : forall a, (forall e, count a e = 0%Z) -> mu a = one.
  Proof using op_assoc op_comm op_one op_inv.
    intros a. induction a as [a IH] using (induction_ltof1 _ (@length _)). intros Hz.
    destruct a as [|[x s] t]; [reflexivity|].
    (* the head is cancelled against an entry of the opposite sign found in the tail *)
    assert (Hc : In (x, negb s) t).
    { apply find_opposite. specialize (Hz x); cbn [count] in Hz; rewrite N.eqb_refl in Hz.
      destruct s; cbn [sgn] in *; lia. }
    apply in_split in Hc. destruct Hc as [t1 [t2 ->]].
    assert (P : Permutation ((x, s) :: t1 ++ (x, negb s) :: t2) ((x, s) :: (x, negb s) :: t1 ++ t2)).
    { apply perm_skip. symmetry. apply Permutation_middle. }
    rewrite (mu_perm _ _ P). cbn [mu]. rewrite op_assoc, term_cancel, op_one.
    apply IH.
    - unfold ltof. cbn [length]. rewrite !app_length. cbn [length]. lia.
    - intros e. specialize (Hz e). rewrite (count_perm _ _ P e) in Hz. cbn [count] in Hz.
      destruct s; cbn [negb sgn] in Hz; destruct (N.eqb x e); lia.
  Qed.

  (* equal in the free abelian group  ==>  equal accumulator value (hence equal UTXORoot):
     the entries of a move to the other side one by one, with the opposite sign, until a is empty *)
  Lemma mu_ceq : forall a b, ceq a b -> mu a = mu b.
  Proof using op_assoc op_comm op_one op_inv.
    induction a as [|[x s] t IH]; intros b E.
    - symmetry. apply mu_zero. intros e. symmetry. apply E.
    - cbn [mu]. rewrite (IH ((x, negb s) :: b)).
      + cbn [mu]. rewrite op_assoc, term_cancel. apply op_one.
      + intros e. specialize (E e). cbn [count] in *. destruct s; cbn [negb sgn] in *; destruct (N.eqb x e); lia.
  Qed.

  Lemma mu_add : forall a e, mu (acc_add a e) = op (H e) (mu a).
  Proof. reflexivity. Qed.
  Lemma mu_remove : forall a e, mu (acc_remove a e) = op (inv (H e)) (mu a).
  Proof. reflexivity. Qed.
End Mu.
