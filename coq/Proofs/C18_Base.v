(* C18 -- basic lemmas: induction principle for the nested node type, list surgery (set_nth,
   count_nonnil), strip / prefix_len, what div_lt says of two keys, lookup equations, [sets] (a tree
   that answers like another except at one key) through short and full nodes, the canonical form
   (wfn, and wf = empty or canonical): every canonical subtree holds a key and no empty value;
   node_eqb decides equality; the order behind the range-proof guard strict_inc. *)
From Coq Require Import List NArith Bool Arith Sorted Lia.
From GQ Require Import Lib.Key Model.C18.
Import ListNotations.

Section NodeInd.
  Variable P : node -> Prop.
  Hypothesis hNil : P Nil.
  Hypothesis hVal : forall v, P (Val v).
  Hypothesis hShort : forall k n, P n -> P (Short k n).
  Hypothesis hFull : forall cs, (forall i x, nth_error cs i = Some x -> P x) -> P (Full cs).
  Lemma node_ind' : forall n, P n.
  Proof.
    fix IH 1. intros [|v|k c|cs]; [exact hNil|apply hVal|apply hShort, IH|apply hFull].
    induction cs as [|y r IHr]; intros [|i] x Hx; try discriminate.
    - injection Hx as <-. apply IH.
    - exact (IHr i x Hx).
  Qed.
End NodeInd.

Lemma child_app_spec {A} (f : node -> A) d cs i :
  child_app f d cs i = match nth_error cs i with Some x => f x | None => d end.
Proof.
  revert i. induction cs as [|x r IH]; intros [|i]; cbn; auto.
Qed.

Lemma set_nth_length cs i n : length (set_nth cs i n) = length cs.
Proof. revert i. induction cs as [|x r IH]; intros [|i]; cbn; auto. Qed.

Lemma nth_error_set_nth_eq cs i n : i < length cs -> nth_error (set_nth cs i n) i = Some n.
Proof.
  revert i. induction cs as [|x r IH]; intros [|i] Hl; cbn in *; try lia; auto.
  apply IH. lia.
Qed.

Lemma nth_error_set_nth_neq cs i j n : i <> j -> nth_error (set_nth cs i n) j = nth_error cs j.
Proof.
  revert i j. induction cs as [|x r IH]; intros [|i] [|j] Hn; cbn; auto; try congruence.
Qed.

Lemma set_nth_same cs i x : nth_error cs i = Some x -> set_nth cs i x = cs.
Proof.
  revert i. induction cs as [|y r IH]; intros [|i] Hx; cbn in *; try congruence.
  f_equal. apply IH, Hx.
Qed.

Lemma set_nth_app_l (l r : list node) i x : i < length l -> set_nth (l ++ r) i x = set_nth l i x ++ r.
Proof.
  revert i. induction l as [|y l IH]; intros [|i] H; cbn in *; try lia; auto. f_equal. apply IH. lia.
Qed.

Lemma set_nth_all (P : node -> Prop) cs i n :
  (forall j z, nth_error cs j = Some z -> P z) -> P n ->
  forall j z, nth_error (set_nth cs i n) j = Some z -> P z.
Proof.
  intros Hc Hn j z Hz. destruct (Nat.eq_dec i j) as [<-|Hne].
  - assert (Hi : i < length cs) by (rewrite <- (set_nth_length cs i n); apply nth_error_Some; congruence).
    rewrite nth_error_set_nth_eq in Hz by exact Hi. injection Hz as <-. exact Hn.
  - rewrite nth_error_set_nth_neq in Hz by exact Hne. exact (Hc _ _ Hz).
Qed.

Lemma nth_error_empty17 i : i < 17 -> nth_error empty17 i = Some Nil.
Proof. apply nth_error_repeat. Qed.

Lemma nth_error_repeat_inv {A} (a : A) n i x : nth_error (repeat a n) i = Some x -> x = a.
Proof. intros Hx. apply nth_error_In in Hx. apply repeat_spec in Hx. exact Hx. Qed.

Lemma count_set_nth cs i n x :
  nth_error cs i = Some x ->
  count_nonnil (set_nth cs i n) + (if is_nil x then 0 else 1)
  = count_nonnil cs + (if is_nil n then 0 else 1).
Proof.
  revert i. induction cs as [|y r IH]; intros [|i] Hx; cbn in *; try congruence.
  - injection Hx as ->. lia.
  - specialize (IH _ Hx). lia.
Qed.

Lemma count_pos_exists cs : 1 <= count_nonnil cs ->
  exists i x, nth_error cs i = Some x /\ is_nil x = false.
Proof.
  induction cs as [|y r IH]; cbn; intros Hc; [lia|].
  destruct (is_nil y) eqn:Hy.
  - destruct IH as (i & x & Hi & Hx); [lia|]. exists (S i), x. auto.
  - exists 0, y. auto.
Qed.

Lemma count_two_other cs c : 2 <= count_nonnil cs ->
  exists i x, i <> c /\ nth_error cs i = Some x /\ is_nil x = false.
Proof.
  revert c. induction cs as [|y r IH]; cbn; intros c Hc; [lia|].
  destruct (is_nil y) eqn:Hy.
  - destruct (IH (pred c)) as (i & x & Hn & Hi & Hx); [lia|].
    exists (S i), x. destruct c; cbn in Hn; repeat split; auto.
  - destruct c as [|c].
    + destruct (count_pos_exists r) as (i & x & Hi & Hx); [lia|].
      exists (S i), x. repeat split; auto.
    + exists 0, y. repeat split; auto.
Qed.

Lemma count_zero_all_nil cs : count_nonnil cs = 0 ->
  forall i x, nth_error cs i = Some x -> x = Nil.
Proof.
  intros Hc i x Hx. pose proof (count_set_nth cs i Nil x Hx) as Hs.
  destruct x; cbn [is_nil] in Hs; [reflexivity|lia..].
Qed.

Lemma strip_some k key r : strip k key = Some r <-> key = k ++ r.
Proof.
  revert key. induction k as [|a k IH]; intros key; cbn.
  - split; congruence.
  - destruct key as [|x key]; [split; discriminate|].
    destruct (N.eqb_spec a x) as [->|Hn].
    + rewrite IH. split; congruence.
    + split; congruence.
Qed.

Lemma strip_app k q : strip k (k ++ q) = Some q.
Proof. apply strip_some. reflexivity. Qed.

Lemma strip_app_l p r key :
  strip (p ++ r) key = match strip p key with Some q => strip r q | None => None end.
Proof.
  revert key. induction p as [|a p IH]; intros key; cbn; auto.
  destruct key as [|x key]; auto. destruct (N.eqb a x); auto.
Qed.

Lemma strip_nil_inv k : strip k [] = match k with [] => Some [] | _ => None end.
Proof. destruct k; reflexivity. Qed.

Lemma common_prefix (a b : hkey) :
  exists p ra rb, a = p ++ ra /\ b = p ++ rb /\
    match ra, rb with x :: _, y :: _ => x <> y | _, _ => True end.
Proof.
  revert b. induction a as [|x a IH]; intros b.
  - exists [], [], b. auto.
  - destruct b as [|y b].
    + exists [], (x :: a), []. auto.
    + destruct (N.eq_dec x y) as [->|Hn].
      * destruct (IH b) as (p & ra & rb & -> & -> & Hd). exists (y :: p), ra, rb. auto.
      * exists [], (x :: a), (y :: b). auto.
Qed.

Lemma prefix_len_app p ra rb :
  match ra, rb with x :: _, y :: _ => x <> y | _, _ => True end ->
  prefix_len (p ++ ra) (p ++ rb) = length p.
Proof.
  intros Hd. induction p as [|a p IH]; cbn.
  - destruct ra as [|x ra], rb as [|y rb]; cbn; auto.
    destruct (N.eqb_spec x y); congruence.
  - rewrite N.eqb_refl. auto.
Qed.

Lemma prefix_len_self_app k ra : prefix_len (k ++ ra) k = length k.
Proof.
  rewrite <- (app_nil_r k) at 2. apply prefix_len_app. destruct ra; exact I.
Qed.

Lemma div_lt_app_l k rest key : div_lt (k ++ rest) key = true ->
  (exists key', key = k ++ key' /\ div_lt rest key' = true) \/
  (exists p x ra y rb, k = p ++ x :: ra /\ key = p ++ y :: rb /\ (x < y)%N).
Proof.
  revert key. induction k as [|c k IH]; intros key H.
  - left. exists key. auto.
  - destruct key as [|d key]; [discriminate|]. cbn in H.
    destruct (N.eqb_spec c d) as [->|Hn].
    + destruct (IH key H) as [(key' & -> & Hd)|(p & x & ra & y & rb & -> & -> & Hlt)].
      * left. exists key'. auto.
      * right. exists (d :: p), x, ra, y, rb. auto.
    + apply N.ltb_lt in H. right. exists [], c, k, d, key. auto.
Qed.

Lemma div_lt_spec a b : div_lt a b = true ->
  exists p x ra y rb, a = p ++ x :: ra /\ b = p ++ y :: rb /\ (x < y)%N.
Proof.
  intros H. rewrite <- (app_nil_r a) in H.
  destruct (div_lt_app_l a [] b H) as [(key' & _ & Hd)|Hs]; [destruct key'; discriminate|exact Hs].
Qed.

Lemma div_lt_head x y a b : (x < y)%N -> div_lt (x :: a) (y :: b) = true.
Proof. intros H. cbn [div_lt]. destruct (N.eqb_spec x y); [lia|]. apply N.ltb_lt, H. Qed.

Lemma div_lt_kltb a b : div_lt a b = true -> kltb a b = true.
Proof.
  intros (p & x & ra & y & rb & -> & -> & Hlt)%div_lt_spec. rewrite kltb_app. unfold kltb. cbn [kcmp].
  rewrite (proj2 (N.compare_lt_iff x y) Hlt). reflexivity.
Qed.

Lemma div_lt_nibbles a b : div_lt a b = true -> div_lt (nibbles a) (nibbles b) = true.
Proof.
  revert b. induction a as [|x a IH]; intros [|y b] H; cbn in H; try discriminate.
  cbn [nibbles div_lt].
  destruct (N.eqb_spec x y) as [E|Hn].
  - subst y. rewrite !N.eqb_refl. auto.
  - apply N.ltb_lt in H.
    pose proof (N.div_le_mono x y 16 ltac:(discriminate) (N.lt_le_incl _ _ H)) as Hq.
    destruct (N.eqb_spec (x / 16) (y / 16)) as [E|E]; [|apply N.ltb_lt; lia].
    pose proof (N.div_mod x 16 ltac:(discriminate)) as D1. pose proof (N.div_mod y 16 ltac:(discriminate)) as D2.
    rewrite E in D1.
    destruct (N.eqb_spec (x mod 16) (y mod 16)) as [E2|E2]; [lia|apply N.ltb_lt; lia].
Qed.

Lemma lookup_full cs c rest :
  lookup (Full cs) (c :: rest) =
  match nth_error cs (N.to_nat c) with Some x => lookup x rest | None => None end.
Proof. cbn. apply child_app_spec. Qed.

Lemma lookup_full_set cs c nn s q : N.to_nat c < length cs ->
  lookup (Full (set_nth cs (N.to_nat c) nn)) (s :: q) =
  if N.eqb s c then lookup nn q else lookup (Full cs) (s :: q).
Proof.
  intros Hc. rewrite !lookup_full. destruct (N.eqb_spec s c) as [->|Hn].
  - rewrite nth_error_set_nth_eq by exact Hc. reflexivity.
  - rewrite nth_error_set_nth_neq; [reflexivity|]. intros E. apply N2Nat.inj in E. congruence.
Qed.

Lemma lookup_short k c key :
  lookup (Short k c) key = match strip k key with Some r => lookup c r | None => None end.
Proof. reflexivity. Qed.

Lemma lookup_mk_short k c key :
  lookup (mk_short k c) key = match strip k key with Some r => lookup c r | None => None end.
Proof. destruct k; reflexivity. Qed.

Lemma lookup_short_app k c q : lookup (Short k c) (k ++ q) = lookup c q.
Proof. rewrite lookup_short, strip_app. reflexivity. Qed.

Lemma lookup_nil q : lookup Nil q = None.
Proof. reflexivity. Qed.

Lemma lookup_short_some k c q v : lookup (Short k c) q = Some v -> exists r, q = k ++ r /\ lookup c r = Some v.
Proof.
  rewrite lookup_short. destruct (strip k q) as [r|] eqn:Hs; [|discriminate].
  intros Hl. exists r. split; auto. apply strip_some; auto.
Qed.

Lemma lookup_full_some cs q v : lookup (Full cs) q = Some v ->
  exists c r x, q = c :: r /\ nth_error cs (N.to_nat c) = Some x /\ lookup x r = Some v.
Proof.
  destruct q as [|c r]; [discriminate|]. rewrite lookup_full.
  destruct (nth_error cs (N.to_nat c)) as [x|] eqn:Hx; [|discriminate].
  intros Hl. exists c, r, x. auto.
Qed.

Definition sets (t : node) (key : hkey) (o : option val) (t' : node) : Prop :=
  forall q, lookup t' q = if keqb q key then o else lookup t q.

Lemma sets_short p c ra o nn : sets c ra o nn -> sets (Short p c) (p ++ ra) o (Short p nn).
Proof.
  intros Hl q. rewrite !lookup_short. destruct (strip p q) as [r|] eqn:Hst.
  - apply strip_some in Hst. subst q. rewrite keqb_app. apply Hl.
  - destruct (keqb q (p ++ ra)) eqn:E; auto. apply keqb_eq in E. subst q.
    rewrite strip_app in Hst. discriminate.
Qed.

Lemma sets_full cs c rest x o nn :
  nth_error cs (N.to_nat c) = Some x -> sets x rest o nn ->
  sets (Full cs) (c :: rest) o (Full (set_nth cs (N.to_nat c) nn)).
Proof.
  intros Hx Hl [|s q]; [rewrite keqb_nil_cons; reflexivity|].
  rewrite lookup_full_set, keqb_cons by (apply nth_error_Some; congruence).
  destruct (N.eqb_spec s c) as [->|]; [|reflexivity]. rewrite lookup_full, Hx. apply Hl.
Qed.

Lemma sets_equiv t key o t' t'' : (forall q, lookup t'' q = lookup t' q) -> sets t key o t' -> sets t key o t''.
Proof. intros He Hs q. rewrite He. apply Hs. Qed.

(* [wf (Short k c)] and [wf (Full cs)] compute to [wfn]: wfn_short and wfn_full apply to such a
   hypothesis as it stands *)
Lemma wf_cases n : wf n = true -> n = Nil \/ wfn n = true.
Proof. destruct n; cbn; auto. Qed.

Lemma wfn_wf n : wfn n = true -> wf n = true.
Proof. intros Hw. unfold wf. rewrite Hw. apply orb_true_r. Qed.

Lemma wfn_short k c : wfn (Short k c) = true <-> k <> [] /\ is_short c = false /\ wfn c = true.
Proof.
  cbn. rewrite !andb_true_iff, !negb_true_iff. destruct k; cbn; intuition congruence.
Qed.

Lemma wfn_full cs : wfn (Full cs) = true <->
  length cs = 17 /\ 2 <= count_nonnil cs /\ (forall i x, nth_error cs i = Some x -> wf x = true).
Proof.
  change (wfn (Full cs)) with (Nat.eqb (length cs) 17 && Nat.leb 2 (count_nonnil cs) && forallb wf cs).
  rewrite !andb_true_iff, Nat.eqb_eq, Nat.leb_le, forallb_forall. split.
  - intros [[Hl Hc] Hf]. repeat split; auto. intros i x Hx. exact (Hf x (nth_error_In _ _ Hx)).
  - intros (Hl & Hc & Hf). repeat split; auto. intros x Hin.
    apply In_nth_error in Hin as [i Hi]. exact (Hf _ _ Hi).
Qed.

Lemma wfn_not_nil n : wfn n = true -> is_nil n = false.
Proof. destruct n; cbn; congruence. Qed.

Lemma wfn_full_set cs i x nn :
  wfn (Full cs) = true -> nth_error cs i = Some x -> wfn nn = true -> wfn (Full (set_nth cs i nn)) = true.
Proof.
  intros Hw Hx Hn. apply wfn_full in Hw as (Hl & Hc & Hf). apply wfn_full. repeat split.
  - rewrite set_nth_length. exact Hl.
  - pose proof (count_set_nth cs i nn x Hx) as Hcs.
    rewrite (wfn_not_nil nn Hn) in Hcs. destruct (is_nil x); lia.
  - apply set_nth_all; [exact Hf|apply wfn_wf, Hn].
Qed.

Lemma wfn_nonempty n : wfn n = true -> exists q v, lookup n q = Some v.
Proof.
  induction n as [|v|k c IH|cs IH] using node_ind'; intros Hw.
  - discriminate.
  - exists [], v. reflexivity.
  - apply wfn_short in Hw as (_ & _ & Hc). destruct (IH Hc) as (q & v & Hq).
    exists (k ++ q), v. rewrite lookup_short_app. exact Hq.
  - apply wfn_full in Hw as (Hl & Hc & Hf).
    destruct (count_pos_exists cs) as (i & x & Hi & Hx); [lia|].
    destruct (wf_cases _ (Hf _ _ Hi)) as [->|Hwx]; [discriminate|].
    destruct (IH i x Hi Hwx) as (q & v & Hq).
    exists (N.of_nat i :: q), v. rewrite lookup_full, Nat2N.id, Hi. exact Hq.
Qed.

Lemma wf_no_key n : wf n = true -> (forall q, lookup n q = None) -> n = Nil.
Proof.
  intros [->|Hw]%wf_cases He; [reflexivity|]. destruct (wfn_nonempty _ Hw) as (q & v & Hq).
  rewrite He in Hq. discriminate.
Qed.

Lemma wf_nil_key n v : wf n = true -> lookup n [] = Some v -> n = Val v.
Proof.
  intros Hw He. destruct n as [|w|k c|cs]; try discriminate.
  - cbn in He. congruence.
  - apply wfn_short in Hw as (Hk & _).
    rewrite lookup_short, strip_nil_inv in He. destruct k; [congruence|discriminate].
Qed.

Lemma wf_values t : wf t = true -> forall q v, lookup t q = Some v -> v <> [].
Proof.
  induction t as [|v0|k c IH|cs IH] using node_ind'; intros Hw q v Hq.
  - discriminate.
  - destruct q; [|discriminate]. cbn in Hq, Hw.
    injection Hq as <-. destruct v0; [discriminate|discriminate].
  - apply wfn_short in Hw as (_ & _ & Hc).
    destruct (lookup_short_some _ _ _ _ Hq) as (r & _ & Hr). apply (IH (wfn_wf _ Hc) r v Hr).
  - apply wfn_full in Hw as (_ & _ & Hf).
    destruct (lookup_full_some _ _ _ Hq) as (c & r & x & _ & Hx & Hr).
    apply (IH _ x Hx (Hf _ _ Hx) r v Hr).
Qed.

Lemma wfn_full_other cs (c : N) : wfn (Full cs) = true ->
  exists s q v, s <> c /\ lookup (Full cs) (s :: q) = Some v.
Proof.
  intros Hw. apply wfn_full in Hw as (_ & Hc & Hf).
  destruct (count_two_other cs (N.to_nat c) Hc) as (i & x & Hi & Hx & Hn).
  destruct (wf_cases _ (Hf _ _ Hx)) as [->|Hwx]; [discriminate|].
  destruct (wfn_nonempty _ Hwx) as (q & v & Hq).
  exists (N.of_nat i), q, v. split; [intros <-; rewrite Nat2N.id in Hi; congruence|]. rewrite lookup_full, Nat2N.id, Hx. exact Hq.
Qed.

Lemma node_eqb_eq a b : node_eqb a b = true <-> a = b.
Proof.
  revert b. induction a as [|v|k c IH|cs IH] using node_ind'; intros b; destruct b as [|w|k' c'|cs']; cbn;
    try (split; congruence).
  - rewrite keqb_eq. split; congruence.
  - rewrite andb_true_iff, keqb_eq, IH. split; [intros [-> ->]; auto | intros [= -> ->]; auto].
  - revert cs'. induction cs as [|x r IHr]; intros [|y r']; try (split; congruence).
    rewrite andb_true_iff, (IH 0 x eq_refl), (IHr (fun i => IH (S i))). split.
    + intros [-> [= ->]]. reflexivity.
    + intros [= -> ->]. auto.
Qed.

Definition klt (a b : list N) : Prop := kltb a b = true.

Lemma strict_inc_Sorted ks : strict_inc ks = true <-> Sorted klt ks.
Proof.
  induction ks as [|a r IH]; [split; [constructor|reflexivity]|].
  cbn [strict_inc]. rewrite andb_true_iff, IH. split.
  - intros [Hab Hr]. constructor; [exact Hr|]. destruct r; constructor. exact Hab.
  - intros Hs. inversion Hs as [|? ? Hr Hhd]; subst. split; [|exact Hr].
    destruct r; [reflexivity|]. inversion Hhd. assumption.
Qed.

Lemma strict_inc_StronglySorted ks : strict_inc ks = true <-> StronglySorted klt ks.
Proof.
  rewrite strict_inc_Sorted. split; [|apply StronglySorted_Sorted].
  apply Sorted_StronglySorted. intros a b c. apply kltb_trans.
Qed.

Lemma strict_inc_nodup ks : strict_inc ks = true -> NoDup ks.
Proof.
  intros H. apply strict_inc_StronglySorted in H.
  induction H as [|a r Hs IH Hall]; constructor; [|exact IH].
  intros Hin. rewrite Forall_forall in Hall. specialize (Hall a Hin).
  unfold klt in Hall. rewrite kltb_irrefl in Hall. discriminate.
Qed.
