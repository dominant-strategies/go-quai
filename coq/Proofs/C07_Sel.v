(* C07 — lemmas about the worker's arbitration between conflicting pool transactions
   (Model/C07.v, [reserve] … [spent_by]) and the side condition on the generated inventory of the
   statements of core/worker.go that touch env.deletedUtxos. *)
From Coq Require Import List NArith Bool String.
From GQ Require Import Lib.Lists Model.C07 Generated.C07Checks.
Import ListNotations.
Local Open Scope N_scope.

Lemma memN_In : forall x l, memN x l = true <-> In x l.
Proof. exact (existsb_eqb_In N.eqb N.eqb_eq). Qed.

Lemma memN_false_In : forall x l, memN x l = false <-> ~ In x l.
Proof. exact (existsb_eqb_not_In N.eqb N.eqb_eq). Qed.

Lemma delN_In : forall x y l, In x (delN y l) <-> In x l /\ x <> y.
Proof. intros x y l. unfold delN. rewrite filter_In, negb_true_iff, N.eqb_neq. reflexivity. Qed.

Lemma fold_delN_In : forall x own l, In x (fold_right delN l own) <-> In x l /\ ~ In x own.
Proof.
  intros x own l. induction own as [|a own IH]; cbn [fold_right In]; [tauto|].
  rewrite delN_In, IH. intuition congruence.
Qed.

Lemma reserve_spec : forall ins utxo res own res' own' v,
  reserve utxo res own ins = (res', own', v) ->
  exists pre, res' = rev pre ++ res /\ own' = rev pre ++ own /\ NoDup pre
    /\ (forall x, In x pre -> ~ In x res /\ In x utxo)
    /\ (v = RAccept -> pre = ins).
Proof.
  induction ins as [|x r IH]; intros utxo res own res' own' v H; cbn [reserve] in H.
  - injection H as <- <- <-. exists []. repeat split; (constructor || contradiction).
  - destruct (memN x utxo) eqn:Eu; cbn [negb] in H.
    + destruct (memN x res) eqn:Er.
      * injection H as <- <- <-. exists []. repeat split; (constructor || contradiction || discriminate).
      * apply IH in H. destruct H as (pre & -> & -> & Hnd & Hnew & Hall).
        apply memN_In in Eu. apply memN_false_In in Er.
        exists (x :: pre). cbn [rev]. rewrite <- !app_assoc.
        split; [reflexivity|]. split; [reflexivity|]. split; [|split].
        -- constructor; [|exact Hnd]. intro Hin. apply (Hnew x Hin). left. reflexivity.
        -- intros y [<-|Hin]; [split; assumption|].
           split; [intro Hy; apply (Hnew y Hin); right; exact Hy | apply (Hnew y Hin)].
        -- intro Hv. rewrite (Hall Hv). reflexivity.
    + injection H as <- <- <-. exists []. repeat split; (constructor || contradiction || discriminate).
Qed.

Lemma spent_by_snoc : forall sel t, spent_by (sel ++ [t]) = spent_by sel ++ p_ins t.
Proof. intros sel t. unfold spent_by. rewrite flat_map_app. cbn [flat_map]. rewrite app_nil_r. reflexivity. Qed.

Record sel_inv (utxo : list N) (acc : list N * list ptx) : Prop := {
  sel_reserved : incl (spent_by (snd acc)) (fst acc);
  sel_once : NoDup (spent_by (snd acc));
  sel_exist : incl (spent_by (snd acc)) utxo
}.

Lemma sel_inv_start : forall utxo, sel_inv utxo ([], []).
Proof. intro utxo. split; [intros x [] | constructor | intros x []]. Qed.

Lemma cleanup_keeps : forall p res own v x,
  p = KeepAll \/ p = ReleaseOwn -> In x res -> ~ In x own -> In x (cleanup p res own v).
Proof.
  intros p res own v x [->| ->] Hx Hn; cbn [cleanup]; [exact Hx | apply fold_delN_In; split; assumption].
Qed.

Lemma wstep_inv : forall p utxo acc t,
  p = KeepAll \/ p = ReleaseOwn -> sel_inv utxo acc -> sel_inv utxo (wstep p utxo acc t).
Proof.
  intros p utxo [res sel] t Hp [I1 I2 I3]. cbn [fst snd] in *. unfold wstep.
  destruct (reserve utxo res [] (p_ins t)) as [[res' own'] v] eqn:E.
  apply reserve_spec in E. destruct E as (pre & -> & -> & Hnd & Hnew & Hall). rewrite app_nil_r.
  (* what is spent is reserved, hence not among the newly reserved outpoints *)
  assert (Hd : forall x, In x (spent_by sel) -> ~ In x pre) by (intros x Hx Hin; apply (Hnew x Hin), I1, Hx).
  assert (Hrej : forall v', sel_inv utxo (cleanup p (rev pre ++ res) (rev pre) v', sel)).
  { intro v'. split; try assumption. intros x Hx.
    apply cleanup_keeps; [exact Hp | apply in_or_app; right; apply I1, Hx | rewrite <- in_rev; apply Hd, Hx]. }
  destruct v; try apply Hrej.
  destruct (p_rest_ok t); [|apply Hrej].
  rewrite (Hall eq_refl) in *.
  split; cbn [fst snd]; rewrite spent_by_snoc.
  - intros x Hx. apply in_app_iff in Hx. rewrite in_app_iff, <- in_rev. destruct Hx; auto.
  - apply NoDup_app_iff. exact (conj I2 (conj Hnd Hd)).
  - intros x Hx. apply in_app_iff in Hx. destruct Hx as [Hx|Hx]; [apply I3, Hx | apply Hnew, Hx].
Qed.

Lemma spend_ok : forall ins utxo, NoDup ins -> incl ins utxo ->
  exists u', spend utxo ins = Some u' /\ forall y, In y u' <-> In y utxo /\ ~ In y ins.
Proof.
  induction ins as [|x r IH]; intros utxo Hn Hin; cbn [spend].
  - exists utxo. split; [reflexivity|]. cbn. tauto.
  - apply NoDup_cons_iff in Hn. destruct Hn as [Hx Hn].
    rewrite (proj2 (memN_In x utxo)) by (apply Hin; left; reflexivity).
    destruct (IH (delN x utxo) Hn) as (u' & Hs & Hm).
    + intros y Hy. apply delN_In. split; [apply Hin; right; exact Hy | intros ->; contradiction].
    + exists u'. split; [exact Hs|]. intro y. rewrite Hm, delN_In. cbn [In]. intuition congruence.
Qed.

Lemma spend_app : forall a b utxo,
  spend utxo (a ++ b) = match spend utxo a with Some u => spend u b | None => None end.
Proof.
  induction a as [|x a IH]; intros b utxo; cbn [app spend]; [reflexivity|].
  destruct (memN x utxo); [apply IH | reflexivity].
Qed.

Lemma vspend_flat : forall body utxo,
  vspend utxo body = match spend utxo (spent_by body) with Some _ => true | None => false end.
Proof.
  induction body as [|t r IH]; intro utxo; [reflexivity|].
  change (spent_by (t :: r)) with (p_ins t ++ spent_by r). rewrite spend_app. cbn [vspend].
  destruct (spend utxo (p_ins t)); [apply IH | reflexivity].
Qed.

Lemma vspend_ok : forall body utxo, NoDup (spent_by body) -> incl (spent_by body) utxo -> vspend utxo body = true.
Proof.
  intros body utxo Hn Hin. rewrite vspend_flat.
  destruct (spend_ok _ utxo Hn Hin) as (u' & -> & _). reflexivity.
Qed.

Local Open Scope string_scope.

(* The operations the generator records in worker_reservation_ops:
   "make" (initialised in the environment literal), "lookup-reject" (`if _, ok := env.deletedUtxos[h]; ok
   { return error }`), "lookup" (a lookup that does not end in an error return), "insert", "delete",
   "reset" (the field is assigned), "other".
   KeepAll is the model of: the set is created empty, only ever grows, and in processQiTx the
   look-up that rejects precedes the insertion. *)
Definition op_allowed (o : string) : bool := (o =? "make") || (o =? "lookup-reject") || (o =? "insert").

Definition ops_of (f : string) : list string :=
  map snd (filter (fun p => fst p =? f) worker_reservation_ops).

Definition worker_reservation_insert_only : bool :=
  forallb (fun p => op_allowed (snd p)) worker_reservation_ops
  && existsb (fun p => snd p =? "make") worker_reservation_ops
  && match ops_of "processQiTx" with
     | o :: rest => (o =? "lookup-reject") && existsb (String.eqb "insert") rest
     | [] => false
     end
  && forallb (fun p => (fst p =? "processQiTx") || (snd p =? "make")) worker_reservation_ops.
