(* C01 -- what an accepted ProcessQiTx guarantees on any store (authorisation, conservation, the entries it found
   and deleted, the denominations CheckDenominations passed); on the flat reference ledger these deletions and the
   creations form a strict run of events: an outpoint is consumed only when present. *)
From Coq Require Import List NArith Bool.
From GQ Require Import Lib.Key Lib.SMap Generated.C01Params Model.C01 Proofs.C01_Steps.
Import ListNotations.
Local Open Scope N_scope.

Inductive event := Consume (k : key) (u : utxo) | Create (k : key) (u : utxo).

Inductive strict : ledger -> list event -> ledger -> Prop :=
| strict_nil l : strict l [] l
| strict_consume l k u r l' : get k l = Some u -> strict (del k l) r l' -> strict l (Consume k u :: r) l'
| strict_create l k u r l' : strict (put k u l) r l' -> strict l (Create k u :: r) l'.

Lemma strict_app l1 e1 l2 e2 l3 : strict l1 e1 l2 -> strict l2 e2 l3 -> strict l1 (e1 ++ e2) l3.
Proof. induction 1; cbn; intros; auto using strict. Qed.

Lemma strict_app_inv e1 : forall l e2 l', strict l (e1 ++ e2) l' -> exists lm, strict l e1 lm /\ strict lm e2 l'.
Proof.
  induction e1 as [|e e1 IH]; cbn [app]; intros l e2 l' H; [eauto using strict|].
  inversion H as [|? ? ? ? ? Hg Hs|? ? ? ? ? Hs]; subst; destruct (IH _ _ _ Hs) as (lm & H1 & H2); eauto using strict.
Qed.

Lemma strict_sorted l evs l' : strict l evs l' -> sorted l -> sorted l'.
Proof. induction 1; auto using del_sorted, put_sorted. Qed.

Lemma strict_origin l evs l' : strict l evs l' -> sorted l ->
  forall k u, get k l' = Some u -> get k l = Some u \/ exists u', In (Create k u') evs.
Proof.
  induction 1 as [l|l k0 u0 r l' Hg Hs IH|l k0 u0 r l' Hs IH]; intros S k u G.
  - left; exact G.
  - destruct (IH (del_sorted _ _ S) k u G) as [G'|(u' & Hin)]; [|right; exists u'; right; exact Hin].
    left. rewrite get_del in G' by exact S. destruct (keqb k k0); [discriminate|exact G'].
  - destruct (IH (put_sorted _ _ _ S) k u G) as [G'|(u' & Hin)]; [|right; exists u'; right; exact Hin].
    rewrite get_put in G'. destruct (keqb k k0) eqn:E; [|left; exact G'].
    apply keqb_eq in E; subst k0. right. exists u0. left; reflexivity.
Qed.

Definition consumes (sp : list (key * utxo)) : list event := map (fun ku => Consume (fst ku) (snd ku)) sp.
Definition creates (cs : list (key * utxo)) : list event := map (fun ku => Create (fst ku) (snd ku)) cs.
Definition tx_events (r : txres) : list event := consumes (r_spent r) ++ creates (r_created r).

Definition in_ok (c : ctx) (cs : bool) (i : txin) (ku : key * utxo) : Prop :=
  fst ku = i_op i /\ u_owner (snd ku) = i_pkaddr i /\ is_qi (i_pkaddr i) = true
  /\ u_lock (snd ku) <= c_height c /\ u_den (snd ku) <= max_denomination
  /\ (cs = true -> i_pkparse i = true).

Lemma strict_spends c cs ins sp : Forall2 (in_ok c cs) ins sp ->
  forall (l l' : ledger) rest, sorted l -> strict l (consumes sp ++ rest) l' ->
  NoDup (map i_op ins)
  /\ Forall (fun i => exists u, get (i_op i) l = Some u /\ u_owner u = i_pkaddr i /\ u_lock u <= c_height c) ins.
Proof.
  induction 1 as [|i [k u] ins sp (Hk & Ho & _ & Hl & _) _ IH]; intros l l' rest S H; cbn [map]; [split; constructor|].
  cbn [fst snd] in *. subst k. inversion H as [|? ? ? ? ? Hg Hs|]; subst.
  destruct (IH _ _ _ (del_sorted _ _ S) Hs) as (Hnd & Hall). rewrite Forall_forall in Hall.
  assert (forall i', In i' ins -> i_op i' <> i_op i) as Hne.
  { intros i' Hin E. destruct (Hall _ Hin) as (u' & G & _). rewrite E, get_del_same in G by exact S. discriminate. }
  split.
  - constructor; [|exact Hnd]. intros Hin. apply in_map_iff in Hin as (i' & E & Hin). exact (Hne _ Hin E).
  - constructor; [exists u; auto|]. apply Forall_forall. intros i' Hin. destruct (Hall _ Hin) as (u' & G & Hu').
    rewrite (get_del_other _ _ _ S (Hne _ Hin)) in G. exists u'. auto.
Qed.

Lemma sanity_ins t : sanity t = None -> t_ins t <> [].
Proof. unfold sanity. intros H E. rewrite E in H. discriminate. Qed.

Definition double_entry (c : ctx) (t : tx) : N := dbl_sum c t (t_outs t).

Lemma double_entry_after_fork c t : qi_wrapping_change_block <= c_ptn c -> double_entry c t = 0.
Proof. intros H. apply sum_zero. intros o. unfold dbl, prefork. rewrite (proj2 (N.leb_le _ _) H). reflexivity. Qed.

Set Implicit Arguments.
Record tx_facts (c : ctx) (t : tx) (r : txres) : Prop := {
  tf_inputs : Forall2 (in_ok c (t_checksig t)) (t_ins t) (r_spent r);
  tf_balance : value_of (r_spent r) + double_entry c t = value_of (r_created r) + etxs_value (r_etxs r) + r_fee r;
  tf_signed : t_checksig t = true -> t_sigok t = true;
  tf_has_inputs : t_ins t <> [];
  tf_created : Forall (created_by t 0 (len (t_outs t))) (r_created r);
  tf_fee_floor : t_intrinsic t * c_basefee c <= c_quai_reward c * r_fee r / c_qi_reward c
}.
Unset Implicit Arguments.

Section AnyStore.
Context {S : Type} (st : store S).

Definition in_acc (a : iacc) (i : txin) (u : utxo) : iacc :=
  mkIA (st_del st (ia_store a) (i_op i)) (u_owner u :: ia_addrs a) (ia_total a + den_value (u_den u))
       (u_den u :: ia_dens a) (ia_spent a ++ [(i_op i, u)]).

Lemma in_step_inv c cs gp a i a' : in_step st c cs gp a i = Ok a' ->
  exists u, st_get st (ia_store a) (i_op i) = Some u /\ in_ok c cs i (i_op i, u) /\ a' = in_acc a i u.
Proof.
  unfold in_step, in_ok. destruct (st_get st (ia_store a) (i_op i)) as [u|]; [|discriminate].
  destruct (c_height c <? u_lock u) eqn:E1; [discriminate|]. apply N.ltb_ge in E1.
  destruct (is_qi (i_pkaddr i)); cbn [negb]; [|discriminate].
  destruct (keqb (i_pkaddr i) (u_owner u)) eqn:E3; cbn [negb]; [|discriminate]. apply keqb_eq in E3.
  destruct (cs && negb (i_pkparse i)) eqn:E4; [discriminate|].
  destruct (max_denomination <? u_den u) eqn:E5; [discriminate|]. apply N.ltb_ge in E5.
  intros [= <-]. exists u. cbn [fst snd]. repeat split; auto.
  intros ->. destruct (i_pkparse i); [reflexivity|discriminate].
Qed.

Lemma in_step_ok c cs gp a i u : st_get st (ia_store a) (i_op i) = Some u -> in_ok c cs i (i_op i, u) ->
  in_step st c cs gp a i = Ok (in_acc a i u).
Proof.
  intros G (_ & Ho & Hq & Hl & Hd & Hp). cbn [snd] in *. apply N.ltb_ge in Hl, Hd.
  unfold in_step. rewrite G, Hl, Hq, <- Ho, keqb_refl, Hd. cbn [negb].
  destruct cs; [rewrite Hp by reflexivity|]; reflexivity.
Qed.

Inductive qi_accepted c (b : bst (S:=S)) t : bst (S:=S) -> txres -> Prop :=
| qi_accepted_intro ia p :
    sanity t = None -> t_intrinsic t <= b_gp b -> b_used b + t_intrinsic t <= c_gaslimit c ->
    in_loop st c (t_checksig t) (b_gp b - t_intrinsic t) (mkIA (b_store b) [] 0 [] []) (t_ins t) = Ok ia ->
    post_inputs false c (b_rlim b) (b_plim b) t (b_gp b - t_intrinsic t) (b_used b + t_intrinsic t)
                (ia_addrs ia) (ia_total ia) = Ok p ->
    (b_first b = false -> check_denominations (ia_dens ia) (p_outdens p) = true) ->
    (t_checksig t = true -> t_sigok t = true) ->
    qi_accepted c b t
                (mkB (put_all st (ia_store ia) (p_creates p)) (p_gp p) (p_used p)
                     (b_rlim b - p_rgas p) (b_plim b - p_pgas p) false)
                (mkRes (p_fee p) (p_etxs p) (p_used p - b_used b) (ia_spent ia) (p_creates p)).

Lemma process_qi_inv c b t b' r : process_qi st c b t = Ok (b', r) -> qi_accepted c b t b' r.
Proof.
  unfold process_qi.
  destruct (sanity t) eqn:Hsan; [discriminate|].
  destruct (b_gp b <? t_intrinsic t) eqn:Eg; [discriminate|]. apply N.ltb_ge in Eg.
  destruct (c_gaslimit c <? b_used b + t_intrinsic t) eqn:El; [discriminate|]. apply N.ltb_ge in El.
  destruct (in_loop st c _ _ _ _) as [ia|] eqn:Ei; [|discriminate].
  destruct (post_inputs false c _ _ t _ _ _ _) as [p|] eqn:Ep; [|discriminate].
  destruct (negb (b_first b) && negb (check_denominations (ia_dens ia) (p_outdens p))) eqn:Ed; [discriminate|].
  destruct (t_checksig t && negb (t_sigok t)) eqn:Es; [discriminate|].
  intros [= <- <-]. apply (qi_accepted_intro _ _ _ ia p Hsan Eg El Ei Ep).
  - intros Hf. rewrite Hf in Ed. destruct (check_denominations _ _); [reflexivity|discriminate].
  - intros Hc. rewrite Hc in Es. destruct (t_sigok t); [reflexivity|discriminate].
Qed.

Lemma process_qi_ok c b t b' r : qi_accepted c b t b' r -> process_qi st c b t = Ok (b', r).
Proof.
  intros [ia p Hsan Hg Hl Hin Hpost Hden Hsig]. apply N.ltb_ge in Hg, Hl.
  unfold process_qi. rewrite Hsan, Hg, Hl, Hin, Hpost.
  destruct (b_first b); [|rewrite Hden by reflexivity]; cbn [negb andb];
    (destruct (t_checksig t); [rewrite Hsig by reflexivity|]; reflexivity).
Qed.

Inductive spends : S -> list (key * utxo) -> S -> Prop :=
| spends_nil s : spends s [] s
| spends_cons s k u sp s' :
    st_get st s k = Some u -> spends (st_del st s k) sp s' -> spends s ((k, u) :: sp) s'.

Set Implicit Arguments.
Record in_done c cs (ins : list txin) (a : iacc) (sp : list (key * utxo)) (a' : iacc) : Prop := {
  id_spent : ia_spent a' = ia_spent a ++ sp;
  id_inputs : Forall2 (in_ok c cs) ins sp;
  id_spends : spends (ia_store a) sp (ia_store a');
  id_total : ia_total a' = ia_total a + value_of sp;
  id_dens : ia_dens a' = rev (map (fun ku => u_den (snd ku)) sp) ++ ia_dens a
}.
Unset Implicit Arguments.

Lemma in_loop_spec c cs gp ins : forall a a', in_loop st c cs gp a ins = Ok a' -> exists sp, in_done c cs ins a sp a'.
Proof.
  induction ins as [|i r IH]; intros a a' H; cbn [in_loop] in H.
  - injection H as <-. exists []. split; rewrite ?app_nil_r, ?N.add_0_r; constructor.
  - destruct (in_step st c cs gp a i) as [a1|] eqn:E; [|discriminate].
    apply in_step_inv in E as (u & G & Hok & ->).
    apply IH in H as (sp & [Hs Hf Hst Ht Hd]). cbn [in_acc ia_store ia_total ia_dens ia_spent] in *.
    exists ((i_op i, u) :: sp). split.
    + rewrite Hs, <- app_assoc. reflexivity.
    + constructor; assumption.
    + apply spends_cons; assumption.
    + rewrite Ht. symmetry. apply N.add_assoc.
    + rewrite Hd. cbn [map rev snd]. rewrite <- app_assoc. reflexivity.
Qed.

Lemma process_qi_facts c b t b' r : process_qi st c b t = Ok (b', r) ->
  tx_facts c t r
  /\ (exists s, spends (b_store b) (r_spent r) s /\ b_store b' = put_all st s (r_created r))
  /\ (b_first b = false ->
      check_denominations (rev (map (fun ku => u_den (snd ku)) (r_spent r)))
                          (rev (map o_den (filter (counts c t) (t_outs t)))) = true).
Proof.
  intros H. apply process_qi_inv in H as [ia p Hsan _ _ Hin Hpost Hden Hsig].
  apply in_loop_spec in Hin as (sp & [Hs Hf Hsp Ht Hd]). cbn [ia_store ia_total ia_dens ia_spent app] in *. subst sp.
  apply post_inputs_spec in Hpost as [Hcons Hcb Hfloor _ _ Ho]. rewrite Ht in Hcons. rewrite Ho, Hd, app_nil_r in Hden.
  split; [split; eauto using sanity_ins|split; [eauto|exact Hden]].
Qed.

Lemma run_txs_facts c txs : forall b b' rs,
  run_txs st c b txs = (rs, Some b') -> Forall2 (tx_facts c) txs rs.
Proof.
  induction txs as [|t r IH]; intros b b' rs H; cbn [run_txs] in H.
  - injection H as <- _. constructor.
  - destruct (process_qi st c b t) as [[b1 x]|] eqn:E; [|discriminate].
    destruct (run_txs st c b1 r) as [l o] eqn:Er. injection H as <- ->.
    constructor; [exact (proj1 (process_qi_facts _ _ _ _ _ E))|exact (IH _ _ _ Er)].
Qed.

End AnyStore.

Lemma spends_strict sp : forall l l' : ledger, spends ledger_store l sp l' -> strict l (consumes sp) l'.
Proof. induction 1; cbn [consumes map fst snd]; auto using strict. Qed.

Lemma put_all_strict cs : forall l : ledger, strict l (creates cs) (put_all ledger_store l cs).
Proof.
  unfold put_all. induction cs as [|[k u] cs IH]; intros l; cbn; [constructor|].
  apply strict_create. apply IH.
Qed.

Lemma process_qi_spec c (b b' : bst (S:=ledger)) t r :
  process_qi ledger_store c b t = Ok (b', r) ->
  tx_facts c t r /\ strict (b_store b) (tx_events r) (b_store b').
Proof.
  intros H. apply process_qi_facts in H as (F & (s & Hsp & ->) & _). split; [exact F|].
  exact (strict_app _ _ _ _ _ (spends_strict _ _ _ Hsp) (put_all_strict _ _)).
Qed.

Definition block_events (rs : list txres) : list event := concat (map tx_events rs).

Lemma run_txs_strict c txs : forall (b b' : bst (S:=ledger)) rs,
  run_txs ledger_store c b txs = (rs, Some b') -> strict (b_store b) (block_events rs) (b_store b').
Proof.
  induction txs as [|t r IH]; intros b b' rs H; cbn [run_txs] in H.
  - injection H as <- <-. constructor.
  - destruct (process_qi ledger_store c b t) as [[b1 x]|] eqn:E; [|discriminate].
    destruct (run_txs ledger_store c b1 r) as [l o] eqn:Er. injection H as <- ->.
    exact (strict_app _ _ _ _ _ (proj2 (process_qi_spec _ _ _ _ _ E)) (IH _ _ _ Er)).
Qed.

Lemma run_block_ref_rejected (l : ledger) c txs rs l' : run_block_ref l c txs = (rs, false, l') -> l' = l.
Proof.
  unfold run_block_ref. destruct (run_txs ledger_store c (init_bst c l) txs) as [x [b|]]; intros [= _ <-]; reflexivity.
Qed.

Lemma run_block_ref_accepted (l : ledger) c txs rs l' : run_block_ref l c txs = (rs, true, l') ->
  strict l (block_events rs) l'.
Proof.
  unfold run_block_ref.
  destruct (run_txs ledger_store c (init_bst c l) txs) as [x [b|]] eqn:E; intros [= <- <-].
  exact (run_txs_strict _ _ _ _ _ E).
Qed.

Definition outcome := (list txres * bool * ledger)%type.
Definition outcome_events (o : outcome) : list event :=
  let '(rs, ok, _) := o in if ok then block_events rs else [].
Definition chain_events (os : list outcome) : list event := concat (map outcome_events os).
Fixpoint final_ledger (l : ledger) (os : list outcome) : ledger :=
  match os with [] => l | o :: r => final_ledger (snd o) r end.
