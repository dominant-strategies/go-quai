(* C14_ProtoWireFacts — theorems about Lib/C14_ProtoWire.v (see its header for the interface).

   decode_encode            : schema_ok sc -> wf_msg sc id m -> len (encode m) < 2^64 ->
                              decode sc id (encode m) = Some m
   encode_inj               : ... wf m1 -> wf m2 -> encode m1 = encode m2 -> m1 = m2
   parse_encode             : Forall entry_small m -> parse (encode m) = Some (map rec_of m)
   wf_msg_eq                : wf_msg as a conjunction over the entries ([entry_ok]), [ordered] and [oneof_ok]
   entry_ok_iff, oneof_ok_iff : what the first and the last of the three say
   build_singular, build_repeated : [build] by presence and kind of the field ([build_bytes], [build_msg]: its two inline cases)
   find_field_some, ordered_cons : the boolean tests that [wf_msg] is made of, read as propositions ([Key.wf_bytesb_iff] is the third)
   schema_ok_desc           : what [schema_ok] says of one descriptor
   find_field_unique, oneof_of_field : where the numbers increase, a field of the descriptor is the one found under its number
   others_of_iff, collect_incl : the members that reset a oneof field; [collect] returns values of matching records only
   (normal-form facts about the decoder: Lib/C14_ProtoWireNF.v)
   No axioms. *)
From Coq Require Import List NArith Lia Bool ZifyBool.
From GQ Require Import Lib.Key Lib.Lists Lib.C14_Varint Lib.C14_ProtoWire.
Import ListNotations.
Local Open Scope N_scope.

(* [encode] is [flat_map enc_entry] *)
Lemma encode_app a b : encode (a ++ b) = encode a ++ encode b.
Proof. exact (flat_map_app enc_entry a b). Qed.

(* the record an entry is parsed back to *)
Definition wval_of (v : fval) : wval :=
  match v with
  | FInt n => WVarint n
  | FBytes b => WBytes b
  | FMsg m => WBytes (encode m)
  end.
Definition rec_of (e : N * fval) : record := (fst e, wval_of (snd e)).

(* the inner [fix] of [enc_fval] is [encode] with [enc_entry] unfolded *)
Lemma enc_fval_msg m : enc_fval (FMsg m) = (2, C14_Varint.encode (len (encode m)) ++ encode m).
Proof. reflexivity. Qed.

Lemma enc_entry_eq k v : enc_entry (k, v) = tag k (fst (enc_fval v)) ++ snd (enc_fval v).
Proof. unfold enc_entry. cbn [fst snd]. destruct (enc_fval v). reflexivity. Qed.

Lemma tag_length_pos k wt : (1 <= length (tag k wt))%nat.
Proof.
  unfold tag. pose proof (C14_Varint.encode_nonempty (k * 8 + wt)).
  destruct (C14_Varint.encode (k * 8 + wt)); [congruence|cbn [length]; lia].
Qed.

Lemma enc_entry_length_pos e : (1 <= length (enc_entry e))%nat.
Proof.
  destruct e as [k v]. rewrite enc_entry_eq, app_length. pose proof (tag_length_pos k (fst (enc_fval v))). lia.
Qed.

Lemma encode_in_length e m : In e m -> (length (enc_entry e) <= length (encode m))%nat.
Proof.
  intros H. apply in_split in H as (a & b & ->). rewrite encode_app. cbn [encode]. rewrite !app_length. lia.
Qed.

Lemma value_shorter k v m : In (k, v) m -> (length (w_bytes (wval_of v)) < length (encode m))%nat.
Proof.
  intros H. apply encode_in_length in H. rewrite enc_entry_eq, app_length in H.
  pose proof (tag_length_pos k (fst (enc_fval v))).
  destruct v; rewrite ?enc_fval_msg in *; cbn [enc_fval fst snd wval_of w_bytes length] in *; rewrite ?app_length in H; lia.
Qed.

Definition entry_small (e : N * fval) : Prop :=
  1 <= fst e <= max_field /\
  match snd e with
  | FInt n => n < u64
  | v => len (w_bytes (wval_of v)) < u64
  end.

Lemma parse_record_entry e rest : entry_small e ->
  parse_record (enc_entry e ++ rest) = Some (rec_of e, rest).
Proof.
  destruct e as [k v]. intros [[Hk1 Hk2] Hv]. cbn [fst snd] in *.
  rewrite enc_entry_eq, <- app_assoc. unfold parse_record, tag.
  assert (Hmax : max_field = 536870911) by reflexivity.
  set (wt := fst (enc_fval v)).
  assert (Hwt : wt = 0 \/ wt = 2) by (destruct v; cbn; auto).
  rewrite C14_Varint.decode_encode by (unfold u64; lia).
  replace ((k * 8 + wt) / 8) with k by (apply N.div_unique with wt; lia).
  replace ((k * 8 + wt) mod 8) with wt by (apply N.mod_unique with k; lia).
  replace ((k =? 0) || (max_field <? k)) with false by lia.
  unfold rec_of. cbn [fst snd]. subst wt.
  destruct v as [n|b|m]; rewrite ?enc_fval_msg; cbn [enc_fval fst snd wval_of w_bytes] in *.
  1: { change (0 =? 0) with true. cbv iota. rewrite C14_Varint.decode_encode by assumption. reflexivity. }
  (* both length-delimited kinds: a length and that many bytes *)
  all: change (2 =? 0) with false; change (2 =? 1) with false; change (2 =? 2) with true; cbv iota.
  all: rewrite <- app_assoc, C14_Varint.decode_encode by assumption.
  all: rewrite len_app_ltb, firstn_len_app, skipn_len_app; reflexivity.
Qed.

Lemma parse_records_encode m : Forall entry_small m ->
  forall fuel, (length (encode m) <= fuel)%nat -> parse_records fuel (encode m) = Some (map rec_of m).
Proof.
  induction m as [|e m IH]; intros HF fuel Hf.
  - destruct fuel; reflexivity.
  - inversion HF as [|? ? He Hm]; subst. cbn [encode] in *.
    pose proof (enc_entry_length_pos e) as Hpos. rewrite app_length in Hf.
    destruct (enc_entry e ++ encode m) as [|x l] eqn:E.
    { apply (f_equal (@length N)) in E. rewrite app_length in E. cbn in E. lia. }
    destruct fuel as [|fuel]; [lia|]. cbn [parse_records]. rewrite <- E.
    rewrite parse_record_entry by assumption.
    rewrite IH by (assumption || lia). reflexivity.
Qed.

Theorem parse_encode m : Forall entry_small m -> parse (encode m) = Some (map rec_of m).
Proof. intros H. unfold parse. apply parse_records_encode; [assumption|lia]. Qed.

Lemma nums_increasing_spec d : forall prev, nums_increasing prev d = true ->
  forall fd, In fd d -> prev < f_num fd <= max_field.
Proof.
  induction d as [|x d IH]; intros prev H fd Hin; [destruct Hin|].
  cbn [nums_increasing] in H. apply andb_prop in H as [H H3]. apply andb_prop in H as [H1 H2].
  destruct Hin as [->|Hin]; [lia|]. specialize (IH _ H3 _ Hin). lia.
Qed.

Lemma find_field_some desc k fd : find_field desc k = Some fd -> In fd desc /\ f_num fd = k.
Proof.
  unfold find_field. intros H. apply find_some in H as [H1 H2]. split; [assumption|]. apply N.eqb_eq, H2.
Qed.

Lemma find_field_unique d : forall prev, nums_increasing prev d = true ->
  forall fd, In fd d -> find_field d (f_num fd) = Some fd.
Proof.
  induction d as [|x d IH]; intros prev H fd Hin; [destruct Hin|].
  cbn [nums_increasing] in H. apply andb_prop in H as [_ H3].
  unfold find_field. cbn [find]. destruct Hin as [->|Hin].
  - rewrite N.eqb_refl. reflexivity.
  - pose proof (nums_increasing_spec _ _ H3 _ Hin) as [Hlt _].
    apply N.lt_neq, N.eqb_neq in Hlt. rewrite Hlt. exact (IH _ H3 _ Hin).
Qed.

Lemma schema_ok_desc sc id desc : schema_ok sc = true -> nth_error sc (N.to_nat id) = Some desc ->
  nums_increasing 0 desc = true /\ forallb (field_ok (N.of_nat (length sc))) desc = true.
Proof.
  unfold schema_ok. intros H Hn. rewrite forallb_forall in H. apply nth_error_In in Hn.
  specialize (H _ Hn). unfold desc_ok in H. apply andb_prop in H. exact H.
Qed.

Definition entry_ok (sc : schema) (desc : msgdesc) (e : N * fval) : bool :=
  match find_field desc (fst e) with
  | None => false
  | Some fd => wf_val sc (f_kind fd) (snd e) && nonzero_ok fd (snd e)
  end.

Lemma wf_msg_eq sc id m : wf_msg sc id m =
  match nth_error sc (N.to_nat id) with
  | None => false
  | Some desc => forallb (entry_ok sc desc) m && ordered desc m && oneof_ok desc m
  end.
Proof. reflexivity. Qed.

Lemma entry_ok_iff sc desc e : entry_ok sc desc e = true <->
  exists fd, find_field desc (fst e) = Some fd /\ wf_val sc (f_kind fd) (snd e) = true /\ nonzero_ok fd (snd e) = true.
Proof.
  unfold entry_ok. destruct (find_field desc (fst e)) as [fd|].
  - rewrite andb_true_iff. split; [exists fd; auto|]. intros (fd' & E & H). injection E as <-. exact H.
  - split; [discriminate|]. intros (fd & E & _). discriminate E.
Qed.

Lemma wf_val_wt_ok sc k v : wf_val sc k v = true -> wt_ok k (wval_of v) = true.
Proof. destruct k, v; cbn; intros H; try discriminate; reflexivity. Qed.

Lemma others_of_iff desc fd o : In o (others_of desc fd) <->
  In o desc /\ f_oneof fd <> 0 /\ f_oneof o = f_oneof fd /\ f_num o <> f_num fd.
Proof.
  unfold others_of. destruct (N.eqb_spec (f_oneof fd) 0) as [Z|Z]; [cbn [In]; tauto|].
  rewrite filter_In, andb_true_iff, negb_true_iff, N.eqb_eq, N.eqb_neq. tauto.
Qed.

Lemma oneof_ok_iff desc m : oneof_ok desc m = true <->
  forall e1 e2, In e1 m -> In e2 m -> oneof_of desc (fst e1) <> 0 ->
                oneof_of desc (fst e1) = oneof_of desc (fst e2) -> fst e1 = fst e2.
Proof.
  unfold oneof_ok. rewrite forallb_forall. split.
  - intros H e1 e2 H1 H2. specialize (H e1 H1). rewrite forallb_forall in H. specialize (H e2 H2). cbv zeta in H. lia.
  - intros H e1 H1. apply forallb_forall. intros e2 H2. specialize (H e1 e2 H1 H2). cbv zeta. lia.
Qed.

Lemma collect_no_reset fd others rs :
  (forall r, In r rs -> existsb (fun o => matches o r) others = false) ->
  forall acc, collect fd others rs acc = acc ++ map snd (filter (matches fd) rs).
Proof.
  induction rs as [|r rs IH]; intros H acc; cbn [collect filter map].
  - rewrite app_nil_r. reflexivity.
  - assert (Hr := H r (or_introl eq_refl)).
    assert (Hrs : forall r0, In r0 rs -> existsb (fun o => matches o r0) others = false)
      by (intros; apply H; right; assumption).
    destruct (matches fd r) eqn:E.
    + rewrite IH by assumption. cbn [map]. rewrite <- app_assoc. reflexivity.
    + rewrite Hr. apply IH. assumption.
Qed.

Lemma collect_incl fd others rs : forall acc,
  incl (collect fd others rs acc) (acc ++ map snd (filter (matches fd) rs)).
Proof.
  induction rs as [|r rs IH]; intros acc; cbn [collect filter].
  - rewrite app_nil_r. apply incl_refl.
  - destruct (matches fd r).
    + cbn [map]. specialize (IH (acc ++ [snd r])). rewrite <- app_assoc in IH. exact IH.
    + destruct (existsb (fun o => matches o r) others); [|apply IH].
      eapply incl_tran; [apply IH|]. apply incl_appr, incl_refl.
Qed.

Lemma collect_none fd others rs : filter (matches fd) rs = [] -> collect fd others rs [] = [].
Proof. intros H. pose proof (collect_incl fd others rs []) as I. rewrite H in I. exact (incl_l_nil I). Qed.

(* keys never decrease. The proofs use the recursive form [keys_nondec] (an entry against all later ones),
   which [ordered] gives directly. *)
Definition nondec (m : msg) : Prop :=
  forall a b t1 t2, m = t1 ++ a :: b :: t2 -> fst a <= fst b.

Fixpoint keys_nondec (m : msg) : Prop :=
  match m with
  | [] => True
  | e :: t => (forall e', In e' t -> fst e <= fst e') /\ keys_nondec t
  end.

Lemma ordered_cons desc x y t : ordered desc (x :: y :: t) =
  ((fst x <? fst y) || ((fst x =? fst y) && rep_num desc (fst x))) && ordered desc (y :: t).
Proof. reflexivity. Qed.

Lemma ordered_keys_nondec desc m : ordered desc m = true -> keys_nondec m.
Proof.
  induction m as [|e [|e1 t] IH]; intros H; [exact I|split; [intros ? []|exact I]|].
  rewrite ordered_cons in H. apply andb_prop in H as [H1 H2]. specialize (IH H2). split; [|exact IH].
  assert (fst e <= fst e1) by lia.
  intros e' [<-|Hin]; [assumption|]. destruct IH as [IHa _]. specialize (IHa _ Hin). lia.
Qed.

Lemma ordered_singular desc m k : ordered desc m = true -> rep_num desc k = false ->
  filter (fun e => fst e =? k) m = [] \/ exists e, filter (fun e => fst e =? k) m = [e].
Proof.
  intros H Hk. induction m as [|e t IH]; [left; reflexivity|]. cbn [filter].
  destruct (fst e =? k) eqn:E.
  - right. exists e. f_equal. apply N.eqb_eq in E. subst k. apply filter_none.
    (* the next key is larger: equal keys are allowed for repeated fields only *)
    destruct t as [|e1 t']; [intros ? []|]. rewrite ordered_cons in H. apply andb_prop in H as [H1 H2].
    rewrite Hk, andb_false_r, orb_false_r in H1. apply N.ltb_lt in H1.
    destruct (ordered_keys_nondec _ _ H2) as [Hle _].
    intros e' He'. apply N.eqb_neq, not_eq_sym, N.lt_neq.
    destruct He' as [<-|Hin]; [exact H1|]. eapply N.lt_le_trans; [exact H1|apply Hle; exact Hin].
  - apply IH. destruct t; [reflexivity|]. rewrite ordered_cons in H. apply andb_prop in H as [_ H]. exact H.
Qed.

(* in a list with non-decreasing keys, the entries above p start with those of the least key n above p *)
Lemma split_above p n m : keys_nondec m -> p < n -> (forall e, In e m -> p < fst e -> n <= fst e) ->
  filter (fun e => p <? fst e) m = filter (fun e => fst e =? n) m ++ filter (fun e => n <? fst e) m.
Proof.
  induction m as [|e t IH]; intros H Hp Hn; [reflexivity|].
  destruct H as [Ha Hb]. pose proof (Hn e (or_introl eq_refl)) as He.
  specialize (IH Hb Hp (fun e' H' => Hn e' (or_intror H'))). cbn [filter].
  destruct (N.ltb_spec n (fst e)) as [L|L].
  - (* e, and so every later entry, has a key above n *)
    replace (p <? fst e) with true by lia. replace (fst e =? n) with false by lia.
    rewrite IH, (filter_none (fun e' => fst e' =? n) t); [reflexivity|]. intros e' He'. specialize (Ha e' He'). lia.
  - destruct (p <? fst e) eqn:E.
    + replace (fst e =? n) with true by lia. cbn [app]. f_equal. exact IH.
    + replace (fst e =? n) with false by lia. exact IH.
Qed.

Lemma by_field_partition m : keys_nondec m -> forall desc prev, nums_increasing prev desc = true ->
  (forall e, In e m -> prev < fst e -> exists fd, In fd desc /\ f_num fd = fst e) ->
  flat_map (fun fd => filter (fun e => fst e =? f_num fd) m) desc = filter (fun e => prev <? fst e) m.
Proof.
  intros Hnd. induction desc as [|fd ds IH]; intros prev Hinc Hkeys.
  - symmetry. apply filter_none. intros e He. destruct (N.ltb_spec prev (fst e)) as [L|]; [|reflexivity].
    destruct (Hkeys e He L) as (? & [] & _).
  - cbn [flat_map]. destruct (nums_increasing_spec _ _ Hinc fd (or_introl eq_refl)) as [Hp _].
    cbn [nums_increasing] in Hinc. apply andb_prop in Hinc as [_ Hds].
    pose proof (nums_increasing_spec _ _ Hds) as Hlt.
    rewrite (split_above prev (f_num fd) m Hnd Hp).
    + f_equal. apply (IH _ Hds). intros e He L.
      destruct (Hkeys e He (N.lt_trans _ _ _ Hp L)) as (fd' & [<-|Hin] & Hn); [lia|exists fd'; auto].
    + intros e He L. destruct (Hkeys e He L) as (fd' & [<-|Hin] & <-); [reflexivity|]. specialize (Hlt fd' Hin). lia.
Qed.

(* the two singular cases that [build] has inline *)
Definition build_bytes (fd : field) (ws : list wval) : option msg :=
  match last_opt ws with
  | None => Some []
  | Some w =>
      match w_bytes w with
      | [] => if is_imp (f_label fd) then Some [] else Some [(f_num fd, FBytes [])]
      | b => Some [(f_num fd, FBytes b)]
      end
  end.
Definition build_msg (rec : N -> list record -> option msg) (fd : field) (ref : N) (ws : list wval) : option msg :=
  match ws with
  | [] => Some []
  | _ :: _ =>
      match parse_all ws with
      | None => None
      | Some rs => match rec ref rs with Some m => Some [(f_num fd, FMsg m)] | None => None end
      end
  end.

(* optional and implicit presence differ only through [is_imp] *)
Lemma build_singular rec fd ws : is_rep (f_label fd) = false ->
  build rec fd ws = match f_kind fd with
                    | KU32 => build_int fd u32 ws
                    | KU64 => build_int fd u64 ws
                    | KBytes => build_bytes fd ws
                    | KMsg ref => build_msg rec fd ref ws
                    | KOther => None
                    end.
Proof. unfold build, build_bytes. destruct (f_label fd); [reflexivity|reflexivity|discriminate]. Qed.

Lemma build_repeated rec fd ws : is_rep (f_label fd) = true ->
  build rec fd ws = match f_kind fd with
                    | KBytes => Some (map (fun w => (f_num fd, FBytes (w_bytes w))) ws)
                    | KMsg ref => each_msg rec ref (f_num fd) ws
                    | _ => None
                    end.
Proof. unfold build. destruct (f_label fd); [discriminate|discriminate|]. destruct (f_kind fd); reflexivity. Qed.

Lemma build_int_value fd M n : n < M -> nonzero_ok fd (FInt n) = true ->
  build_int fd M [WVarint n] = Some [(f_num fd, FInt n)].
Proof.
  intros H Hz. unfold build_int. cbn [last_opt w_int]. rewrite (N.mod_small _ _ H).
  unfold nonzero_ok in Hz. destruct (f_label fd); try reflexivity. destruct n; [discriminate|reflexivity].
Qed.

Lemma build_bytes_value fd b : nonzero_ok fd (FBytes b) = true ->
  build_bytes fd [WBytes b] = Some [(f_num fd, FBytes b)].
Proof.
  intros Hz. unfold build_bytes. cbn [last_opt w_bytes]. destruct b; [|reflexivity].
  unfold nonzero_ok in Hz. destruct (f_label fd); [reflexivity|discriminate|reflexivity].
Qed.

(* For a well-formed m and the records of its encoding: the values collected for fd are those of its entries
   [es fd] (no reset: one member per oneof), [build] returns [es fd] (one entry at most unless repeated), and
   the [es fd] in descriptor order are m. *)
Section Fields.
  Variables (sc : schema) (desc : msgdesc) (m : msg) (rec : N -> list record -> option msg).
  Hypothesis Hinc : nums_increasing 0 desc = true.
  Hypothesis Hfok : forallb (field_ok (N.of_nat (length sc))) desc = true.
  Hypothesis Hent : forallb (entry_ok sc desc) m = true.
  Hypothesis Hord : ordered desc m = true.
  Hypothesis Hone : oneof_ok desc m = true.
  Hypothesis Hnested : forall k sub ref, In (k, FMsg sub) m -> wf_msg sc ref sub = true ->
                         parse (encode sub) = Some (map rec_of sub) /\ rec ref (map rec_of sub) = Some sub.

  Definition es (fd : field) : msg := filter (fun e => fst e =? f_num fd) m.

  Lemma ent_field fd e : In fd desc -> In e m -> fst e = f_num fd ->
    wf_val sc (f_kind fd) (snd e) = true /\ nonzero_ok fd (snd e) = true.
  Proof.
    intros Hfd He Hk. rewrite forallb_forall in Hent. apply Hent, entry_ok_iff in He as (fd' & Hf & H).
    rewrite Hk, (find_field_unique _ _ Hinc _ Hfd) in Hf. injection Hf as <-. exact H.
  Qed.

  Lemma es_in fd e : In e (es fd) -> In e m /\ fst e = f_num fd.
  Proof. unfold es. intros H. apply filter_In in H as [H1 H2]. split; [assumption|]. apply N.eqb_eq, H2. Qed.

  Lemma es_ok fd e : In fd desc -> In e (es fd) ->
    In e m /\ fst e = f_num fd /\ wf_val sc (f_kind fd) (snd e) = true.
  Proof. intros Hfd He. apply es_in in He as [He Hk]. destruct (ent_field fd e Hfd He Hk). auto. Qed.

  Lemma matches_rec fd e : In fd desc -> In e m -> matches fd (rec_of e) = (fst e =? f_num fd).
  Proof.
    intros Hfd He. unfold matches, rec_of. cbn [fst snd].
    destruct (fst e =? f_num fd) eqn:E; [|reflexivity]. cbn [andb]. apply N.eqb_eq in E.
    destruct (ent_field fd e Hfd He E) as [Hw _]. eapply wf_val_wt_ok; eassumption.
  Qed.

  Lemma filter_matches fd : In fd desc -> filter (matches fd) (map rec_of m) = map rec_of (es fd).
  Proof. intros Hfd. unfold es. rewrite filter_map_swap. f_equal. apply filter_ext_in. intros e He. apply matches_rec; assumption. Qed.

  Lemma oneof_of_field fd : In fd desc -> oneof_of desc (f_num fd) = f_oneof fd.
  Proof. intros H. unfold oneof_of. rewrite (find_field_unique _ _ Hinc _ H). reflexivity. Qed.

  Lemma collect_es fd : In fd desc ->
    collect fd (others_of desc fd) (map rec_of m) [] = map snd (map rec_of (es fd)).
  Proof.
    intros Hfd. destruct (es fd) as [|e0 l] eqn:F.
    - apply collect_none. rewrite filter_matches by assumption. rewrite F. reflexivity.
    - rewrite collect_no_reset.
      + cbn [app]. rewrite filter_matches by assumption. rewrite F. reflexivity.
      + (* an entry of another member of fd's oneof would sit beside e0 *)
        intros r Hr. apply in_map_iff in Hr as (e & <- & He).
        destruct (existsb (fun o => matches o (rec_of e)) (others_of desc fd)) eqn:X; [|reflexivity].
        exfalso. apply existsb_exists in X as (o & Ho & Hm).
        apply others_of_iff in Ho as (Ho & Z & Hc1 & Hc2).
        rewrite matches_rec in Hm by assumption. apply N.eqb_eq in Hm.
        assert (He0 : In e0 (es fd)) by (rewrite F; left; reflexivity).
        apply es_in in He0 as [He0 Hk0].
        apply Hc2. rewrite <- Hm, <- Hk0. symmetry. apply (proj1 (oneof_ok_iff desc m) Hone e0 e He0 He).
        * rewrite Hk0, (oneof_of_field fd Hfd). exact Z.
        * rewrite Hk0, Hm, (oneof_of_field fd Hfd), (oneof_of_field o Ho). symmetry. exact Hc1.
  Qed.

  Lemma es_singular fd : In fd desc -> is_rep (f_label fd) = false ->
    es fd = [] \/ exists v, es fd = [(f_num fd, v)] /\ In (f_num fd, v) m /\
                            wf_val sc (f_kind fd) v = true /\ nonzero_ok fd v = true.
  Proof.
    intros Hfd Hr. destruct (ordered_singular desc m (f_num fd) Hord) as [E|[[k v] E]].
    - unfold rep_num. rewrite (find_field_unique _ _ Hinc _ Hfd). exact Hr.
    - left. exact E.
    - right. fold (es fd) in E.
      destruct (es_in fd (k, v)) as [He Hk]; [rewrite E; left; reflexivity|].
      destruct (ent_field fd _ Hfd He Hk) as [Hw Hn]. cbn [fst snd] in *. subst k. exists v. auto.
  Qed.

  Lemma build_msg_value fd ref sub : In (f_num fd, FMsg sub) m -> wf_msg sc ref sub = true ->
    build_msg rec fd ref [WBytes (encode sub)] = Some [(f_num fd, FMsg sub)].
  Proof.
    intros He Hw. destruct (Hnested _ _ _ He Hw) as [P R].
    unfold build_msg. cbn [parse_all w_bytes]. rewrite P, app_nil_r, R. reflexivity.
  Qed.

  Lemma each_msg_es ref num l :
    (forall e, In e l -> In e m /\ fst e = num /\ wf_val sc (KMsg ref) (snd e) = true) ->
    each_msg rec ref num (map snd (map rec_of l)) = Some l.
  Proof.
    induction l as [|e l IH]; intros H; [reflexivity|]. cbn [map each_msg].
    destruct (H e (or_introl eq_refl)) as (He & Hk & Hw).
    destruct e as [k v]. cbn [fst snd] in *. subst k.
    destruct v as [n|b|sub]; try discriminate. cbn [rec_of snd wval_of w_bytes].
    destruct (Hnested _ _ _ He Hw) as [P R]. rewrite P, R.
    rewrite IH by (intros; apply H; right; assumption). reflexivity.
  Qed.

  Lemma each_bytes_es num l : (forall e, In e l -> fst e = num /\ wf_val sc KBytes (snd e) = true) ->
    map (fun w => (num, FBytes (w_bytes w))) (map snd (map rec_of l)) = l.
  Proof.
    intros H. rewrite !map_map. rewrite <- (map_id l) at 2. apply map_ext_in. intros [k v] He.
    destruct (H _ He) as [Hk Hw]. cbn [fst snd] in Hk, Hw. subst k.
    destruct v as [n|b|sub]; try discriminate Hw. reflexivity.
  Qed.

  Lemma build_es fd : In fd desc -> build rec fd (map snd (map rec_of (es fd))) = Some (es fd).
  Proof.
    intros Hfd.
    assert (Hok : field_ok (N.of_nat (length sc)) fd = true)
      by (rewrite forallb_forall in Hfok; apply Hfok; exact Hfd).
    unfold field_ok in Hok. destruct (is_rep (f_label fd)) eqn:R.
    - rewrite build_repeated by exact R. pose proof (fun e => es_ok fd e Hfd) as Hall.
      destruct (f_label fd); try discriminate R.
      destruct (f_kind fd) as [| | |ref|]; try discriminate Hok.
      + f_equal. apply each_bytes_es. intros e He. destruct (Hall e He) as (_ & H2 & H3). auto.
      + apply each_msg_es. exact Hall.
    - rewrite build_singular by exact R.
      destruct (es_singular fd Hfd R) as [->|(v & -> & He & Hw & Hn)].
      + destruct (f_kind fd); try reflexivity. discriminate Hok.
      + cbn [map rec_of snd].
        destruct (f_kind fd) as [| | |ref|]; destruct v as [n|b|sub]; try discriminate Hw; cbn [wval_of].
        * apply build_int_value; [apply N.ltb_lt, Hw|exact Hn].
        * apply build_int_value; [apply N.ltb_lt, Hw|exact Hn].
        * apply build_bytes_value. exact Hn.
        * apply build_msg_value; assumption.
  Qed.

  Lemma overwritten_es fd : In fd desc -> overwritten_ok rec fd (others_of desc fd) (map rec_of m) = true.
  Proof.
    intros Hfd. unfold overwritten_ok. destruct (others_of desc fd); [reflexivity|].
    destruct (f_kind fd) eqn:K; try reflexivity.
    rewrite filter_matches by assumption.
    rewrite each_msg_es; [reflexivity|].
    intros e He. rewrite <- K. exact (es_ok fd e Hfd He).
  Qed.

  Lemma interp_fields_es todo : (forall fd, In fd todo -> In fd desc) ->
    interp_fields rec todo desc (map rec_of m) = Some (flat_map es todo).
  Proof.
    induction todo as [|fd t IH]; intros H; [reflexivity|]. cbn [interp_fields flat_map].
    assert (Hfd : In fd desc) by (apply H; left; reflexivity).
    rewrite overwritten_es by assumption. rewrite collect_es by assumption.
    rewrite build_es by assumption. rewrite IH by (intros; apply H; right; assumption). reflexivity.
  Qed.

  Lemma interp_fields_roundtrip : interp_fields rec desc desc (map rec_of m) = Some m.
  Proof.
    rewrite interp_fields_es by auto. f_equal. unfold es.
    assert (Hk : forall e, In e m -> exists fd, In fd desc /\ f_num fd = fst e).
    { intros e He. rewrite forallb_forall in Hent. apply Hent, entry_ok_iff in He as (fd & Hf & _).
      apply find_field_some in Hf as [H1 H2]. exists fd. auto. }
    rewrite (by_field_partition m (ordered_keys_nondec _ _ Hord) desc 0 Hinc) by (intros e He _; exact (Hk e He)).
    apply filter_all. intros e He. destruct (Hk e He) as (fd & Hfd & <-).
    apply N.ltb_lt, (nums_increasing_spec _ _ Hinc _ Hfd).
  Qed.
End Fields.

Lemma wf_val_int_small sc k n : wf_val sc k (FInt n) = true -> n < u64.
Proof.
  destruct k; cbn [wf_val]; intros H; try discriminate; apply N.ltb_lt in H; [|exact H].
  eapply N.lt_trans; [exact H|reflexivity].
Qed.

Lemma entries_small sc desc m : nums_increasing 0 desc = true -> forallb (entry_ok sc desc) m = true ->
  len (encode m) < u64 -> Forall entry_small m.
Proof.
  intros Hinc Hent Hlen. apply Forall_forall. intros [k v] He. rewrite forallb_forall in Hent.
  destruct (proj1 (entry_ok_iff _ _ _) (Hent _ He)) as (fd & Hf & Hw & _). cbn [fst snd] in *.
  apply find_field_some in Hf as [Hin <-]. pose proof (nums_increasing_spec _ _ Hinc _ Hin) as Hr.
  split; [cbn [fst]; lia|]. cbn [snd].
  destruct v as [n|b|sub]; [exact (wf_val_int_small _ _ _ Hw)| |];
    (eapply N.lt_trans; [|exact Hlen]); apply len_lt; exact (value_shorter _ _ _ He).
Qed.

(* [Hnested] of Section Fields, for every message: by induction on the fuel *)
Lemma parse_interp_encode sc : schema_ok sc = true ->
  forall fuel m id, (length (encode m) < fuel)%nat -> wf_msg sc id m = true -> len (encode m) < u64 ->
  parse (encode m) = Some (map rec_of m) /\ interp fuel sc id (map rec_of m) = Some m.
Proof.
  intros Hsc. induction fuel as [|f IH]; intros m id Hf Hwf Hlen; [lia|].
  rewrite wf_msg_eq in Hwf. destruct (nth_error sc (N.to_nat id)) as [desc|] eqn:Hn; [|discriminate].
  apply andb_prop in Hwf as [Hwf Hone]. apply andb_prop in Hwf as [Hent Hord].
  destruct (schema_ok_desc _ _ _ Hsc Hn) as [Hinc Hfok].
  split; [exact (parse_encode m (entries_small sc desc m Hinc Hent Hlen))|].
  cbn [interp]. rewrite Hn.
  apply (interp_fields_roundtrip sc desc m (interp f sc) Hinc Hfok Hent Hord Hone).
  intros k sub ref Hin Hw. pose proof (value_shorter _ _ _ Hin) as Hs. cbn [wval_of w_bytes] in Hs.
  apply IH; [clear - Hs Hf; lia|exact Hw|]. eapply N.lt_trans; [apply len_lt; exact Hs|exact Hlen].
Qed.

Theorem decode_encode sc id m : schema_ok sc = true -> wf_msg sc id m = true -> len (encode m) < u64 ->
  decode sc id (encode m) = Some m.
Proof.
  intros Hsc Hwf Hlen. unfold decode.
  destruct (parse_interp_encode sc Hsc (S (length (encode m))) m id) as [-> I]; [lia|exact Hwf|exact Hlen|exact I].
Qed.

Theorem encode_inj sc id m1 m2 : schema_ok sc = true ->
  wf_msg sc id m1 = true -> wf_msg sc id m2 = true -> len (encode m1) < u64 ->
  encode m1 = encode m2 -> m1 = m2.
Proof.
  intros Hsc H1 H2 Hl E.
  pose proof (decode_encode sc id m1 Hsc H1 Hl) as D1.
  rewrite E in D1, Hl. rewrite (decode_encode sc id m2 Hsc H2 Hl) in D1. injection D1 as ->. reflexivity.
Qed.
