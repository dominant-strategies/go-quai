(* C19 -- structural invariant of the pool model (sorted per-account lists, pending and
   queue disjoint per nonce, hash index = union of the lists) and its preservation by every
   primitive of Model/C19.v.

   The invariant is generalised by a "limbo" list R of transactions of one account that
   are in the hash index but momentarily in neither list (taken out of the queue by
   Ready and not yet promoted, invalidated by a removal and not yet re-queued ...):
   the real code passes through such states while it holds pool.mu. *)
From Coq Require Import List NArith Bool Lia.
From GQ Require Import Lib.Lists Model.C19 Proofs.C19_Lists Proofs.C19_Moves.
Import ListNotations.
Local Open Scope N_scope.

Definition in_all (t : tx) (p : pool) : Prop := In t (map fst (p_all p)).

Record InvR (a : N) (R : list tx) (p : pool) : Prop := {
  ir_pend : forall b, sorted (aget b (p_pend p)) /\ owned b (aget b (p_pend p));
  ir_queue : forall b, sorted (aget b (p_queue p)) /\ owned b (aget b (p_queue p));
  ir_disj : forall b x y, In x (aget b (p_pend p)) -> In y (aget b (p_queue p)) -> t_nonce x <> t_nonce y;
  ir_nodup : NoDup (map fst (p_all p));
  ir_all : forall t, in_all t p <-> In t (aget (t_from t) (p_pend p)) \/ In t (aget (t_from t) (p_queue p)) \/ In t R;
  ir_R_owned : forall t, In t R -> t_from t = a;
  ir_R_nodup : NoDup (map t_nonce R);
  ir_R_fresh : forall t x, In t R -> In x (aget a (p_pend p)) \/ In x (aget a (p_queue p)) -> t_nonce t <> t_nonce x
}.

Definition Inv0 (p : pool) : Prop := InvR 0 [] p.
Definition heap_ok (p : pool) : Prop := forall t, In (t, false) (p_all p) -> In t (p_heap p).

Lemma invr_nil a p : InvR a [] p <-> Inv0 p.
Proof. split; intros [H1 H2 H3 H4 H5 H6 H7 H8]; constructor; auto; try (intros ? []); try (intros ? ? []). Qed.

Lemma listed_iff p a x : Inv0 p -> (In x (aget a (p_pend p)) \/ In x (aget a (p_queue p)) <-> t_from x = a /\ in_all x p).
Proof.
  intros H0. rewrite (ir_all _ _ _ H0). cbn [In]. split.
  - intros Hx. assert (Fx : t_from x = a) by (destruct Hx as [Hx|Hx]; [apply (ir_pend _ _ _ H0 a)|apply (ir_queue _ _ _ H0 a)]; exact Hx).
    rewrite Fx. tauto.
  - intros [<- Hx]. tauto.
Qed.

Lemma all_has_in t p : all_has t p = true <-> in_all t p.
Proof.
  unfold all_has, in_all. rewrite existsb_exists, in_map_iff. split.
  - intros [e [He E]]. apply tx_eqb_eq in E. exists e. auto.
  - intros [e [E He]]. exists e. split; auto. apply tx_eqb_eq. auto.
Qed.
Lemma all_has_false t p : all_has t p = false <-> ~ in_all t p.
Proof. rewrite <- all_has_in. destruct (all_has t p); split; congruence. Qed.

Lemma indexed_where t p : Inv0 p -> all_has t p = true ->
  match l_get (t_nonce t) (aget (t_from t) (p_pend p)) with
  | Some y => y = t
  | None => In t (aget (t_from t) (p_queue p))
  end.
Proof.
  intros H0 Eh. apply all_has_in, (ir_all _ _ _ H0) in Eh. destruct (l_get _ _) as [y|] eqn:Eg.
  - apply l_get_in in Eg as [Hy Ey]. destruct Eh as [Eh|[Eh|[]]].
    + exact (sorted_nonce_inj _ _ _ (proj1 (ir_pend _ _ _ H0 _)) Hy Eh Ey).
    + destruct (ir_disj _ _ _ H0 _ y t Hy Eh Ey).
  - rewrite l_get_none in Eg. destruct Eh as [Eh|[Eh|[]]]; [destruct (Eg t Eh eq_refl)|exact Eh].
Qed.
Lemma queued_not_pending p a t : Inv0 p -> In t (aget a (p_queue p)) -> l_get (t_nonce t) (aget a (p_pend p)) = None.
Proof. intros H0 Ht. apply l_get_none. intros x Hx En. exact (ir_disj _ _ _ H0 a x t Hx Ht En). Qed.
Lemma queue_is_rest p b x : Inv0 p ->
  (In x (aget b (p_queue p)) <-> t_from x = b /\ in_all x p /\ ~ In x (aget b (p_pend p))).
Proof.
  intros H0. pose proof (listed_iff p b x H0) as L. pose proof (fun Hp Hq => ir_disj _ _ _ H0 b x x Hp Hq eq_refl) as D. tauto.
Qed.

Lemma in_all_remove x t p : in_all t (all_remove x p) <-> in_all t p /\ t <> x.
Proof.
  unfold in_all, all_remove. cbn. rewrite !in_map_iff. split.
  - intros [e [E He]]. apply filter_In in He as [He Hn]. split; [eauto|].
    intros Etx. rewrite E, Etx, tx_eqb_refl in Hn. discriminate.
  - intros [[e [E He]] Hn]. exists e. split; auto. apply filter_In. split; auto.
    destruct (tx_eqb x (fst e)) eqn:Ex; auto. apply tx_eqb_eq in Ex. congruence.
Qed.
Lemma in_all_add x loc t p : in_all t (all_add x loc p) <-> t = x \/ in_all t p.
Proof. unfold in_all, all_add. cbn. intuition. Qed.

(* computes the projections of the record updates *)
Ltac psimpl :=
  cbn [p_pend p_queue p_all p_heap p_stales p_pn p_locals p_gasprice p_st p_oos
       set_pend set_queue set_all set_priced set_pn set_locals set_gasprice set_st set_oos
       all_add all_remove pn_set heap_put reheap side set_side] in *.

(* InvR does not look at heap, stales, pn, locals, gas price, state, oos *)
Definition same_lists (p q : pool) : Prop :=
  (forall b, aget b (p_pend q) = aget b (p_pend p)) /\ (forall b, aget b (p_queue q) = aget b (p_queue p)) /\
  map fst (p_all q) = map fst (p_all p).

Lemma in_all_same p q t : same_lists p q -> (in_all t q <-> in_all t p).
Proof. intros [_ [_ E]]. unfold in_all. rewrite E. tauto. Qed.

Lemma invr_same a R p q : same_lists p q -> InvR a R p -> InvR a R q.
Proof.
  intros [E1 [E2 E3]] [H1 H2 H3 H4 H5 H6 H7 H8]. unfold in_all in *.
  constructor; unfold in_all; try (intros; rewrite ?E1, ?E2, ?E3); auto.
  - rewrite E1 in H. rewrite E2 in H0. eapply H3; eauto.
  - rewrite E1, E2 in H0. eapply H8; eauto.
Qed.

Lemma same_removed n p : same_lists p (removed n p).
Proof. destruct (removed_eq n p) as [h [s ->]]. repeat split. Qed.
Lemma same_pn_set a v p : same_lists p (pn_set a v p).
Proof. repeat split. Qed.
Lemma same_pn_set_if_lower a v p : same_lists p (pn_set_if_lower a v p).
Proof. unfold pn_set_if_lower. destruct (_ <=? _); repeat split. Qed.
Lemma same_heap_put t l p : same_lists p (heap_put t l p).
Proof. unfold heap_put. destruct l; repeat split. Qed.
Lemma same_trans p q r : same_lists p q -> same_lists q r -> same_lists p r.
Proof. intros [A1 [A2 A3]] [B1 [B2 B3]]. split; [|split]; intros; congruence. Qed.
Lemma same_remote_to_locals p : same_lists p (fst (remote_to_locals p)).
Proof. unfold remote_to_locals, same_lists. cbn [fst]. psimpl. rewrite map_map. repeat split. Qed.
Lemma same_mark_local a p : same_lists p (mark_local a p).
Proof.
  unfold mark_local. pose proof (same_remote_to_locals (set_locals (a :: p_locals p) p)) as S. destruct (remote_to_locals _) as [p'' m].
  eapply same_trans; [exact S|apply same_removed].
Qed.
Lemma same_sym p q : same_lists p q -> same_lists q p.
Proof. intros [A1 [A2 A3]]. split; [|split]; intros; congruence. Qed.
Lemma same_eq p q : p_pend q = p_pend p -> p_queue q = p_queue p -> p_all q = p_all p -> same_lists p q.
Proof. intros A B C. unfold same_lists. rewrite A, B, C. repeat split. Qed.

Lemma invr_drop_one a x R p : InvR a (x :: R) p -> InvR a R (all_remove x p).
Proof.
  intros [H1 H2 H3 H4 H5 H6 H7 H8]. constructor; psimpl; auto.
  - apply NoDup_map_filter. exact H4.
  - intros t. rewrite in_all_remove, H5. cbn [In]. split.
    + intros [[H|[H|[H|H]]] Hn]; auto. congruence.
    + assert (Hx : t_from x = a) by (apply H6; left; reflexivity).
      intros [H|[H|H]]; (split; [tauto|]); intros ->.
      * rewrite Hx in H. apply (H8 x x); cbn; auto.
      * rewrite Hx in H. apply (H8 x x); cbn; auto.
      * inversion H7 as [|? ? Hn _]; subst. apply Hn. apply in_map. exact H.
  - intros t Ht. apply H6. right; exact Ht.
  - inversion H7; auto.
  - intros t y Ht. apply H8. right; exact Ht.
Qed.

Lemma invr_fold (f : pool -> tx -> pool) a :
  (forall x R p, InvR a (x :: R) p -> InvR a R (f p x)) ->
  forall D R p, InvR a (D ++ R) p -> InvR a R (fold_left f D p).
Proof. intros Hf D R. induction D as [|x D IH]; intros p H; cbn; [exact H|]. apply IH, Hf, H. Qed.

Lemma invr_fold_all (f : pool -> tx -> pool) a :
  (forall x R p, InvR a (x :: R) p -> InvR a R (f p x)) -> forall D p, InvR a D p -> Inv0 (fold_left f D p).
Proof. intros Hf D p H. apply (invr_nil a), (invr_fold f a Hf D []). rewrite app_nil_r. exact H. Qed.

Lemma invr_drop_all a D p : InvR a D p -> Inv0 (all_remove_list D p).
Proof. apply (invr_fold_all (fun q t => all_remove t q)), invr_drop_one. Qed.

Lemma all_remove_list_eq D p : exists al, all_remove_list D p = set_all al p.
Proof.
  apply (fold_pres (fun q => exists al, q = set_all al p) (fun q t => all_remove t q)); [|exists (p_all p); destruct p; reflexivity].
  intros x q [al ->]. eexists. reflexivity.
Qed.

(* [set_queue a l p] is convertible with [swap (set_pend a l (swap p))]: a lemma about the
   pending side gives its twin about the queue side *)
Definition swap (p : pool) : pool :=
  Pool (p_queue p) (p_pend p) (p_all p) (p_heap p) (p_stales p) (p_pn p) (p_locals p) (p_gasprice p) (p_st p) (p_oos p).

Lemma invr_swap a R p : InvR a R p -> InvR a R (swap p).
Proof.
  intros [H1 H2 H3 H4 H5 H6 H7 H8]. constructor; cbn; auto.
  - intros b x y Hx Hy E. apply (H3 b y x); auto.
  - intros t. unfold in_all in *. cbn. rewrite H5. tauto.
  - intros t x Ht [Hx|Hx]; apply (H8 t x); auto.
Qed.

Definition splits (l keep out : txl) : Prop :=
  (forall x, In x l <-> In x keep \/ In x out) /\ (forall x, In x keep -> In x out -> False) /\ sorted keep /\ NoDup (map t_nonce out).

Lemma splits_filter f l : sorted l -> splits l (filter (fun x => negb (f x)) l) (filter f l).
Proof.
  intros Hs. repeat split.
  - intros Hx. destruct (f x) eqn:E; [right|left]; apply filter_In; rewrite ?E; auto.
  - intros [H|H]; apply filter_In in H; tauto.
  - intros x H1 H2. apply filter_In in H1 as [_ H1]. apply filter_In in H2 as [_ H2]. rewrite H2 in H1. discriminate.
  - apply filter_sorted; exact Hs.
  - apply sorted_nodup_nonce, filter_sorted, Hs.
Qed.
Lemma splits_filter' f l : sorted l -> splits l (filter f l) (filter (fun x => negb (f x)) l).
Proof.
  intros Hs. pose proof (splits_filter (fun x => negb (f x)) l Hs) as H.
  assert (E : filter (fun x => negb (negb (f x))) l = filter f l).
  { apply filter_ext. intros x. apply negb_involutive. }
  cbn beta in H. rewrite E in H. exact H.
Qed.
Lemma splits_app l1 l2 : sorted (l1 ++ l2) -> splits (l1 ++ l2) l2 l1 /\ splits (l1 ++ l2) l1 l2.
Proof.
  intros Hs. pose proof Hs as Hs'. apply sorted_app in Hs' as [S1 [S2 S3]].
  split.
  - split; [intros u; rewrite in_app_iff; tauto|]. split; [|split; [exact S2|apply sorted_nodup_nonce; exact S1]].
    intros u H2 H1. specialize (S3 _ _ H1 H2). lia.
  - split; [intros u; rewrite in_app_iff; tauto|]. split; [|split; [exact S1|apply sorted_nodup_nonce; exact S2]].
    intros u H1 H2. specialize (S3 _ _ H1 H2). lia.
Qed.

Lemma splits_all l : sorted l -> splits l [] l.
Proof. intros Hs. split; [intros x; cbn; tauto|]. split; [intros ? []|]. split; [exact I|apply sorted_nodup_nonce, Hs]. Qed.

Lemma splits_trans l m k o1 o2 : sorted l -> splits l m o1 -> splits m k o2 -> splits l k (o1 ++ o2).
Proof.
  intros Hs [A1 [A2 [A3 A4]]] [B1 [B2 [B3 B4]]]. split; [|split; [|split]].
  - intros x. rewrite in_app_iff, A1, B1. tauto.
  - intros x Hk Ho. apply in_app_or in Ho as [Ho|Ho]; [|exact (B2 x Hk Ho)]. apply (A2 x); [apply B1; auto|exact Ho].
  - exact B3.
  - apply nodup_nonce_app; [exact A4|exact B4|]. intros x y Hx Hy E.
    assert (Hm : In y m) by (apply B1; auto).
    assert (x = y) by (apply (sorted_nonce_inj l); auto; apply A1; auto). subst y. exact (A2 x Hm Hx).
Qed.

Lemma l_forward_splits thr l : sorted l -> splits l (snd (l_forward thr l)) (fst (l_forward thr l)).
Proof. intros Hs. apply (splits_filter (fun x => t_nonce x <? thr) l Hs). Qed.

Lemma l_filter_splits strict bal mg l rem inv kept :
  sorted l -> l_filter strict bal mg l = (rem, inv, kept) -> splits l kept (rem ++ inv).
Proof.
  intros Hs HF. destruct (l_filter_parts_of _ _ _ _ _ _ _ HF) as [Er [-> ->]]. rewrite Er at 1.
  pose proof (splits_filter (unpayable bal mg) l Hs) as S. apply (splits_trans l _ _ _ _ Hs S), splits_filter, S.
Qed.

Lemma l_remove_splits n l t : sorted l -> In t l -> t_nonce t = n -> splits l (l_remove n l) [t].
Proof.
  intros Hs Ht En. split; [|split; [|split]].
  - intros x. cbn [In]. rewrite l_remove_in. split.
    + intros Hx. destruct (N.eq_dec (t_nonce x) n) as [E|E]; [|left; auto].
      right. left. eapply sorted_nonce_inj; eauto. lia.
    + intros [[Hx _]|[<-|[]]]; assumption.
  - intros x H1 [<-|[]]. apply l_remove_in in H1. tauto.
  - apply l_remove_sorted. exact Hs.
  - cbn. constructor; [intros []|constructor].
Qed.

Lemma l_remove_strict_splits n l t : sorted l -> In t l -> t_nonce t = n ->
  splits l (snd (l_remove_strict n l)) (t :: fst (l_remove_strict n l)).
Proof.
  intros Hs Ht En. apply (splits_trans l (l_remove n l) _ [t] _ Hs (l_remove_splits n l t Hs Ht En)).
  apply splits_filter, l_remove_sorted, Hs.
Qed.

Lemma removelast_splits l x r : sorted l -> rev l = x :: r -> splits l (removelast l) [x].
Proof.
  intros Hs Er. rewrite (rev_cons_inv _ _ _ Er) in Hs |- *. rewrite removelast_last. apply splits_app. exact Hs.
Qed.

Lemma invr_to_limbo inq a p keep out :
  Inv0 p -> splits (aget a (side inq p)) keep out -> InvR a out (set_side inq a keep p).
Proof.
  assert (Pend : forall p, Inv0 p -> splits (aget a (p_pend p)) keep out -> InvR a out (set_pend a keep p)).
  { clear p. intros p [H1 H2 H3 H4 H5 _ _ _] [P1 [P2 [P3 P4]]]. constructor; psimpl; auto.
    - intros b. rewrite aget_aset. destruct (a =? b) eqn:E; [|apply H1].
      assert (b = a) by lia. subst b. split; auto. intros t Ht. apply (proj2 (H1 a)). apply P1; auto.
    - intros b x y. rewrite aget_aset. destruct (a =? b) eqn:E; [|apply H3; auto].
      assert (b = a) by lia. subst b. intros Hx Hy. apply (H3 a); auto. apply P1; auto.
    - intros t. unfold in_all in *. psimpl. rewrite H5, aget_aset. cbn [In].
      destruct (a =? t_from t) eqn:E.
      + assert (t_from t = a) by lia. rewrite H. rewrite (P1 t). tauto.
      + split; [tauto|]. intros [H|[H|H]]; auto.
        exfalso. assert (In t (aget a (p_pend p))) by (apply P1; auto).
        apply (proj2 (H1 a)) in H0. lia.
    - intros t Ht. apply (proj2 (H1 a)). apply P1; auto.
    - intros t x Ht. rewrite aget_aset_same. intros [Hx|Hx] E.
      + assert (t = x) by (apply (sorted_nonce_inj (aget a (p_pend p))); auto; [apply H1|apply P1; auto|apply P1; auto]).
        subst. eapply P2; eauto.
      + apply (H3 a t x); auto. apply P1; auto. }
  destruct inq; [|apply Pend]. intros H S. exact (invr_swap _ _ _ (Pend (swap p) (invr_swap _ _ _ H) S)).
Qed.

Lemma invr_place inq a x R p :
  InvR a (x :: R) p -> InvR a R (set_side inq a (l_put x (aget a (side inq p))) p).
Proof.
  assert (Pend : forall p, InvR a (x :: R) p -> InvR a R (set_pend a (l_put x (aget a (p_pend p))) p)).
  { clear p. intros p [H1 H2 H3 H4 H5 H6 H7 H8].
    assert (Hx : t_from x = a) by (apply H6; left; reflexivity).
    assert (Hfresh : forall y, In y (aget a (p_pend p)) -> t_nonce y <> t_nonce x).
    { intros y Hy E. apply (H8 x y); cbn; auto. }
    constructor; psimpl; auto.
    - intros b. rewrite aget_aset. destruct (a =? b) eqn:E; [|apply H1].
      assert (b = a) by lia. subst b. destruct (H1 a) as [S O]. split; [apply l_put_sorted; auto|apply l_put_owned; auto].
    - intros b u v. rewrite aget_aset. destruct (a =? b) eqn:E; [|apply H3].
      assert (b = a) by lia. subst b. intros Hu Hv. apply l_put_in in Hu as [->|[Hu _]]; [|apply (H3 a); auto|apply H1].
      apply (H8 x v); cbn; auto.
    - intros t. unfold in_all in *. psimpl. rewrite H5. rewrite aget_aset. cbn [In].
      destruct (a =? t_from t) eqn:E.
      + assert (Ht : t_from t = a) by lia. rewrite Ht. rewrite (l_put_in x _ t (proj1 (H1 a))).
        pose proof (Hfresh t). intuition congruence.
      + split; [intros [H|[H|[H|H]]]; auto; subst; lia | tauto].
    - intros t Ht. apply H6. right; exact Ht.
    - inversion H7; auto.
    - intros t y Ht. rewrite aget_aset_same. intros [Hy|Hy].
      + apply l_put_in in Hy as [->|[Hy _]]; [|apply H8; cbn; auto|apply H1].
        inversion H7 as [|? ? Hn _]; subst. intros E. apply Hn. rewrite <- E. apply in_map. exact Ht.
      + apply H8; cbn; auto. }
  destruct inq; [|apply Pend]. intros H. exact (invr_swap _ _ _ (Pend (swap p) (invr_swap _ _ _ H))).
Qed.

Lemma limbo_not_in inq a x R p : InvR a (x :: R) p -> l_get (t_nonce x) (aget a (side inq p)) = None.
Proof.
  intros H. apply l_get_none. intros y Hy E. apply (ir_R_fresh _ _ _ H x y); [left; reflexivity|destruct inq; auto|auto].
Qed.

Lemma invr_promote c a x R p : InvR a (x :: R) p -> InvR a R (promote_tx c a x p).
Proof.
  intros H. rewrite (promote_tx_fresh _ _ _ _ (limbo_not_in false _ _ _ _ H)). eapply invr_same; [apply same_pn_set|]. apply (invr_place false), H.
Qed.

Lemma requeue_eq c a x R p : InvR a (x :: R) p ->
  requeue c x p = set_queue a (l_put x (aget a (p_queue p))) p.
Proof.
  intros H. rewrite requeue_unfold, (ir_R_owned _ _ _ H x) by (left; reflexivity).
  rewrite (l_add_fresh _ _ _ (limbo_not_in true _ _ _ _ H)). reflexivity.
Qed.
Lemma invr_requeue c a x R p : InvR a (x :: R) p -> InvR a R (requeue c x p).
Proof. intros H. rewrite (requeue_eq _ _ _ _ _ H). apply (invr_place true), H. Qed.

Lemma invr_requeue_all c a D p : InvR a D p -> Inv0 (fold_left (fun s t => requeue c t s) D p).
Proof. apply (invr_fold_all (fun s t => requeue c t s)), invr_requeue. Qed.
Lemma invr_promote_all c a D p : InvR a D p -> Inv0 (fold_left (fun s t => promote_tx c a t s) D p).
Proof. apply (invr_fold_all (fun s t => promote_tx c a t s)), invr_promote. Qed.

Lemma invr_all_add a x loc p :
  Inv0 p -> ~ in_all x p -> t_from x = a ->
  (forall y, In y (aget a (p_pend p)) \/ In y (aget a (p_queue p)) -> t_nonce x <> t_nonce y) ->
  InvR a [x] (all_add x loc p).
Proof.
  intros [H1 H2 H3 H4 H5 H6 H7 H8] Hn Hx Hf. constructor; psimpl; auto.
  - constructor; auto.
  - intros t. rewrite in_all_add. unfold in_all in *. rewrite H5. cbn [In]. intuition.
  - intros t [<-|[]]; auto.
  - cbn. constructor; [intros []|constructor].
  - intros t y [<-|[]] Hy. apply Hf. exact Hy.
Qed.
