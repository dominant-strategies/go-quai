(* C17 — the key-value contract model (Model/C17.v) refines a total map key -> option val and keeps its maps
   sorted. Both are read off [writes] and [action], which say what an operation does to the store and to
   each batch. *)
From Coq Require Import List NArith Bool.
From GQ Require Import Lib.Lists Lib.Key Lib.SMap Model.C17.
Import ListNotations.

Definition fmap := key -> option val.
Definition abs (s : state) : fmap := fun k => get k (s_db s).
Definition fupd (f : fmap) (k : key) (v : option val) : fmap :=
  fun k0 => if keqb k0 k then v else f k0.
Definition fapply (f : fmap) (w : wop) : fmap :=
  match w with WPut k v => fupd f k (Some v) | WDel k => fupd f k None end.

Lemma apply_wop_sorted m w : sorted m -> sorted (apply_wop m w).
Proof. destruct w; cbn; [apply put_sorted|apply del_sorted]. Qed.

Lemma apply_ops_sorted ops m : sorted m -> sorted (apply_ops ops m).
Proof. apply fold_left_inv. intros a w _. apply apply_wop_sorted. Qed.

(* Stated for any f that agrees with m, not only for [fun k => get k m]: the induction over a list of
   writes then needs no extensionality of fapply under fold_left. *)
Lemma get_apply_wop m f w : sorted m -> (forall k, get k m = f k) ->
  forall k, get k (apply_wop m w) = fapply f w k.
Proof.
  intros S H k. destruct w; cbn; unfold fupd; rewrite <- H; [apply get_put|apply get_del, S].
Qed.

Lemma get_apply_ops ops : forall m f, sorted m -> (forall k, get k m = f k) ->
  forall k, get k (apply_ops ops m) = fold_left fapply ops f k.
Proof.
  unfold apply_ops. induction ops as [|w ops IH]; cbn; intros m f S H; [exact H|].
  apply IH; [apply apply_wop_sorted, S|apply get_apply_wop; assumption].
Qed.

Definition batch_run (x : batch) (ws : list wop) : batch := fold_left batch_apply ws x.

Definition wkey (w : wop) : key := match w with WPut k _ => k | WDel k => k end.
Definition wval (w : wop) : option val := match w with WPut _ v => Some v | WDel _ => None end.

Fixpoint last_on (k : key) (ws : list wop) (acc : option (option val)) : option (option val) :=
  match ws with
  | [] => acc
  | w :: ws' => last_on k ws' (if keqb k (wkey w) then Some (wval w) else acc)
  end.

Lemma batch_apply_ops x w : b_ops (batch_apply x w) = b_ops x ++ [w].
Proof. destruct w; reflexivity. Qed.

Lemma batch_apply_tracking x w : b_tracking (batch_apply x w) = b_tracking x.
Proof. destruct w; reflexivity. Qed.

Lemma batch_apply_pend x w : b_pend (batch_apply x w) =
  if b_tracking x then put (wkey w) (wval w) (b_pend x) else b_pend x.
Proof. destruct w; reflexivity. Qed.

Lemma batch_apply_pend_sorted x w : sorted (b_pend x) -> sorted (b_pend (batch_apply x w)).
Proof. intros S. rewrite batch_apply_pend. destruct (b_tracking x); [apply put_sorted|]; exact S. Qed.

Lemma batch_run_ops ws : forall x, b_ops (batch_run x ws) = b_ops x ++ ws.
Proof.
  unfold batch_run. induction ws as [|w ws IH]; cbn; intros x; [rewrite app_nil_r; reflexivity|].
  rewrite IH, batch_apply_ops, <- app_assoc. reflexivity.
Qed.

Lemma batch_run_tracking ws : forall x, b_tracking (batch_run x ws) = b_tracking x.
Proof.
  unfold batch_run. induction ws as [|w ws IH]; cbn; intros x; [reflexivity|].
  rewrite IH. apply batch_apply_tracking.
Qed.

Lemma batch_run_pend_sorted ws : forall x, sorted (b_pend x) -> sorted (b_pend (batch_run x ws)).
Proof.
  apply (fold_left_inv (fun x => sorted (b_pend x))). intros x w _. apply batch_apply_pend_sorted.
Qed.

Lemma batch_run_pend ws : forall x k, b_tracking x = true ->
  get k (b_pend (batch_run x ws)) = last_on k ws (get k (b_pend x)).
Proof.
  unfold batch_run. induction ws as [|w ws IH]; cbn; intros x k T; [reflexivity|].
  rewrite IH by (rewrite batch_apply_tracking; exact T).
  rewrite batch_apply_pend, T, get_put. reflexivity.
Qed.

Lemma batch_run_pend_untracked ws : forall x, b_tracking x = false ->
  b_pend (batch_run x ws) = b_pend x.
Proof.
  unfold batch_run. induction ws as [|w ws IH]; cbn; intros x T; [reflexivity|].
  rewrite IH by (rewrite batch_apply_tracking; exact T).
  rewrite batch_apply_pend, T. reflexivity.
Qed.

Lemma pending_after_apply x w : b_tracking x = true ->
  batch_get_pending (batch_apply x w) (wkey w) =
  match wval w with Some v => OPend false (Some v) | None => OPend true None end.
Proof.
  intros T. unfold batch_get_pending. rewrite batch_apply_pend, T, get_put, keqb_refl.
  destruct w; reflexivity.
Qed.

Lemma pending_off x ws k : b_tracking x = false -> b_pend x = [] ->
  batch_get_pending (batch_run x ws) k = OPend false None.
Proof.
  intros T E. unfold batch_get_pending. rewrite batch_run_pend_untracked by exact T.
  rewrite E. reflexivity.
Qed.

Lemma getb_setb_same s b x : getb (setb s b x) b = x.
Proof. destruct b; reflexivity. Qed.
Lemma getb_setb_other s b x : getb (setb s b x) (negb b) = getb s (negb b).
Proof. destruct b; reflexivity. Qed.
Lemma db_setb s b x : s_db (setb s b x) = s_db s.
Proof. destruct b; reflexivity. Qed.

Definition pends_sorted (s : state) : Prop :=
  sorted (b_pend (s_b0 s)) /\ sorted (b_pend (s_b1 s)).
Definition Inv (s : state) : Prop := sorted (s_db s) /\ pends_sorted s.

Lemma Inv_store s : Inv s -> sorted (s_db s).
Proof. intros [S _]. exact S. Qed.

Lemma Inv_getb s b : Inv s -> sorted (b_pend (getb s b)).
Proof. intros (_ & S0 & S1). destruct b; assumption. Qed.

Lemma Inv_intro s : sorted (s_db s) -> (forall c, sorted (b_pend (getb s c))) -> Inv s.
Proof. intros Sd Sb. exact (conj Sd (conj (Sb false) (Sb true))). Qed.

Definition writes (s : state) (o : op) : list wop :=
  match o with
  | DbPut k v => [WPut k v]
  | DbDel k => [WDel k]
  | BWrite b | BReplayDb b => b_ops (getb s b)
  | DbIterDuring _ _ ws => ws
  | _ => []
  end.

Inductive bact := Run (ws : list wop) | Clear (f : bool) | Forget.

Definition act (a : bact) (x : batch) : batch :=
  match a with
  | Run ws => batch_run x ws
  | Clear f => mkBatch (b_ops x) (b_size x) f []
  | Forget => empty_batch
  end.

Definition action (s : state) (o : op) (c : bool) : bact :=
  let only b a := if Bool.eqb b c then a else Run [] in
  match o with
  | BPut b k v => only b (Run [WPut k v])
  | BDel b k => only b (Run [WDel k])
  | BSetPending b f => only b (Clear f)
  | BWrite b => only b (Clear false)
  | BReset b => only b Forget
  | BReplayB b => only (negb b) (Run (b_ops (getb s b)))
  | _ => Run []
  end.

Lemma step_db s o : s_db (fst (step s o)) = apply_ops (writes s o) (s_db s).
Proof. destruct o; cbn; rewrite ?db_setb; reflexivity. Qed.

Lemma step_getb s o c : getb (fst (step s o)) c = act (action s o c) (getb s c).
Proof. destruct o; try reflexivity; destruct b, c; reflexivity. Qed.

Lemma act_pend_sorted a x : sorted (b_pend x) -> sorted (b_pend (act a x)).
Proof. destruct a; [apply batch_run_pend_sorted|intros _; exact I..]. Qed.

Lemma step_inv s o : Inv s -> Inv (fst (step s o)).
Proof.
  intros H. apply Inv_intro.
  - rewrite step_db. apply apply_ops_sorted, Inv_store, H.
  - intros c. rewrite step_getb. apply act_pend_sorted, Inv_getb, H.
Qed.

Lemma run_state_inv ops : forall s, Inv s -> Inv (run_state s ops).
Proof. apply fold_left_inv. intros s o _. apply step_inv. Qed.

Lemma abs_step s o : sorted (s_db s) ->
  forall k, abs (fst (step s o)) k = fold_left fapply (writes s o) (abs s) k.
Proof. intros Sd. unfold abs at 1. rewrite step_db. apply get_apply_ops; [exact Sd|reflexivity]. Qed.

Definition is_read (o : op) : bool :=
  match o with DbGet _ | DbHas _ | DbIter _ _ | BGetPending _ _ | BSize _ | DbCompact => true | _ => false end.

(* only Write and Replay-into-db let a batch touch the database: "all or none" *)
Definition touches_db (o : op) : bool :=
  match o with DbPut _ _ | DbDel _ | BWrite _ | BReplayDb _ | DbIterDuring _ _ _ => true | _ => false end.

Lemma oval_eqb_true a b : oval_eqb a b = true -> a = b.
Proof.
  destruct a, b; cbn; try discriminate; [|reflexivity]. intros H. apply keqb_eq in H. congruence.
Qed.

Lemma kvs_eqb_true a : forall b, kvs_eqb a b = true -> a = b.
Proof.
  induction a as [|[k v] a IH]; intros [|[k' v'] b]; cbn; try discriminate; [reflexivity|].
  intros H. apply andb_prop in H as [H H3]. apply andb_prop in H as [H1 H2].
  apply keqb_eq in H1, H2. apply IH in H3. congruence.
Qed.

Lemma out_eqb_true a b : out_eqb a b = true -> a = b.
Proof.
  destruct a, b; cbn; try discriminate; intros H.
  - reflexivity.
  - apply oval_eqb_true in H. congruence.
  - apply Bool.eqb_prop in H. congruence.
  - apply kvs_eqb_true in H. congruence.
  - apply andb_prop in H as [H1 H2]. apply Bool.eqb_prop in H1. apply oval_eqb_true in H2. congruence.
  - apply N.eqb_eq in H. congruence.
Qed.

Lemma outs_eqb_true a : forall b, outs_eqb a b = true -> a = b.
Proof.
  induction a as [|x a IH]; intros [|y b]; cbn; try discriminate; [reflexivity|].
  intros H. apply andb_prop in H as [H1 H2]. apply out_eqb_true in H1. apply IH in H2. congruence.
Qed.
