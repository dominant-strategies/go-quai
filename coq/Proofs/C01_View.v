(* C01 -- lemmas about (db, batch) views: with pending tracking a view reads exactly
   what batch.Write() would commit (v_get_commit). *)
From Coq Require Import List.
From GQ Require Import Lib.Key Lib.SMap Lib.Lists Model.C01.
Import ListNotations.

Fixpoint last_op (k : key) (ops : list wop) : option (option utxo) :=
  match ops with
  | [] => None
  | w :: r =>
      match last_op k r with
      | Some x => Some x
      | None =>
          match w with
          | WPut k' u => if keqb k k' then Some (Some u) else None
          | WDel k' => if keqb k k' then Some None else None
          end
      end
  end.

Lemma last_op_app k ops w :
  last_op k (ops ++ [w]) =
  match w with
  | WPut k' u => if keqb k k' then Some (Some u) else last_op k ops
  | WDel k' => if keqb k k' then Some None else last_op k ops
  end.
Proof.
  induction ops as [|w0 ops IH]; cbn.
  - destruct w as [k' u|k']; destruct (keqb k k'); reflexivity.
  - rewrite IH. destruct w as [k' u|k']; destruct (keqb k k'); reflexivity.
Qed.

Lemma apply_wop_sorted l w : sorted l -> sorted (apply_wop l w).
Proof. destruct w; [apply put_sorted|apply del_sorted]. Qed.

Lemma fold_apply_get k ops : forall l, sorted l ->
  get k (fold_left apply_wop ops l) =
  match last_op k ops with
  | Some None => None
  | Some (Some u) => Some u
  | None => get k l
  end.
Proof.
  induction ops as [|w ops IH]; cbn; intros l S; [reflexivity|].
  rewrite IH by exact (apply_wop_sorted l w S).
  destruct (last_op k ops) as [[u|]|]; try reflexivity.
  destruct w as [k' u|k']; cbn [apply_wop].
  - rewrite get_put. destruct (keqb k k'); reflexivity.
  - rewrite get_del by exact S. destruct (keqb k k'); reflexivity.
Qed.

(* invariant of a batch created on a database by db.NewBatch(); batch.SetPending(true) *)
Definition view_ok (v : view) : Prop :=
  sorted (v_base v) /\ v_tracks v = true /\ forall k, get k (v_pend v) = last_op k (v_ops v).

Lemma view_of_ok l : sorted l -> view_ok (view_of true l).
Proof. intros S. repeat split; auto. Qed.

Lemma commit_view_of tr l : commit (view_of tr l) = l.
Proof. reflexivity. Qed.

Lemma commit_sorted v : view_ok v -> sorted (commit v).
Proof. intros (S & _ & _). exact (fold_left_inv sorted apply_wop _ (fun l w _ => apply_wop_sorted l w) _ S). Qed.

Lemma v_get_commit v k : view_ok v -> v_get v k = get k (commit v).
Proof.
  intros (S & T & P). unfold v_get, commit. rewrite T, P, (fold_apply_get k (v_ops v) (v_base v) S).
  destruct (last_op k (v_ops v)) as [[u|]|]; reflexivity.
Qed.

Lemma commit_del v k : commit (v_del v k) = del k (commit v).
Proof. unfold commit, v_del; cbn. rewrite fold_left_app. reflexivity. Qed.

Lemma commit_put v k u : commit (v_put v k u) = put k u (commit v).
Proof. unfold commit, v_put; cbn. rewrite fold_left_app. reflexivity. Qed.

Lemma v_del_ok v k : view_ok v -> view_ok (v_del v k).
Proof.
  intros (S & T & P). repeat split; cbn; auto. intros k0. rewrite T, last_op_app, get_put, P. reflexivity.
Qed.

Lemma v_put_ok v k u : view_ok v -> view_ok (v_put v k u).
Proof.
  intros (S & T & P). repeat split; cbn; auto. intros k0. rewrite T, last_op_app, get_put, P. reflexivity.
Qed.
