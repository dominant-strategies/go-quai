(* C04 -- Cross-chain transactions are delivered and executed exactly once, in order.
   Property theorems, each followed by [Print Assumptions], and non-vacuity examples.
   Model: Model/C04.v.  Lemmas: Proofs/C04_Queue.v (queue),
   Proofs/C04_Accept.v (block acceptance), Proofs/C04_Route.v (destination filters),
   Proofs/C04_Hier.v (hand-down across region blocks), Proofs/C04_Fetch.v (recovery of a missed bundle).
   Generated data of the implementation: Generated/C04Sites.v. *)
From Coq Require Import List NArith Bool Permutation Lia ZifyBool.
From GQ Require Import Lib.Key Lib.Lists Lib.C04_BigEndian Lib.C04_Expr Model.C04
  Proofs.C04_Queue Proofs.C04_Accept Proofs.C04_Route Proofs.C04_Hier Proofs.C04_Fetch Generated.C04Sites.
Import ListNotations.
Local Open Scope N_scope.

(* index.Bytes() / SetBytes round trip: the index cells and the oldest/newest cells decode
   to what was written *)
Theorem index_encoding_roundtrip : forall n, of_be (be_min n) = n.
Proof. exact of_be_be_min. Qed.
Print Assumptions index_encoding_roundtrip.

(* two indices never share a cell *)
Theorem index_key_injective : forall a b, be_min a = be_min b -> a = b.
Proof. exact be_min_inj. Qed.
Print Assumptions index_key_injective.

(* no index cell is one of the control cells (nor any other key that starts with a zero byte) *)
Theorem index_key_never_control : forall i,
  be_min i <> newest_key /\ be_min i <> oldest_key /\ be_min i <> kquai_key /\ be_min i <> update_bit_key /\
  forall k, be_min i <> 0 :: k.
Proof.
  intros i. repeat split; try apply index_key_ne_ctl. intros k. apply be_min_not_zero_led.
Qed.
Print Assumptions index_key_never_control.

(* the keys of the model are the keys written in core/state/statedb.go today *)
Theorem control_keys_as_in_source :
  src_newestEtxKey = newest_key /\ src_oldestEtxKey = oldest_key /\
  src_kQuaiKey = kquai_key /\ src_updateBitKey = update_bit_key.
Proof. repeat split. Qed.
Print Assumptions control_keys_as_in_source.

(* every state reached from a fresh queue (positioned at any index) by any history of
   pushes, pops, reads, commits and K-Quai updates satisfies the representation invariant *)
Theorem queue_reachable_inv : forall o0 ops, wf_ops ops -> Inv (qrun_state (init_at o0) ops).
Proof. intros o0 ops W. apply qrun_state_inv; [apply init_at_inv|exact W]. Qed.
Print Assumptions queue_reachable_inv.

(* PushETXs appends, in order, and touches nothing but the new cells and the newest cell *)
Theorem queue_push_refines_fifo : forall t l, Inv t -> wf_etxs l ->
  let t' := push_etxs t l in
  Inv t' /\ get_oldest t' = get_oldest t /\ get_newest t' = get_newest t + N.of_nat (length l) /\
  abs t' = abs t ++ l /\
  (forall k, k <> newest_key -> (forall i, k <> be_min i) -> tget k t' = tget k t).
Proof.
  intros t l I W. destruct (push_etxs_rep t _ _ l (Inv_rep t I) W) as [R F].
  destruct (rep_Inv _ _ _ R) as (I' & Ho & Hn & A). cbn zeta.
  refine (conj I' (conj Ho (conj _ (conj A F)))).
  rewrite Hn, app_length, <- (abs_length t I). lia.
Qed.
Print Assumptions queue_push_refines_fifo.

(* PopETX returns the head, removes exactly it (the cell is deleted, oldest advances by one),
   and on an empty queue returns nothing and writes nothing *)
Theorem queue_pop_refines_fifo : forall t, Inv t ->
  match abs t with
  | [] => pop_etx t = (None, t)
  | e :: rest =>
      exists t', pop_etx t = (Some e, t') /\ Inv t' /\ abs t' = rest /\
        get_oldest t' = get_oldest t + 1 /\ get_newest t' = get_newest t /\
        cell t' (get_oldest t) = [] /\
        (forall k, k <> oldest_key -> k <> be_min (get_oldest t) -> tget k t' = tget k t)
  end.
Proof.
  intros t I. pose proof (Inv_rep t I) as R. pose proof (abs_length t I) as Len.
  destruct (abs t) as [|e rest].
  - apply (pop_etx_nil t _ R).
  - destruct (pop_etx_cons t _ e rest R) as (E & R' & F). destruct (rep_Inv _ _ _ R') as (I' & Ho & Hn & A).
    eexists. refine (conj E (conj I' (conj A (conj Ho (conj _ (conj _ F)))))).
    + rewrite Hn, <- Len. cbn [length]. lia.
    + apply (inv_dead _ I'). lia.
Qed.
Print Assumptions queue_pop_refines_fifo.

Theorem queue_pop_on_empty_is_none : forall t, Inv t -> abs t = [] -> pop_etx t = (None, t).
Proof. intros t I E. pose proof (queue_pop_refines_fifo t I) as P. rewrite E in P. exact P. Qed.
Print Assumptions queue_pop_on_empty_is_none.

(* ReadETX i is the (i - oldest)-th pending item, nothing outside [oldest, newest) *)
Theorem queue_read_refines : forall t i, Inv t ->
  read_etx t i =
  if (get_oldest t <=? i) && (i <? get_newest t)
  then nth_error (abs t) (N.to_nat (i - get_oldest t)) else None.
Proof.
  intros t i I. rewrite (read_etx_rep t _ _ i (Inv_rep t I)), (abs_length t I). reflexivity.
Qed.
Print Assumptions queue_read_refines.

(* exactly once, in order, for every history: what was queued or pushed = what the pops
   handed out (in that order) followed by what is still queued *)
Theorem queue_exactly_once_in_order : forall t ops, Inv t -> wf_ops ops ->
  abs t ++ pushed ops = popped t ops ++ abs (qrun_state t ops).
Proof.
  intros t ops I W. apply history_conservation; assumption.
Qed.
Print Assumptions queue_exactly_once_in_order.

Theorem queue_popped_is_prefix_of_pushed : forall o0 ops, wf_ops ops ->
  exists rest, pushed ops = popped (init_at o0) ops ++ rest /\ rest = abs (qrun_state (init_at o0) ops).
Proof.
  intros o0 ops W. eexists. split; [|reflexivity].
  rewrite <- (queue_exactly_once_in_order _ ops (init_at_inv o0) W), init_at_abs. reflexivity.
Qed.
Print Assumptions queue_popped_is_prefix_of_pushed.

(* the trie (hence its root) is a function of (oldest index, pending items, other tenants):
   two different histories with the same final content give the same trie *)
Theorem queue_content_determines_trie : forall t1 t2, Inv t1 -> Inv t2 ->
  get_oldest t1 = get_oldest t2 -> abs t1 = abs t2 ->
  (forall k, k <> oldest_key -> k <> newest_key -> (forall i, k <> be_min i) -> tget k t1 = tget k t2) ->
  t1 = t2.
Proof.
  intros t1 t2 I1 I2 Ho Ha.
  apply (rep_canonical t1 t2 (get_oldest t1) (abs t1)); [|rewrite Ho, Ha]; apply Inv_rep; assumption.
Qed.
Print Assumptions queue_content_determines_trie.

(* the K-Quai cell living in the same trie neither disturbs the queue nor is disturbed *)
Theorem queue_other_tenant_frame : forall t v, Inv t ->
  let t' := set_kquai t v in
  Inv t' /\ abs t' = abs t /\ get_oldest t' = get_oldest t /\ get_newest t' = get_newest t /\
  get_kquai t' = v.
Proof.
  intros t v I. destruct (set_kquai_rep t _ _ v (Inv_rep t I)) as [R K].
  destruct (rep_Inv _ _ _ R) as (I' & Ho & Hn & A). cbn zeta.
  refine (conj I' (conj A (conj Ho (conj _ K)))).
  rewrite Hn. apply (abs_length t I).
Qed.
Print Assumptions queue_other_tenant_frame.

(* generated obligation: Process pushes the parent's inbound set before the loop, pops,
   nil-checks and hash-compares every external transaction, then applies both guards *)
Theorem process_etx_discipline_in_source : process_etx_discipline_ok = true.
Proof. vm_compute. reflexivity. Qed.
Print Assumptions process_etx_discipline_in_source.

(* generated obligation: the two guards and the protocol constants in the source are the
   ones of the model, so for every valuation they evaluate to the model's rule functions *)
Theorem process_rules_as_modelled :
  src_count_rule = count_rule_expr /\ src_gas_rule = gas_rule_expr /\
  src_MinimumEtxGasDivisor = P_MIN_GAS_DIVISOR /\ src_MaximumEtxGasMultiplier = P_MAX_GAS_MULT /\
  src_MinEtxCount = P_MIN_COUNT /\ src_MaxEtxCount = P_MAX_COUNT /\ src_TimeToStartTx = P_TIME_TO_START_TX.
Proof. repeat split. Qed.
Print Assumptions process_rules_as_modelled.

Theorem process_rules_semantics : forall num avail count gas gl,
  beval (rule_env num count gas gl) (rule_benv avail) src_count_rule = count_rule_viol num avail count /\
  beval (rule_env num count gas gl) (rule_benv avail) src_gas_rule = gas_rule_viol num avail gas gl.
Proof.
  intros. destruct process_rules_as_modelled as (-> & -> & _).
  split; [apply count_rule_expr_sem|apply gas_rule_expr_sem].
Qed.
Print Assumptions process_rules_semantics.

(* an accepted block contains precisely the next items of (queue ++ parent's inbound set),
   unless two different ETXs have the same hash; they are consumed, the rest stays queued *)
Theorem accepted_block_takes_next_items :
  forall (H : Type) (hash : etx -> H) (heqb : H -> H -> bool),
  (forall a b, heqb a b = true <-> a = b) ->
  forall t inbound blk num gl t', Inv t -> wf_etxs inbound ->
  accept_block H hash heqb t inbound blk num gl = (VAccept, t') ->
  let Q := abs t ++ inbound in
  (length blk <= length Q)%nat /\
  (map fst blk = firstn (length blk) Q \/ collision H hash) /\
  abs t' = skipn (length blk) Q /\ Inv t'.
Proof.
  intros H hash heqb Hs t inbound blk num gl t' I W E.
  destruct (accepted_state H hash heqb Hs t inbound blk num gl t' I W E) as (L & M & A & I').
  exact (conj L (conj (map_hash_eq_or_collision H hash _ _ M) (conj A I'))).
Qed.
Print Assumptions accepted_block_takes_next_items.

(* anything else (out of order, duplicated, unknown, altered, more than queued) is refused *)
Theorem block_rejected_unless_next_items :
  forall (H : Type) (hash : etx -> H) (heqb : H -> H -> bool),
  (forall a b, heqb a b = true <-> a = b) ->
  forall t inbound blk num gl, Inv t -> wf_etxs inbound ->
  let Q := abs t ++ inbound in
  ~ ((length blk <= length Q)%nat /\ map hash (map fst blk) = map hash (firstn (length blk) Q)) ->
  fst (accept_block H hash heqb t inbound blk num gl) <> VAccept.
Proof.
  intros H hash heqb Hs t inbound blk num gl I W Q Hn Hv. apply Hn.
  apply (accept_iff H hash heqb Hs t inbound blk num gl I W) in Hv. tauto.
Qed.
Print Assumptions block_rejected_unless_next_items.

(* complete characterisation of acceptance *)
Theorem block_acceptance_characterised :
  forall (H : Type) (hash : etx -> H) (heqb : H -> H -> bool),
  (forall a b, heqb a b = true <-> a = b) ->
  forall t inbound blk num gl, Inv t -> wf_etxs inbound ->
  let Q := abs t ++ inbound in
  let avail := Nat.ltb (length blk) (length Q) in
  fst (accept_block H hash heqb t inbound blk num gl) = VAccept <->
  ((length blk <= length Q)%nat /\ map hash (map fst blk) = map hash (firstn (length blk) Q) /\
   count_rule_viol num avail (N.of_nat (length blk)) = false /\
   gas_rule_viol num avail (gas_sum blk) gl = false).
Proof. exact accept_iff. Qed.
Print Assumptions block_acceptance_characterised.

(* a block may not ignore a non-empty queue beyond the minimum-inclusion rule (nor exceed
   the maximum) *)
Theorem min_inclusion_enforced :
  forall (H : Type) (hash : etx -> H) (heqb : H -> H -> bool),
  (forall a b, heqb a b = true <-> a = b) ->
  forall t inbound blk num gl, Inv t -> wf_etxs inbound ->
  fst (accept_block H hash heqb t inbound blk num gl) = VAccept ->
  let Q := abs t ++ inbound in
  let n := N.of_nat (length blk) in
  (num <= P_TIME_TO_START_TX -> n <= P_MAX_COUNT /\ ((length blk < length Q)%nat -> P_MIN_COUNT <= n)) /\
  (P_TIME_TO_START_TX < num -> gas_sum blk <= max_etx_gas gl /\
                                ((length blk < length Q)%nat -> min_etx_gas gl <= gas_sum blk)).
Proof.
  intros H hash heqb Hs t inbound blk num gl I W Hv. cbn zeta.
  apply (block_acceptance_characterised H hash heqb Hs t inbound blk num gl I W) in Hv.
  destruct Hv as (_ & _ & R1 & R2). unfold count_rule_viol in R1. unfold gas_rule_viol in R2.
  split; intros Hn; (split; [lia|intros Hl; lia]).
Qed.
Print Assumptions min_inclusion_enforced.

Theorem accepted_block_has_no_duplicate :
  forall (H : Type) (hash : etx -> H) (heqb : H -> H -> bool),
  (forall a b, heqb a b = true <-> a = b) ->
  forall t inbound blk num gl, Inv t -> wf_etxs inbound ->
  NoDup (map hash (abs t ++ inbound)) ->
  fst (accept_block H hash heqb t inbound blk num gl) = VAccept ->
  NoDup (map hash (map fst blk)).
Proof.
  intros H hash heqb Hs t inbound blk num gl I W ND Hv.
  destruct (accept_block H hash heqb t inbound blk num gl) as [v t'] eqn:E. cbn [fst] in Hv. subst v.
  rewrite (proj2 (accepted_hashes H hash heqb Hs t inbound blk num gl t' I W E)) in ND. exact (proj1 (proj1 (NoDup_app_iff _ _) ND)).
Qed.
Print Assumptions accepted_block_has_no_duplicate.

(* over any sequence of candidate blocks on a zone chain (each accepted block becomes the head
   and carries the inbound set the dominant chain fixed for it; refused candidates leave the
   head unchanged): what was pending or delivered = what accepted blocks executed, in order,
   followed by what is still pending -- nothing lost, duplicated or reordered *)
Theorem chain_exactly_once_in_order :
  forall (H : Type) (hash : etx -> H) (heqb : H -> H -> bool),
  (forall a b, heqb a b = true <-> a = b) ->
  forall cs t inb, Inv t -> wf_etxs inb -> wf_cands cs ->
  let r := run_chain H hash heqb t inb cs in
  Inv (snd (fst r)) /\ wf_etxs (snd r) /\
  map hash (abs t ++ inb) ++ map hash (chain_delivered H hash heqb t inb cs) =
  map hash (chain_executed H hash heqb t inb cs) ++ map hash (abs (snd (fst r)) ++ snd r).
Proof.
  intros H hash heqb Hs. induction cs as [|[[[blk num] gl] next] cs IH]; intros t inb I W Wc; cbn zeta.
  - cbn. rewrite app_nil_r. auto.
  - inversion Wc as [|? ? Wn Wcs]; subst. cbn [snd] in Wn.
    cbn [run_chain chain_executed chain_delivered].
    destruct (accept_block H hash heqb t inb blk num gl) as [v t'] eqn:E.
    destruct v.
    (* a refused candidate leaves the head as it was *)
    2-5: specialize (IH t inb I W Wcs); cbn zeta in IH;
         destruct (run_chain H hash heqb t inb cs) as [[vs tf] inbf]; exact IH.
    destruct (accepted_hashes H hash heqb Hs t inb blk num gl t' I W E) as [I' S].
    specialize (IH t' next I' Wn Wcs). cbn zeta in IH.
    destruct (run_chain H hash heqb t' next cs) as [[vs tf] inbf]. cbn [fst snd] in *.
    destruct IH as (If & Wf & C). split; [exact If|split; [exact Wf|]].
    rewrite S, !map_app, <- !app_assoc. f_equal. rewrite !map_app, <- !app_assoc in C. exact C.
Qed.
Print Assumptions chain_exactly_once_in_order.

Theorem chain_executes_nothing_twice :
  forall (H : Type) (hash : etx -> H) (heqb : H -> H -> bool),
  (forall a b, heqb a b = true <-> a = b) ->
  forall cs t inb, Inv t -> wf_etxs inb -> wf_cands cs ->
  NoDup (map hash (abs t ++ inb) ++ map hash (chain_delivered H hash heqb t inb cs)) ->
  NoDup (map hash (chain_executed H hash heqb t inb cs)).
Proof.
  intros H hash heqb Hs cs t inb I W Wc ND.
  destruct (chain_exactly_once_in_order H hash heqb Hs cs t inb I W Wc) as (_ & _ & C).
  rewrite C in ND. exact (proj1 (proj1 (NoDup_app_iff _ _) ND)).
Qed.
Print Assumptions chain_executes_nothing_twice.

(* generated obligation: ValidateState refuses a block whose header ETX-set root is not the
   root of the queue trie after processing (the queue content is committed by the header) *)
Theorem etx_root_committed_in_source : etx_root_committed_ok = true.
Proof. vm_compute. reflexivity. Qed.
Print Assumptions etx_root_committed_in_source.

Theorem routing_codes_as_in_source :
  src_CoinbaseType = ETX_COINBASE /\ src_ConversionType = ETX_CONVERSION /\
  src_PRIME_CTX = PRIME_CTX /\ src_REGION_CTX = REGION_CTX /\ src_ZONE_CTX = ZONE_CTX.
Proof. repeat split. Qed.
Print Assumptions routing_codes_as_in_source.

(* prime: of the W regions exactly the destination's region takes the ETX (none if the
   address names a region outside the hierarchy), whatever the ETX type and block order *)
Theorem route_prime_partition : forall W order p ty z,
  count (fun r => filter_to_sub [r; z] PRIME_CTX order (p, ty)) (nseq 0 W) =
  if p / 16 <? N.of_nat W then 1%nat else 0%nat.
Proof.
  intros W order p ty z.
  rewrite (count_ext _ _ (fun r => p / 16 =? r)) by (intros r; apply filter_prime_spec).
  apply count_eq_nseq0.
Qed.
Print Assumptions route_prime_partition.

(* region r: of its Z zones exactly the destination zone takes the ETX; coinbase and
   conversion ETXs only when the block is coincident with prime *)
Theorem route_region_partition : forall r Z order p ty,
  count (fun z => filter_to_sub [r; z] REGION_CTX order (p, ty)) (nseq 0 Z) =
  if (p / 16 =? r) && (p mod 16 <? N.of_nat Z) && ((order =? PRIME_CTX) || standard_ty ty)
  then 1%nat else 0%nat.
Proof.
  intros r Z order p ty. set (g := (order =? PRIME_CTX) || standard_ty ty).
  rewrite (count_ext _ _ (fun z => ((p / 16 =? r) && g) && (p mod 16 =? z))).
  - destruct (p / 16 =? r), g; cbn [andb]; rewrite ?andb_true_r, ?andb_false_r, ?count_false; try reflexivity.
    apply count_eq_nseq0.
  - intros z. rewrite filter_region_pair. fold g.
    destruct (p / 16 =? r), (p mod 16 =? z), g; reflexivity.
Qed.
Print Assumptions route_region_partition.

(* through prime and region an ETX reaches its destination zone and no other *)
Theorem route_to_destination_zone_only : forall p ty r z,
  filter_to_sub [r; z] PRIME_CTX PRIME_CTX (p, ty) && filter_to_sub [r; z] REGION_CTX PRIME_CTX (p, ty) = true
  <-> (r = p / 16 /\ z = p mod 16).
Proof.
  intros p ty r z. rewrite filter_prime_spec, filter_region_pair.
  cbn [N.eqb PRIME_CTX orb]. rewrite andb_true_r. split.
  - intros H. apply andb_prop in H as [_ H]. apply andb_prop in H as [H1 H2].
    apply N.eqb_eq in H1, H2. auto.
  - intros [-> ->]. rewrite !N.eqb_refl. reflexivity.
Qed.
Print Assumptions route_to_destination_zone_only.

Theorem route_selected_is_destination : forall slice order p ty,
  (filter_to_sub slice REGION_CTX order (p, ty) = true -> slice = loc_of_prefix p) /\
  (filter_to_sub slice PRIME_CTX order (p, ty) = true -> nth_error slice 0 = Some (p / 16)) /\
  (forall ctx, ctx <> PRIME_CTX -> ctx <> REGION_CTX -> filter_to_sub slice ctx order (p, ty) = false).
Proof.
  intros. split; [apply filter_region_sound|split; [apply filter_prime_sound|]].
  intros ctx H0 H1. apply filter_zone_nothing; assumption.
Qed.
Print Assumptions route_selected_is_destination.

Theorem filter_to_location_exact : forall l p ty,
  filter_to_location l (p, ty) = true <-> l = loc_of_prefix p.
Proof. intros l p ty. apply keqb_eq. Qed.
Print Assumptions filter_to_location_exact.

Theorem destination_of_address_byte : forall p q,
  (p < 256 -> p / 16 < 16 /\ p mod 16 < 16) /\ (loc_of_prefix p = loc_of_prefix q -> p = q).
Proof.
  intros p q. split.
  - intros H. split; [apply N.div_lt_upper_bound; lia|apply N.mod_lt; discriminate].
  - unfold loc_of_prefix. intros H. inversion H as [[H1 H2]].
    rewrite (N.div_mod p 16), (N.div_mod q 16), H1, H2 by discriminate. reflexivity.
Qed.
Print Assumptions destination_of_address_byte.

(* CollectSubRollup (region): the concatenation, in manifest order, of what the zone blocks of the
   manifest emitted; an error as soon as the region lacks the pending ETXs of one of them *)
Theorem sub_rollup_is_manifest_concat : forall w m,
  (forall ls, Forall2 (fun h l => lookup_pending w h = Some l) m ls -> sub_rollup w m = Some (concat ls)) /\
  (forall h, In h m -> lookup_pending w h = None -> sub_rollup w m = None).
Proof. intros w m. split; [apply sub_rollup_concat | apply sub_rollup_missing]. Qed.
Print Assumptions sub_rollup_is_manifest_concat.

(* CollectNewlyConfirmedEtxs on a tree-shaped store that holds every pending-ETX bundle the chain
   refers to: the backward walk over the store (on fuel = number of stored blocks) never runs out of
   fuel, never fails, and returns the block's own rollup followed by the contributions of its
   ancestors, nearest first, up to the stopping block -- for every queried order, in a region node
   (ctx = REGION_CTX) and in the prime node (ctx = PRIME_CTX) *)
Theorem collect_newly_confirmed_computes_chain : forall w ctx b anc border,
  anc_chain w b anc -> complete w (b :: anc) -> NoDup anc ->
  newly_confirmed w ctx b border
  = ROk (sel ctx (rb_loc b) border (roll_of w b) ++ collect_list w ctx (rb_loc b) border anc).
Proof. exact newly_confirmed_refines. Qed.
Print Assumptions collect_newly_confirmed_computes_chain.

(* missing pending ETXs of the block itself are reported as an error, never skipped *)
Theorem collect_reports_incomplete_store : forall w ctx b border,
  sub_rollup w (rb_manifest b) = None -> newly_confirmed w ctx b border = RErrPending.
Proof. intros w ctx b border H. unfold newly_confirmed. rewrite H. reflexivity. Qed.
Print Assumptions collect_reports_incomplete_store.

(* nothing is handed to another zone: whatever block b hands down (at prime or at region order)
   is addressed to the zone that produced b *)
Theorem handed_down_only_to_destination : forall w b anc e,
  In e (handed_list w REGION_CTX b anc) -> loc_of_prefix (fst (retx_tx e)) = rb_loc b.
Proof.
  intros w b anc e. unfold handed_list. destruct (rb_order b <? REGION_CTX); intro H.
  - apply (sel_region_dest _ _ _ _ H).
  - apply in_app_iff in H. destruct H as [H|H].
    + apply (sel_region_dest _ _ _ _ H).
    + apply (collect_list_dest _ _ _ _ _ H).
Qed.
Print Assumptions handed_down_only_to_destination.

(* DELIVERED EXACTLY ONCE.  For every chain c (newest first) of region R stored in a tree-shaped,
   complete store, in which zone Z is active: (1) for every block of the chain the real entry point
   computes the list-level hand-down; (2) it goes to the producing zone only; (3)+(4) counted with
   multiplicity, what has been handed to zone Z along the chain plus what is still pending for Z is
   exactly what the chain owes Z -- the standard ETXs for Z in the sub rollups of its blocks and every
   ETX for Z that prime handed down with its prime-order blocks: nothing lost, nothing twice, nothing
   invented; (5) if the owed ETXs are distinct, so are the delivered ones.
   (Coinbase and conversion ETXs of sub rollups, and ETXs leaving the region, are owed to nobody here:
   they go up to prime, see region_or_prime_exclusive.) *)
Theorem delivered_exactly_once : forall w R Z c,
  in_region R Z -> Forall (wf_block R Z) c -> chain_in_store w c -> complete w c -> NoDup c ->
  (forall pre b anc, c = pre ++ b :: anc -> handed_down w REGION_CTX b = ROk (handed_list w REGION_CTX b anc))
  /\ (forall b anc e, In e (handed_list w REGION_CTX b anc) -> loc_of_prefix (fst (retx_tx e)) = rb_loc b)
  /\ Permutation (delivered w Z c ++ pending_for w Z c) (owed w Z c)
  /\ (forall e, (cnt e (delivered w Z c) + cnt e (pending_for w Z c) = cnt e (owed w Z c))%nat)
  /\ (NoDup (owed w Z c) -> NoDup (delivered w Z c ++ pending_for w Z c)).
Proof.
  intros w R Z c HZ Hwf Hch Hcomp Hnd.
  pose proof (region_conservation_count w R Z HZ c Hwf) as Hc. destruct (count_conservation _ _ _ Hc) as [P ND].
  split; [intros pre b anc ->; apply (chain_handed_down w REGION_CTX pre); assumption|].
  split; [apply handed_down_only_to_destination|].
  split; [exact P|split; [exact Hc|exact ND]].
Qed.
Print Assumptions delivered_exactly_once.

(* a region-order block of zone Z leaves nothing pending for Z ... *)
Theorem region_block_of_destination_clears_pending : forall w R Z b anc,
  in_region R Z -> wf_block R Z b -> rb_loc b = Z -> rb_order b = REGION_CTX ->
  pending_for w Z (b :: anc) = [].
Proof.
  intros w R Z b anc _ _ Hl Ho. apply delivery_point_clears; [|exact Ho]. rewrite Hl. apply same_sub_refl.
Qed.
Print Assumptions region_block_of_destination_clears_pending.

(* ... because it is the delivery point: whatever an earlier block p of the chain contributes for
   the zone of b (the roll-down of p's prime inbound set unless p handed it down itself, and the
   standard ETXs of p's sub rollup) is handed down by b when no block between them (p included) is a
   region-order block of that zone -- in particular a PRIME-order block of the same zone in between
   does not end the walk *)
Theorem first_region_block_of_destination_delivers : forall w R b mid p rest,
  in_region R (rb_loc b) -> rb_order b = REGION_CTX ->
  Forall (wf_block R (rb_loc b)) (mid ++ [p]) -> Forall (not_region_block_of (rb_loc b)) (mid ++ [p]) ->
  incl (contrib w REGION_CTX (rb_loc b) REGION_CTX p) (handed_list w REGION_CTX b (mid ++ p :: rest)).
Proof.
  intros w R b mid p rest HZ Ho Hwf Hn e He. rewrite (handed_list_own w _ b _ Ho). apply in_or_app. right.
  replace (mid ++ p :: rest) with ((mid ++ [p]) ++ rest) by (rewrite <- app_assoc; reflexivity).
  rewrite collect_list_app, flat_map_app.
  - apply in_or_app. left. apply in_or_app. right. cbn [flat_map]. rewrite app_nil_r. exact He.
  - apply Forall_forall. intros x Hx. rewrite Forall_forall in Hwf, Hn.
    rewrite (walk_stops_wf R _ x HZ (Hwf x Hx)). exact (Hn x Hx).
Qed.
Print Assumptions first_region_block_of_destination_delivers.

(* DELIVERED EXACTLY ONCE, prime node.  For every chain c (newest first) of prime blocks stored in a
   tree-shaped, complete store in which the region named by Z and the slices of the blocks are active:
   the real entry point computes the list-level hand-down for every block; counted with multiplicity,
   what prime blocks of that region have handed to it plus what is still pending for it is exactly what
   the rollups referred to by the chain hold for that region (ETXs of every type) *)
Theorem prime_delivered_exactly_once : forall w Z c,
  wf_chain_p Z c -> chain_in_store w c -> complete w c -> NoDup c ->
  (forall pre b anc, c = pre ++ b :: anc -> handed_down w PRIME_CTX b = ROk (handed_list w PRIME_CTX b anc))
  /\ Permutation (delivered_p w Z c ++ pending_for_p w Z c) (owed_p w Z c)
  /\ (forall e, (cnt e (delivered_p w Z c) + cnt e (pending_for_p w Z c) = cnt e (owed_p w Z c))%nat)
  /\ (NoDup (owed_p w Z c) -> NoDup (delivered_p w Z c ++ pending_for_p w Z c)).
Proof.
  intros w Z c Hwf Hch Hcomp Hnd.
  pose proof (prime_conservation_count w Z c Hwf) as Hc. destruct (count_conservation _ _ _ Hc) as [P ND].
  split; [intros pre b anc ->; apply (chain_handed_down w PRIME_CTX pre); assumption|].
  split; [exact P|split; [exact Hc|exact ND]].
Qed.
Print Assumptions prime_delivered_exactly_once.

(* the delivery point in prime: a prime block of the region leaves nothing pending for the region *)
Theorem prime_block_of_region_clears_pending : forall w Z b anc,
  rb_order b = PRIME_CTX -> not_active (rb_exp b) Z = false -> same_sub PRIME_CTX (rb_loc b) Z = true ->
  pending_for_p w Z (b :: anc) = [].
Proof. intros w Z b anc Ho _ Hs. apply delivery_point_clears; assumption. Qed.
Print Assumptions prime_block_of_region_clears_pending.

(* one route only: an ETX of a sub rollup addressed to a zone of this region is selected by that
   zone's region-order filter exactly when it is not sent up to prime; an ETX leaving the region
   is sent up and selected by no zone of the region at any order *)
Theorem region_or_prime_exclusive : forall R e,
  (fst (retx_tx e) / 16 = R ->
   filter_to_sub (loc_of_prefix (fst (retx_tx e))) REGION_CTX REGION_CTX (retx_tx e) = negb (goes_to_prime R e)) /\
  (fst (retx_tx e) / 16 <> R ->
   goes_to_prime R e = true /\ forall z order, filter_to_sub [R; z] REGION_CTX order (retx_tx e) = false).
Proof.
  intros R [[i p] ty]. unfold goes_to_prime, retx_tx. cbn [fst snd]. split; intro HR.
  - rewrite filter_region_spec, keqb_refl, HR, N.eqb_refl. unfold standard_ty.
    destruct (ty =? ETX_COINBASE), (ty =? ETX_CONVERSION); reflexivity.
  - apply N.eqb_neq in HR. rewrite HR. split; [reflexivity|]. intros z order.
    rewrite filter_region_pair, HR. reflexivity.
Qed.
Print Assumptions region_or_prime_exclusive.

(* FINDING (known, monitor route-region:rollup-for-dom:unfiltered): the clause "what the region gives prime
   for a block is the rollup its header commits to" is REFUTED for the retry path
   GetPendingEtxsRollupFromSub: the answer is the unfiltered sub rollup.  Full statement:
     forall w R b, rollup_for_dom w b = committed_rollup w R b.
   Witness: block r2 of the example chain (its zone block emitted two intra-region ETXs and one leaving). *)
Theorem rollup_for_dom_refuted : exists w R b, rollup_for_dom w b <> committed_rollup w R b.
Proof. exists ex_world, 0, (ex_b 12). vm_compute. discriminate. Qed.
Print Assumptions rollup_for_dom_refuted.
(* strongest true statement: the answer is accepted exactly when nothing of the rollup stays inside the region *)
Theorem rollup_for_dom_partial : forall w R b roll,
  sub_rollup w (rb_manifest b) = Some roll -> forallb (goes_to_prime R) roll = true ->
  rollup_for_dom w b = committed_rollup w R b.
Proof.
  intros w R b roll H Hall. unfold rollup_for_dom, committed_rollup. rewrite H. cbn [option_map]. f_equal.
  symmetry. apply filter_all, forallb_forall, Hall.
Qed.
Print Assumptions rollup_for_dom_partial.

(* generated obligation: the statements of Slice.Append (outside its prime-only branches) that touch
   the ETX set handed to the subordinate chain, or the rollup sent up to prime, are exactly the ones
   handed_down / goes_to_prime were written against (guards and order included) *)
Theorem append_glue_as_modelled : src_append_glue = append_glue_model.
Proof. reflexivity. Qed.
Print Assumptions append_glue_as_modelled.

(* HYPOTHESIS of everything in (d): sub_rollup reads the node's store and nothing else.  Here it is a
   theorem about the code as modelled with its recovery path (retry gate, question to the subordinate,
   validated add): for EVERY answer of the subordinate, the result of a collection -- in the very call in
   which the subordinate is asked too -- is the result of the pure walk over the store the node had when
   the call began; a call that does not fail with "pending ETXs not found" changes nothing; one that does
   changes the state by one gate step for a bundle the store does not hold.  (The statement the seeded
   change C04_4 breaks: there the fetched bundle is used at once.) *)
Theorem collect_reads_only_the_store : forall cm T answers st ctx b border,
  snd (newly_confirmed_f cm T answers st ctx b border) = newly_confirmed (fs_world st) ctx b border
  /\ (newly_confirmed (fs_world st) ctx b border <> RErrPending ->
      fst (newly_confirmed_f cm T answers st ctx b border) = st)
  /\ (newly_confirmed (fs_world st) ctx b border = RErrPending ->
      exists key h, lookup_pending (fs_world st) h = None
                    /\ fst (newly_confirmed_f cm T answers st ctx b border) = fetch cm T answers st key h).
Proof.
  intros. destruct (newly_confirmed_f_answer cm T answers st ctx b border) as [r Hr|key h Hn]; cbn [fst snd].
  - split; [reflexivity|split; [reflexivity|contradiction]].
  - split; [reflexivity|split; [contradiction|]]. intros _. exists key, h. auto.
Qed.
Print Assumptions collect_reads_only_the_store.

Theorem collect_answer_independent_of_subordinate : forall cm T answers1 answers2 st ctx b border,
  snd (newly_confirmed_f cm T answers1 st ctx b border) = snd (newly_confirmed_f cm T answers2 st ctx b border).
Proof.
  intros. rewrite (reads_store_answer _ _ (newly_confirmed_f_answer cm T answers1 st ctx b border)),
    (reads_store_answer _ _ (newly_confirmed_f_answer cm T answers2 st ctx b border)). reflexivity.
Qed.
Print Assumptions collect_answer_independent_of_subordinate.

(* the same for the bare CollectSubRollup: Some answer = concatenation of stored bundles, state untouched *)
Theorem sub_rollup_with_fetch_reads_only_the_store : forall cm T answers st key m acc r,
  sub_rollup (fs_world st) m = Some r -> sub_rollup_f cm T answers st key m acc = (st, Some (acc ++ r)).
Proof.
  intros cm T answers st key m acc r H. pose proof (sub_rollup_f_spec cm T answers st key m acc) as S.
  rewrite H in S. exact S.
Qed.
Print Assumptions sub_rollup_with_fetch_reads_only_the_store.

Theorem sub_rollup_with_fetch_failure : forall cm T answers st key m acc,
  sub_rollup (fs_world st) m = None ->
  exists h, In h m /\ lookup_pending (fs_world st) h = None
            /\ sub_rollup_f cm T answers st key m acc = (fetch cm T answers st key h, None).
Proof.
  intros cm T answers st key m acc H. pose proof (sub_rollup_f_spec cm T answers st key m acc) as S.
  rewrite H in S. exact S.
Qed.
Print Assumptions sub_rollup_with_fetch_failure.

(* for any history of calls, the subordinate answering anything and differently each time: the store
   holds only bundles that pass the commitment check of their header, and no known entry ever changes
   (so what was delivered on the strength of an entry stays delivered exactly once) *)
Theorem recovery_keeps_store_validated : forall cm T ctx rs st,
  store_validated cm (fs_world st) ->
  store_validated cm (fs_world (fst (run_rounds cm T ctx st rs)))
  /\ store_extends (fs_world st) (fs_world (fst (run_rounds cm T ctx st rs))).
Proof. intros cm T ctx rs st Hv. destruct (run_rounds_safe cm T ctx rs st) as [E V]. auto. Qed.
Print Assumptions recovery_keeps_store_validated.

(* content committed by the header: on a validated store a sub rollup is, name by name, what the headers
   of the manifest commit to; two nodes agree on it whatever each of them was sent *)
Theorem validated_sub_rollup_is_committed_content : forall cm w, store_validated cm w -> forall m l,
  sub_rollup w m = Some l -> (forall h, In h m -> is_genesis w h = false) ->
  map retx_id l = concat (map (committed_of cm) m).
Proof.
  intros cm w Hv. induction m as [|h m IH]; intros l H Hg; cbn in *.
  - injection H as <-. reflexivity.
  - destruct (lookup_pending w h) as [x|] eqn:E; [|discriminate].
    destruct (sub_rollup w m) as [r|]; [|discriminate]. injection H as <-.
    rewrite map_app, (IH r eq_refl), (validated_entry_is_committed cm w h x Hv E) by auto. reflexivity.
Qed.
Print Assumptions validated_sub_rollup_is_committed_content.

Theorem validated_nodes_agree : forall cm w1 w2 m l1 l2, store_validated cm w1 -> store_validated cm w2 ->
  sub_rollup w1 m = Some l1 -> sub_rollup w2 m = Some l2 ->
  (forall h, In h m -> is_genesis w1 h = false /\ is_genesis w2 h = false) ->
  map retx_id l1 = map retx_id l2.
Proof.
  intros cm w1 w2 m l1 l2 V1 V2 H1 H2 Hg.
  rewrite (validated_sub_rollup_is_committed_content cm w1 V1 m l1 H1),
    (validated_sub_rollup_is_committed_content cm w2 V2 m l2 H2); [reflexivity| |]; intros h Hin; apply (Hg h Hin).
Qed.
Print Assumptions validated_nodes_agree.

(* recovery works: once the retry counter of the block reached the threshold, a valid answer for a
   missing entry is stored (and the next collection finds it) *)
Theorem valid_answer_is_stored : forall cm T (answers : list (N * bundle)) st key h l r,
  assoc (fs_retries st) key = Some r -> T <= r -> assoc answers h = Some (h, l) ->
  bundle_valid cm (fs_world st) (h, l) = true -> lookup_pending (fs_world st) h = None ->
  lookup_pending (fs_world (fetch cm T answers st key h)) h = Some l.
Proof.
  intros cm T answers st key h l r Hr Hle Ha V E. unfold fetch.
  rewrite Hr, (proj2 (N.ltb_ge r T) Hle), Ha. apply add_validated_stores; assumption.
Qed.
Print Assumptions valid_answer_is_stored.

(* a history crossing the 255/256 key-length boundary, with a pop on empty in it *)
Example queue_nonvacuous :
  qrun (init_at 254)
    [QPop; QPush [[1]; [2]; [3]]; QNewest; QRead 256; QPop; QPop; QSetK 7; QPush1 [4]; QPop; QPop; QPop; QOldest; QGetK]
  = [OEtx None; OUnit; ONum 257; OEtx (Some [3]); OEtx (Some [1]); OEtx (Some [2]); OUnit; OUnit;
     OEtx (Some [3]); OEtx (Some [4]); OEtx None; ONum 258; ONum 7].
Proof. vm_compute. reflexivity. Qed.

Example queue_inv_nonvacuous : Inv ex_t /\ abs ex_t = [[1]; [2]; [3]] /\ get_oldest ex_t = 254 /\ get_newest ex_t = 257.
Proof.
  split; [|vm_compute; repeat split].
  apply (rep_Inv _ 254 [[1]; [2]; [3]]), (push_etxs_rep _ _ [] _ (init_at_rep 254)).
  repeat constructor; discriminate.
Qed.

(* acceptance: next items accepted; permuted, duplicated, unknown, too many refused;
   below the minimum count with a non-empty remainder refused, with an empty one accepted *)
Example accept_nonvacuous :
  fst (accept_block_id (init_at 0) (map (fun i => be_min (i + 1)) (nseq 0 60))
         (map (fun i => (be_min (i + 1), 21000)) (nseq 0 50)) 10 5000000) = VAccept /\
  fst (accept_block_id ex_t [[4]] [([1], 21000); ([2], 21000); ([3], 21000); ([4], 21000)] 10 5000000) = VAccept /\
  fst (accept_block_id ex_t [[4]] [([2], 21000); ([1], 21000)] 10 5000000) = VHashMismatch /\
  fst (accept_block_id ex_t [[4]] [([1], 21000); ([1], 21000)] 10 5000000) = VHashMismatch /\
  fst (accept_block_id ex_t [] [([1], 21000); ([2], 21000); ([3], 21000); ([9], 21000)] 10 5000000) = VPopNil /\
  fst (accept_block_id ex_t [[4]] [([1], 21000)] 10 5000000) = VCountRule /\
  fst (accept_block_id ex_t [[4]] [([1], 21000)] 300000 5000000) = VGasRule /\
  fst (accept_block_id ex_t [[4]] [([1], 1000000)] 300000 5000000) = VAccept /\
  fst (accept_block_id ex_t [[4]] [([1], 2000001)] 300000 5000000) = VGasRule.
Proof. vm_compute. repeat split. Qed.

Example chain_nonvacuous :
  let cs := [([([1], 1000000)], 300000, 5000000, [[4]; [5]]);          (* takes [1] of [1;2;3]: accepted *)
             ([([3], 1000000)], 300001, 5000000, [[9]]);                 (* out of order: refused *)
             ([([2], 500000); ([3], 500000)], 300001, 5000000, [[6]]);   (* accepted *)
             ([([4], 1000000); ([5], 1000000)], 300002, 5000000, [])] in (* accepted, [6] stays pending *)
  let '(vs, tf, inbf) := run_chain_id (init_at 255) [[1]; [2]; [3]] cs in
  map verdict_code vs = [0; 2; 0; 0] /\ abs tf = [[6]] /\ inbf = [] /\ get_oldest tf = 260 /\
  chain_executed (list N) (fun e => e) keqb (init_at 255) [[1]; [2]; [3]] cs = [[1]; [2]; [3]; [4]; [5]].
Proof. vm_compute. repeat split. Qed.

Example route_nonvacuous :
  map (filter_to_sub [1; 2] PRIME_CTX REGION_CTX) [(18, 0); (2, 0); (33, 1)] = [true; false; false] /\
  map (filter_to_sub [1; 2] REGION_CTX PRIME_CTX) [(18, 0); (18, 1); (18, 2); (17, 0)] = [true; true; true; false] /\
  map (filter_to_sub [1; 2] REGION_CTX REGION_CTX) [(18, 0); (18, 1); (18, 2); (18, 3)] = [true; false; false; true] /\
  map (filter_to_sub [1; 2] ZONE_CTX PRIME_CTX) [(18, 0)] = [false].
Proof. vm_compute. repeat split. Qed.

(* the shape of the seeded change C04_2: zone 1's region block r1, zone 0's r2 (its zone block emitted
   ETX 1 -> zone 1), zone 1's PRIME-order r3 (prime hands down 7 -> zone 1 and the conversion 8 -> zone 2),
   zone 2's r4, zone 1's r5.  r3 hands down only what prime sent for zone 1; r5 walks back through r3
   and delivers ETX 1; the conversion 8 is rolled down to zone 2 by r4; x = ETX 3 (to region 1) and
   nothing else is handed down; the hypotheses of delivered_exactly_once hold for this chain *)
Example hier_nonvacuous :
  map (fun h => rres_code (handed_down ex_world REGION_CTX (ex_b h))) [11; 12; 13; 14; 15]
  = [(0, []); (0, []); (0, [7]); (0, [8; 2]); (0, [5; 1])] /\
  map retx_id (owed ex_world [0;1] ex_chain) = [1; 7; 5] /\
  map retx_id (delivered ex_world [0;1] ex_chain) = [7; 5; 1] /\
  pending_for ex_world [0;1] ex_chain = [] /\
  map retx_id (pending_for ex_world [0;2] ex_chain) = [6] /\
  (in_region 0 [0;1] /\ Forall (wf_block 0 [0;1]) ex_chain /\ chain_in_store ex_world ex_chain
   /\ complete ex_world ex_chain /\ NoDup ex_chain).
Proof.
  repeat (split; [vm_compute; reflexivity|]).
  split; [exists 1; reflexivity|]. split; [|split; [|split]].
  - repeat (apply Forall_cons || apply Forall_nil);
      (split; [eexists; reflexivity|split; [|intros _; reflexivity]]).
    all: first [left; reflexivity|right; reflexivity].
  - repeat split; try reflexivity. eexists. reflexivity.
  - repeat constructor; vm_compute; discriminate.
  - apply (NoDup_map_inv rb_hash). repeat constructor; cbn; intuition discriminate.
Qed.

(* prime node: p1 (slice [0;0]) refers to region block 201 whose rollup holds 1 -> region 1, 2 -> region 0
   (a coinbase); p2 (slice [1;0]); p3 (slice [0;1]): p1 hands [2] to region 0, p2 hands [1;3] to region 1,
   p3 hands [4] to region 0; ETX 5 -> region 2 stays pending *)
Example prime_nonvacuous :
  let w := mkRW [1] [mkRB 1 0 [] 0 0 [] []; mkRB 11 1 [0;0] 0 4 [201] []; mkRB 12 11 [1;0] 0 4 [202] [];
                     mkRB 13 12 [0;1] 0 4 [203] []]
                [(201, [(1,16,0); (2,1,1)]); (202, [(3,17,2); (4,2,0)]); (203, [(5,32,0)])] in
  let b h := match lookup_block w h with Some x => x | None => mkRB 0 0 [] 0 0 [] [] end in
  let c := map b [13; 12; 11] in
  map (fun h => rres_code (handed_down w PRIME_CTX (b h))) [11; 12; 13] = [(0, [2]); (0, [3; 1]); (0, [4])] /\
  map retx_id (delivered_p w [0;0] c) = [2; 4] /\ map retx_id (owed_p w [0;0] c) = [2; 4] /\
  map retx_id (pending_for_p w [2;0] c) = [5] /\
  wf_chain_p [0;0] c /\ chain_in_store w c /\ complete w c /\ NoDup c.
Proof.
  intros w b c. repeat (split; [vm_compute; reflexivity|]).
  split; [split|split; [|split]].
  - repeat constructor; reflexivity.
  - intros x y [<-|[<-|[<-|[]]]] [<-|[<-|[<-|[]]]]; reflexivity.
  - repeat split; try reflexivity. eexists. reflexivity.
  - repeat constructor; vm_compute; discriminate.
  - apply (NoDup_map_inv rb_hash). repeat constructor; cbn; intuition discriminate.
Qed.

(* the scenario of the seeded change C04_4 in the prime node: prime block 11 (slice [0;1]) refers to region
   block 201, whose header commits to ETX 2 (to region 1) only; prime never received that rollup.  The
   region answers with its whole sub rollup [1 (zone [0;0] -> zone [0;1], intra-region); 2]: refused, the
   collection of block 11 fails in all 30 rounds and nothing is stored.  With the valid answer [2] the
   first eleven rounds count, the twelfth asks and stores, the thirteenth succeeds -- and hands NOTHING to
   region 0 (ETX 2 is for region 1; ETX 1 never reaches prime). *)
Example recovery_nonvacuous :
  let cm := [(201, [2])] in
  let st0 := mkFS (mkRW [1] [mkRB 1 0 [] 0 0 [] []; mkRB 11 1 [0;1] 0 4 [201] []] [(1, [])]) [] in
  let unfiltered := [(201, (201, [(1,1,0); (2,16,0)]))] in
  let valid := [(201, (201, [(2,16,0)]))] in
  let run a n := run_rounds cm 10 PRIME_CTX st0 (repeat (a, (11, 0)) n) in
  store_validated cm (fs_world st0) /\
  snd (run unfiltered 30%nat) = repeat (2, []) 30 /\ lookup_pending (fs_world (fst (run unfiltered 30%nat))) 201 = None /\
  snd (run valid 13%nat) = repeat (2, []) 12 ++ [(0, [])] /\
  lookup_pending (fs_world (fst (run valid 12%nat))) 201 = Some [(2,16,0)] /\
  lookup_pending (fs_world (fst (run valid 11%nat))) 201 = None.
Proof.
  intros cm st0 unfiltered valid run. split; [|vm_compute; repeat split].
  intros h l H. unfold lookup_pending in H. cbn [st0 rw_pending fs_world find fst] in H.
  destruct (1 =? h) eqn:E; cbn in H; [|discriminate].
  apply N.eqb_eq in E. subst h. injection H as <-. vm_compute. reflexivity.
Qed.
