(* C09 — lemmas about the fixed-point binary logarithm (mathutil.BinaryLog as used by common.LogBig /
   IntrinsicLogEntropy): bounds, monotonicity, exactness at powers of two, positivity of the
   entropy of an accepted seal. *)
From Coq Require Import ZArith Lia.
From GQ Require Import Generated.C09Params Model.C09.
Local Open Scope Z_scope.

Lemma pow2_gt0 k : 0 <= k -> 0 < 2 ^ k.
Proof. intros Hk. apply Z.pow_pos_nonneg; lia. Qed.
Lemma pow2_pos k : 0 < 2 ^ k \/ k < 0.
Proof. destruct (Z_lt_le_dec k 0) as [Hk|Hk]; [right; exact Hk|left; apply pow2_gt0; exact Hk]. Qed.

Definition step_y (mb x : Z) : Z := (x * x + 2 ^ (mb - 1)) / 2 ^ mb.

Lemma blog_step_spec mb x : 1 <= mb ->
  blog_step mb x = if 2 ^ (mb + 1) <=? step_y mb x then (true, (step_y mb x + 1) / 2) else (false, step_y mb x).
Proof.
  intros Hmb. unfold blog_step, step_y.
  rewrite !Z.shiftl_1_l, !Z.shiftr_div_pow2 by lia. reflexivity.
Qed.

Lemma step_y_nonneg mb x : 1 <= mb -> 0 <= step_y mb x.
Proof.
  intros Hmb. apply Z.div_pos; [|apply pow2_gt0; lia].
  pose proof (Z.square_nonneg x). pose proof (pow2_gt0 (mb - 1)). lia.
Qed.

Lemma step_y_above_one mb x : 1 <= mb -> 2 ^ mb <= x ->
  2 ^ mb <= step_y mb x /\ (2 ^ mb < x -> 2 ^ mb < step_y mb x).
Proof.
  intros Hmb Hx. assert (0 < 2 ^ mb) by (apply pow2_gt0; lia). assert (0 < 2 ^ (mb - 1)) by (apply pow2_gt0; lia).
  unfold step_y. split; [|intros Hlt; apply Z.le_succ_l]; apply Z.div_le_lower_bound; nia.
Qed.

(* a larger argument yields a lexicographically larger (bit, next state) *)
Lemma blog_step_mono mb x x' : 1 <= mb -> 0 <= x <= x' ->
  (fst (blog_step mb x) = false /\ fst (blog_step mb x') = true) \/
  (fst (blog_step mb x) = fst (blog_step mb x') /\ 0 <= snd (blog_step mb x) <= snd (blog_step mb x')).
Proof.
  intros Hmb Hx. rewrite !blog_step_spec by exact Hmb.
  pose proof (step_y_nonneg mb x Hmb) as Hn.
  assert (Hy : step_y mb x <= step_y mb x').
  { apply Z.div_le_mono; [apply pow2_gt0; lia|]. pose proof (Z.square_le_mono_nonneg x x'). lia. }
  destruct (2 ^ (mb + 1) <=? step_y mb x) eqn:E1; destruct (2 ^ (mb + 1) <=? step_y mb x') eqn:E2; cbn [fst snd].
  - right. split; [reflexivity|]. split; [apply Z.div_pos; lia|apply Z.div_le_mono; lia].
  - apply Z.leb_le in E1. apply Z.leb_gt in E2. lia.
  - left. split; reflexivity.
  - right. split; [reflexivity|split; [exact Hn|exact Hy]].
Qed.

Lemma blog_mant_S mb k x m :
  blog_mant mb (S k) x m = blog_mant mb k (snd (blog_step mb x)) (2 * m + Z.b2z (fst (blog_step mb x))).
Proof. cbn [blog_mant]. destruct (blog_step mb x) as [b x']. reflexivity. Qed.

Lemma blog_mant_bounds mb k : forall x m,
  m * 2 ^ Z.of_nat k <= blog_mant mb k x m < (m + 1) * 2 ^ Z.of_nat k.
Proof.
  induction k as [|k IH]; intros x m.
  - cbn [blog_mant]. change (2 ^ Z.of_nat 0) with 1. lia.
  - rewrite blog_mant_S. rewrite Nat2Z.inj_succ, Z.pow_succ_r by lia.
    set (b := Z.b2z (fst (blog_step mb x))).
    assert (Hb : 0 <= b <= 1) by (subst b; destruct (fst (blog_step mb x)); cbn; lia).
    specialize (IH (snd (blog_step mb x)) (2 * m + b)).
    assert (Hp : 0 < 2 ^ Z.of_nat k) by (apply pow2_gt0; lia). nia.
Qed.

Lemma blog_mant_mono mb k : 1 <= mb -> forall x x' m m', 0 <= x <= x' -> m <= m' ->
  blog_mant mb k x m <= blog_mant mb k x' m'.
Proof.
  intros Hmb. induction k as [|k IH]; intros x x' m m' Hx Hm.
  - cbn [blog_mant]. lia.
  - rewrite !blog_mant_S.
    destruct (blog_step_mono mb x x' Hmb Hx) as [[E1 E2]|[E1 E2]].
    + rewrite E1, E2. cbn [Z.b2z].
      pose proof (blog_mant_bounds mb k (snd (blog_step mb x)) (2 * m + 0)) as B1.
      pose proof (blog_mant_bounds mb k (snd (blog_step mb x')) (2 * m' + 1)) as B2.
      assert (Hp : 0 < 2 ^ Z.of_nat k) by (apply pow2_gt0; lia). nia.
    + rewrite E1. apply IH; [exact E2|].
      destruct (fst (blog_step mb x')); cbn [Z.b2z]; lia.
Qed.

Lemma round_exact a K : 1 <= K -> (a * 2 ^ K + 2 ^ (K - 1)) / 2 ^ K = a.
Proof.
  intros HK. assert (0 < 2 ^ (K - 1) < 2 ^ K) by (split; [apply pow2_gt0; lia|apply Z.pow_lt_mono_r; lia]).
  symmetry. apply Z.div_unique with (r := 2 ^ (K - 1)); lia.
Qed.

(* n / 2^fb rounded half-up to mb fractional bits, scaled by 2^mb *)
Definition round_to (mb n fb : Z) : Z :=
  if fb <=? mb then n * 2 ^ (mb - fb) else (n + 2 ^ (fb - mb - 1)) / 2 ^ (fb - mb).

(* the same over any denominator 2^K that is fine enough: no case distinction on fb <= mb *)
Lemma round_to_scaled mb n fb K : 0 <= fb <= mb + K -> 1 <= K ->
  round_to mb n fb = (n * 2 ^ (mb + K - fb) + 2 ^ (K - 1)) / 2 ^ K.
Proof.
  intros Hfb HK. unfold round_to. destruct (Z.leb_spec fb mb).
  - replace (mb + K - fb) with (mb - fb + K) by lia. rewrite Z.pow_add_r, Z.mul_assoc, round_exact by lia. reflexivity.
  - replace (2 ^ (K - 1)) with (2 ^ (fb - mb - 1) * 2 ^ (mb + K - fb)) by (rewrite <- Z.pow_add_r by lia; f_equal; lia).
    replace (2 ^ K) with (2 ^ (fb - mb) * 2 ^ (mb + K - fb)) by (rewrite <- Z.pow_add_r by lia; f_equal; lia).
    rewrite <- Z.mul_add_distr_r. pose proof (pow2_gt0 (fb - mb)). pose proof (pow2_gt0 (mb + K - fb)).
    rewrite Z.div_mul_cancel_r by lia. reflexivity.
Qed.

Lemma blog_init_spec mb n : blog_init mb n = round_to mb n (Z.log2 n).
Proof.
  unfold blog_init, round_to. cbv zeta.
  destruct (Z.leb_spec (Z.log2 n) mb).
  - rewrite Z.shiftl_mul_pow2 by lia. reflexivity.
  - rewrite Z.shiftl_1_l, Z.shiftr_div_pow2 by lia. reflexivity.
Qed.

Lemma blog_init_mono mb n n' : n <= n' -> Z.log2 n = Z.log2 n' ->
  blog_init mb n <= blog_init mb n'.
Proof.
  intros Hn Hl. rewrite !blog_init_spec, <- Hl. pose proof (Z.log2_nonneg n).
  set (K := Z.max 1 (Z.log2 n - mb)). rewrite !(round_to_scaled mb _ _ K) by lia.
  apply Z.div_le_mono; [apply pow2_gt0; lia|]. pose proof (pow2_gt0 (mb + K - Z.log2 n)). nia.
Qed.

Lemma blog_init_pow2 mb k : 1 <= mb -> 0 <= k -> blog_init mb (2 ^ k) = 2 ^ mb.
Proof.
  intros Hmb Hk. rewrite blog_init_spec, Z.log2_pow2 by lia.
  set (K := Z.max 1 (k - mb)). rewrite (round_to_scaled mb _ _ K) by lia.
  rewrite <- Z.pow_add_r by lia. replace (k + (mb + K - k)) with (mb + K) by lia. rewrite Z.pow_add_r by lia.
  apply round_exact. lia.
Qed.

Lemma blog_init_ge_one mb n : 1 <= mb -> 0 < n -> 2 ^ mb <= blog_init mb n.
Proof.
  intros Hmb Hn. pose proof (Z.log2_spec n Hn) as [L _]. pose proof (Z.log2_nonneg n).
  rewrite <- (blog_init_pow2 mb (Z.log2 n)) by assumption.
  apply blog_init_mono; [exact L|apply Z.log2_pow2; assumption].
Qed.

Lemma step_y_at_one mb : 1 <= mb -> step_y mb (2 ^ mb) = 2 ^ mb.
Proof.
  intros Hmb. unfold step_y. apply round_exact. exact Hmb.
Qed.

Lemma blog_step_at_one mb : 1 <= mb -> blog_step mb (2 ^ mb) = (false, 2 ^ mb).
Proof.
  intros Hmb. rewrite blog_step_spec by exact Hmb. rewrite (step_y_at_one mb Hmb).
  assert (2 ^ mb < 2 ^ (mb + 1)) by (apply Z.pow_lt_mono_r; lia).
  destruct (2 ^ (mb + 1) <=? 2 ^ mb) eqn:E; [apply Z.leb_le in E; lia|reflexivity].
Qed.

Lemma blog_mant_at_one mb k : 1 <= mb -> blog_mant mb k (2 ^ mb) 0 = 0.
Proof.
  intros Hmb. induction k as [|k IH]; [reflexivity|].
  rewrite blog_mant_S, blog_step_at_one by exact Hmb. cbn [fst snd Z.b2z]. exact IH.
Qed.

(* the pair BinaryLog returns, read as one fixed-point number: the characteristic, then mb bits of mantissa *)
Definition blog_value (n mb : Z) : Z := Z.log2 n * 2 ^ mb + blog_mant mb (Z.to_nat mb) (blog_init mb n) 0.

Lemma blog_value_bounds n mb : 1 <= mb ->
  Z.log2 n * 2 ^ mb <= blog_value n mb < (Z.log2 n + 1) * 2 ^ mb.
Proof.
  intros Hmb. unfold blog_value.
  pose proof (blog_mant_bounds mb (Z.to_nat mb) (blog_init mb n) 0) as B.
  rewrite Z2Nat.id in B by lia. lia.
Qed.

Lemma blog_value_nonneg n mb : 1 <= mb -> 0 <= blog_value n mb.
Proof.
  intros Hmb. pose proof (blog_value_bounds n mb Hmb) as [B _].
  pose proof (Z.log2_nonneg n). pose proof (pow2_gt0 mb). nia.
Qed.

Lemma blog_value_mono n n' mb : 1 <= mb -> 0 < n <= n' -> blog_value n mb <= blog_value n' mb.
Proof.
  intros Hmb Hn.
  assert (Hl : Z.log2 n <= Z.log2 n') by (apply Z.log2_le_mono; lia).
  destruct (Z.eq_dec (Z.log2 n) (Z.log2 n')) as [E|NE].
  - unfold blog_value. rewrite E.
    apply Z.add_le_mono_l.
    apply blog_mant_mono; [exact Hmb| |lia].
    split; [|apply blog_init_mono; [lia|exact E]].
    pose proof (blog_init_ge_one mb n Hmb ltac:(lia)). pose proof (pow2_gt0 mb). lia.
  - pose proof (blog_value_bounds n mb Hmb) as B1. pose proof (blog_value_bounds n' mb Hmb) as B2.
    assert (Hp : 0 < 2 ^ mb) by (apply pow2_gt0; lia). nia.
Qed.

Lemma blog_value_pow2 mb k : 1 <= mb -> 0 <= k -> blog_value (2 ^ k) mb = k * 2 ^ mb.
Proof.
  intros Hmb Hk. unfold blog_value.
  rewrite Z.log2_pow2 by lia. rewrite blog_init_pow2 by assumption.
  rewrite blog_mant_at_one by exact Hmb. lia.
Qed.

Lemma mant_bits_ge1 : 1 <= mant_bits.
Proof. vm_compute. discriminate. Qed.

Lemma log_big_value n : log_big n = blog_value n mant_bits.
Proof. reflexivity. Qed.
Lemma bits_to_bigbits_value n : bits_to_bigbits n = blog_value n 64.
Proof. reflexivity. Qed.

Lemma log_big_mono x y : 0 < x <= y -> log_big x <= log_big y.
Proof. intros H. rewrite !log_big_value. apply blog_value_mono; [exact mant_bits_ge1|exact H]. Qed.

Lemma log_big_bounds x : Z.log2 x * 2 ^ mant_bits <= log_big x < (Z.log2 x + 1) * 2 ^ mant_bits.
Proof. rewrite log_big_value. apply blog_value_bounds. exact mant_bits_ge1. Qed.

Lemma log_big_lower_bound x : 2 <= x -> 2 ^ mant_bits <= log_big x.
Proof.
  intros Hx. pose proof (log_big_bounds x) as [B _].
  assert (1 <= Z.log2 x) by (change 1 with (Z.log2 2); apply Z.log2_le_mono; lia).
  assert (0 < 2 ^ mant_bits) by (apply pow2_gt0; pose proof mant_bits_ge1; lia). nia.
Qed.

Lemma log_big_nonneg x : 0 <= log_big x.
Proof. rewrite log_big_value. apply blog_value_nonneg. exact mant_bits_ge1. Qed.

Lemma bits_to_bigbits_mono x y : 0 < x <= y -> bits_to_bigbits x <= bits_to_bigbits y.
Proof. intros H. rewrite !bits_to_bigbits_value. apply blog_value_mono; [lia|exact H]. Qed.

Lemma bits_to_bigbits_nonneg x : 0 <= bits_to_bigbits x.
Proof. rewrite bits_to_bigbits_value. apply blog_value_nonneg. lia. Qed.

Lemma big2e256_pos : 0 < big2e256.
Proof. vm_compute. reflexivity. Qed.

Lemma div_le_swap b x y : 0 < x -> 0 < y -> x <= b / y -> y <= b / x.
Proof.
  intros Hx Hy Hle. apply Z.div_le_lower_bound; [exact Hx|].
  pose proof (Z.mul_div_le b y Hy). nia.
Qed.

(* hash <= 2^256 / d: the seal meets the target of difficulty d; 2 ^ mant_bits is one bit of entropy *)
Lemma intrinsic_entropy_ge_log_difficulty hash d :
  0 < hash -> 0 < d -> hash <= big2e256 / d -> log_big d <= intrinsic_entropy hash.
Proof.
  intros Hh Hd Hle. apply log_big_mono. split; [exact Hd|apply div_le_swap; assumption].
Qed.

Lemma intrinsic_entropy_lower_bound hash d :
  0 < hash -> 2 <= d -> hash <= big2e256 / d -> 2 ^ mant_bits <= intrinsic_entropy hash.
Proof.
  intros Hh Hd Hle. transitivity (log_big d); [apply log_big_lower_bound; exact Hd|].
  apply intrinsic_entropy_ge_log_difficulty; [exact Hh|lia|exact Hle].
Qed.
