(* C16 — Every address has one zone and one ledger, respected by all state.
   Property theorems, each followed by [Print Assumptions].
   Model: Model/C16.v  Lemmas: Proofs/C16.v, Proofs/C16_Sender.v, Proofs/C16_QiTx.v  Generated data: Generated/C16Sites.v
   [bytes_to_address] is the model of the CURRENT common.BytesToAddress (Model.C16.fix_applied = true: F10 is
   repaired in the tree; the three *_refuted theorems about F10 speak about [bytes_to_address_gen false] explicitly,
   the other three *_refuted theorems are about the running model). *)
From Coq Require Import List NArith Bool Lia.
From GQ Require Import Lib.Key Lib.Lists Model.C16 Generated.C16Sites Proofs.C16 Proofs.C16_Sender Proofs.C16_QiTx.
Import ListNotations.
Local Open Scope N_scope.

(* Every 20-byte string belongs to exactly one of the 16 x 16 zones (first byte = region<<4 | zone)
   and to exactly one ledger (BytePrefix is injective on the zones and Location() is its inverse:
   quotient and remainder by 16). *)
Theorem zone_ledger_partition : forall a, wf20 a ->
  valid_zone (location_of a) /\ in_zone a (location_of a) = true
  /\ (forall l, valid_zone l -> in_zone a l = true -> l = location_of a)
  /\ ((is_qi a = true /\ is_quai a = false) \/ (is_qi a = false /\ is_quai a = true)).
Proof.
  intros a [Hw Hl]. destruct (zone_of_address a (wf_nth a 0 Hw)) as [H1 H2].
  exact (conj H1 (conj H2 (conj (zone_unique a) (ledger_partition a)))).
Qed.
Print Assumptions zone_ledger_partition.

(* the ledger is the high bit of the second byte *)
Theorem ledger_is_high_bit_of_second_byte : forall a, wf_bytes a ->
  is_qi a = N.testbit (second a) 7 /\ is_quai a = negb (is_qi a).
Proof.
  intros a Hw. split; [exact (high_bit (second a) (wf_nth a 1 Hw))|].
  rewrite ledger_negb, negb_involutive. reflexivity.
Qed.
Print Assumptions ledger_is_high_bit_of_second_byte.

(* IsInChainScope on 20 bytes = "zone context and first byte = BytePrefix(location)":
   the zero-address clause adds nothing *)
Theorem in_scope_iff_prefix : forall b l, length b = 20%nat ->
  (in_chain_scope b l = true <-> (context l = ZONE_CTX /\ nth 0 b 0 = byte_prefix l)).
Proof.
  intros b l Hb. rewrite (in_scope_20 b l Hb). unfold in_zone. rewrite andb_true_iff, !N.eqb_eq. tauto.
Qed.
Print Assumptions in_scope_iff_prefix.

Theorem non_zone_location_nothing_in_scope : forall b l,
  (context l =? ZONE_CTX) = false -> in_chain_scope b l = false.
Proof. intros b l H. unfold in_chain_scope. rewrite H. reflexivity. Qed.
Print Assumptions non_zone_location_nothing_in_scope.

(* every constructor always yields exactly 20 bytes, whatever the input length *)
Theorem addresses_are_20_bytes : forall b l,
  length (res_bytes (bytes_to_address b l)) = 20%nat /\ bytes_to_address b l <> Err.
Proof.
  intros b l. unfold bytes_to_address. split; [rewrite bta_bytes; apply to20_length|apply bta_not_err].
Qed.
Print Assumptions addresses_are_20_bytes.

(* For every node location, every location-taking constructor applied to an encoding of the same
   20 bytes (raw, [20]byte, 0x-hex, bare hex, proto Value, wire to/etx_sender, sql Scan, mixed-case
   string, last 20 bytes of a 32-byte digest = pubkey / CREATE / CREATE2 derivation) gives the same
   class, namely Internal iff the address is in the zone. *)
Theorem constructors_agree : forall a l (p : bytes), wf20 a -> length p = 12%nat ->
  let r := (if in_zone a l then Internal a else External a) in
  bytes_to_address a l = r /\ bytes20_to_address a l = r
  /\ hex_to_address (hex0x a) l = r /\ hex_to_address (hex_encode a) l = r
  /\ proto_decode (Some a) l = r /\ wire_to_address a l = r /\ scan a l = r
  /\ mixedcase_from_string (hex0x a) l = r /\ digest_to_address (p ++ a) l = r
  /\ hex_to_address_bytes (hex0x a) = a /\ res_bytes r = a.
Proof.
  intros a l p [Hw Hl] Hp r.
  assert (Hb : bytes_to_address a l = r) by (apply bta_cur_20, Hl).
  repeat split; try exact Hb.
  - unfold hex_to_address. rewrite (from_hex_0x a Hw). exact Hb.
  - unfold hex_to_address. rewrite (from_hex_encode a Hw). exact Hb.
  - unfold scan. rewrite Hl. exact Hb.
  - unfold mixedcase_from_string. rewrite (is_hex_address_0x a (conj Hw Hl)), (from_hex_0x a Hw). exact Hb.
  - unfold digest_to_address. rewrite <- Hp, skipn_app_length. exact Hb.
  - unfold hex_to_address_bytes. rewrite (from_hex_0x a Hw). apply to20_id, Hl.
  - apply classify_bytes.
Qed.
Print Assumptions constructors_agree.

(* the whole classification table: 65536 (first, second byte) prefixes x 256 zone locations,
   plus prime and the region locations, any 18-byte tail *)
Theorem classification_table : forall b0 b1 (tail : bytes) r z,
  b0 < 256 -> b1 < 256 -> length tail = 18%nat -> r < 16 -> z < 16 ->
  let a := b0 :: b1 :: tail in
  (bytes_to_address a [r; z] = Internal a <-> b0 = r * 16 + z)
  /\ (bytes_to_address a [r; z] = External a <-> b0 <> r * 16 + z)
  /\ bytes_to_address a [] = External a /\ bytes_to_address a [r] = External a
  /\ (is_qi a = true <-> 128 <= b1) /\ (is_quai a = true <-> b1 < 128).
Proof.
  intros b0 b1 tail r z H0 H1 Ht Hr Hz a.
  assert (Hl : length a = 20%nat) by (unfold a; cbn [length]; rewrite Ht; reflexivity).
  rewrite !(bta_cur_20 a _ Hl). unfold classify. rewrite (in_zone_prefix a r z Hr Hz).
  change (nth 0 a 0) with b0. change (in_zone a []) with false. change (in_zone a [r]) with false.
  unfold is_qi, is_quai, second. change (nth 1 a 0) with b1. rewrite N.ltb_lt, N.leb_le.
  destruct (N.eqb_spec b0 (r * 16 + z)) as [E|E];
    repeat split; intros; try congruence; try discriminate; try lia; auto.
Qed.
Print Assumptions classification_table.

(* The decoders that take no location (RLP, text, JSON) classify against zone (0,0), whatever
   zone the node runs; MixedcaseAddress JSON against prime (always external).
   Full statement (refuted below): decode_rlp a = bytes_to_address a l for every node location l. *)
Theorem locationless_decoders_agree_partial : forall a, wf20 a ->
  let r := (if in_zone a [0; 0] then Internal a else External a) in
  decode_rlp a = r /\ unmarshal_text (hex0x a) = r /\ unmarshal_json (quote (hex0x a)) = r
  /\ mixedcase_unmarshal_json (quote (hex0x a)) = External a.
Proof.
  intros a Hw r. pose proof (bta_cur_20 a [0; 0] (proj2 Hw)) as Hb. repeat split.
  - exact Hb.
  - unfold unmarshal_text. rewrite (unmarshal_fixed_text_0x a Hw). exact Hb.
  - unfold unmarshal_json. rewrite is_string_quote, unquote_quote, (unmarshal_fixed_text_0x a Hw). exact Hb.
  - unfold mixedcase_unmarshal_json. rewrite is_string_quote, unquote_quote, (unmarshal_fixed_text_0x a Hw).
    exact (bta_cur_20 a [] (proj2 Hw)).
Qed.
Print Assumptions locationless_decoders_agree_partial.

Theorem locationless_decoders_agree_refuted :
  exists a l, wf20 a /\ valid_zone l /\
    bytes_to_address a l = Internal a /\ decode_rlp a = External a
    /\ unmarshal_text (hex0x a) = External a /\ unmarshal_json (quote (hex0x a)) = External a.
Proof.
  exists zone10_address, [1; 0]. split; [exact zone10_wf20|]. split.
  - exists 1, 0. repeat split; lia.
  - destruct (locationless_decoders_agree_partial _ zone10_wf20) as (H1 & H2 & H3 & _).
    rewrite H1, H2, H3, (bta_cur_20 _ _ (proj2 zone10_wf20)). vm_compute. auto.
Qed.
Print Assumptions locationless_decoders_agree_refuted.

(* BigToAddress drops leading zero bytes before classifying: agrees unless the address starts with 00 *)
Theorem big_to_address_agrees_partial : forall a l, wf20 a -> nth 0 a 0 <> 0 ->
  big_to_address a l = (if in_zone a l then Internal a else External a).
Proof.
  intros a l [_ Hl] Hn. unfold big_to_address. rewrite (strip_zeros_nonzero a Hn). apply bta_cur_20, Hl.
Qed.
Print Assumptions big_to_address_agrees_partial.

(* Internal a  ==>  a is in the node's zone.
   Full statement: forall b l a, bytes_to_address b l = Internal a -> in_zone a l = true.
   REFUTED for the code before the repair (finding F10, the *_refuted theorems below); here under the
   guard length b = 20, which needs no repair.  Without the guard: internal_implies_in_zone_full_when_fixed. *)
Theorem internal_implies_in_zone_partial : forall b l a, length b = 20%nat ->
  (bytes_to_address b l = Internal a -> a = b /\ in_zone a l = true)
  /\ (bytes_to_address b l = External a -> a = b /\ in_zone a l = false).
Proof.
  intros b l a Hb. rewrite (bta_cur_20 b l Hb). split; [apply classify_internal|apply classify_external].
Qed.
Print Assumptions internal_implies_in_zone_partial.

(* The three theorems below are about the UNREPAIRED BytesToAddress (bytes_to_address_gen false, the code before
   fix commit 0cf8b5d8): kept as the record of why finding F10 mattered. *)
Theorem internal_implies_in_zone_refuted :
  (exists b a, length b = 21%nat /\ bytes_to_address_gen false b [0; 0] = Internal a
               /\ in_zone a [0; 0] = false /\ in_zone a [1; 0] = true)
  /\ (exists b a, length b = 19%nat /\ bytes_to_address_gen false b [1; 0] = Internal a
               /\ in_zone a [1; 0] = false /\ in_zone a [0; 0] = true).
Proof.
  split.
  - exists f10_crop_input, (16 :: repeat 7 19). exact (conj eq_refl f10_crop).
  - exists f10_pad_input, (0 :: 16 :: repeat 7 18). exact (conj eq_refl f10_pad).
Qed.
Print Assumptions internal_implies_in_zone_refuted.

Theorem in_zone_implies_internal_refuted :
  exists b a, length b = 21%nat /\ bytes_to_address_gen false b [0; 0] = External a /\ in_zone a [0; 0] = true.
Proof. exists f10_ext_input, (0 :: repeat 7 19). exact (conj eq_refl f10_ext). Qed.
Print Assumptions in_zone_implies_internal_refuted.

Theorem big_to_address_agrees_refuted :
  exists a, wf20 a /\ bytes_to_address_gen false (strip_zeros a) [0; 0] = External a /\ bytes_to_address_gen false a [0; 0] = Internal a.
Proof.
  exists (0 :: 5 :: repeat 7 18). split; [split; [unfold wf_bytes; repeat constructor|reflexivity]|].
  vm_compute. auto.
Qed.
Print Assumptions big_to_address_agrees_refuted.

(* The repaired constructor (design/C16.fix.diff: classify the 20 stored bytes) satisfies the full
   statement for inputs of EVERY length. *)
Theorem internal_iff_in_zone_after_fix : forall b l,
  bytes_to_address_gen true b l = (if in_zone (to20 b) l then Internal (to20 b) else External (to20 b)).
Proof. exact bta_fixed_spec. Qed.
Print Assumptions internal_iff_in_zone_after_fix.

(* ... and the model of the running code inherits it when the switch is on
   (it is: instantiate the premise with eq_refl) *)
Theorem internal_implies_in_zone_full_when_fixed : fix_applied = true -> forall b l a,
  (bytes_to_address b l = Internal a -> a = to20 b /\ in_zone a l = true)
  /\ (bytes_to_address b l = External a -> a = to20 b /\ in_zone a l = false).
Proof.
  intros Hf b l a. unfold bytes_to_address. rewrite Hf, bta_fixed_spec.
  split; [apply classify_internal|apply classify_external].
Qed.
Print Assumptions internal_implies_in_zone_full_when_fixed.

(* Scope / ledger predicates agree with the class of the constructors *)
Theorem predicates_agree_with_class : forall a l, wf20 a -> valid_zone l ->
  (check_internal_qi a l = true <-> (exists x, bytes_to_address a l = Internal x) /\ is_qi a = true)
  /\ (is_conversion_output a l = true <-> (exists x, bytes_to_address a l = Internal x) /\ is_quai a = true)
  /\ (contains_address l a = true <-> exists x, bytes_to_address a l = Internal x)
  /\ (create_object_guard a l = true <-> (exists x, bytes_to_address a l = Internal x) /\ is_quai a = true).
Proof.
  intros a l Hw Hv. pose proof (proj2 Hw) as Hl. rewrite (bta_cur_20 a l Hl), classify_is_internal.
  rewrite check_internal_qi_spec, Hl, (create_object_guard_spec a l Hl), contains_address_in_zone,
    (is_conversion_output_spec a l Hw Hv).
  rewrite !andb_true_iff. tauto.
Qed.
Print Assumptions predicates_agree_with_class.

(* InternalAndQuaiAddress / InternalAndQiAddress: sound, and never both *)
Theorem internal_and_ledger_sound_exclusive : forall r a,
  (internal_and_quai r = Some a <-> (r = Internal a /\ is_quai a = true))
  /\ (internal_and_qi r = Some a <-> (r = Internal a /\ is_qi a = true))
  /\ (forall x y, internal_and_quai r = Some x -> internal_and_qi r = Some y -> False).
Proof.
  intros r a. split; [apply internal_and_quai_spec|]. split; [apply internal_and_qi_spec|].
  intros x y H1 H2. apply internal_and_quai_spec in H1. apply internal_and_qi_spec in H2.
  destruct H1 as [-> H1], H2 as [H2 H3]. inversion H2; subst. rewrite ledger_negb, H1 in H3. discriminate.
Qed.
Print Assumptions internal_and_ledger_sound_exclusive.

(* Contract creation (EVM.Create: CreateAddress, then GrindContract with at most
   MaxAddressGrindAttempts / PreviousMaxAddressGrindAttempts salts): whatever the hash function
   (H, d0 abstract 32-byte digests), the result is an in-zone Quai-ledger 20-byte address with
   no more gas than before, or an error. *)
Theorem create_address_in_zone_or_fails : forall (H : N -> bytes) (d0 : bytes) l block_number gas cost,
  length d0 = 32%nat -> (forall i, length (H i) = 32%nat) ->
  let attempts := grind_attempts C16Sites.previous_max_address_grind_attempts
                    C16Sites.max_address_grind_attempts C16Sites.max_grind_increase_fork_block block_number in
  attempts <= C16Sites.max_address_grind_attempts /\
  match create_select d0 H l attempts gas cost with
  | GOk a g => length a = 20%nat /\ in_zone a l = true /\ is_quai a = true /\ g <= gas
  | GErr => True
  end.
Proof.
  intros H d0 l bn gas cost Hd Hl attempts. split.
  - apply grind_attempts_bounded. vm_compute. discriminate.
  - unfold create_select. destruct (internal_and_quai (digest_to_address d0 l)) as [a|] eqn:E.
    + destruct (digest_internal_quai d0 l a Hd E) as (A1 & A2 & A3 & _). repeat split; auto. lia.
    + pose proof (grind_spec H l cost attempts gas Hl) as S.
      destruct (grind H l attempts gas cost) as [a g|]; [|exact I].
      destruct S as (A1 & A2 & A3 & A4 & _). auto.
Qed.
Print Assumptions create_address_in_zone_or_fails.

(* GrindContract returns the FIRST successful attempt, charges cost per attempt, and fails only
   when no attempt within the bound succeeds before the gas runs out *)
Theorem grind_first_success_or_exhausted : forall (H : N -> bytes) l attempts gas cost,
  (forall i, length (H i) = 32%nat) ->
  match grind H l attempts gas cost with
  | GOk a g =>
      length a = 20%nat /\ in_zone a l = true /\ is_quai a = true /\ g <= gas
      /\ exists k, k < attempts /\ a = skipn 12 (H k) /\ g + (k + 1) * cost = gas
                   /\ forall j, j < k -> attempt H l j = None
  | GErr =>
      (forall j, j < attempts -> attempt H l j = None)
      \/ (exists k, k < attempts /\ gas < (k + 1) * cost /\ forall j, j < k -> attempt H l j = None)
  end.
Proof. intros H l attempts gas cost. apply grind_spec. Qed.
Print Assumptions grind_first_success_or_exhausted.

(* CREATE2: no grinding; an address outside the zone or in the Qi ledger is refused *)
Theorem create2_in_zone_or_fails : forall d l a, length d = 32%nat -> create2_select d l = Some a ->
  length a = 20%nat /\ in_zone a l = true /\ is_quai a = true.
Proof.
  intros d l a Hd H. destruct (digest_internal_quai d l a Hd H) as (A1 & A2 & A3 & _). auto.
Qed.
Print Assumptions create2_in_zone_or_fails.

(* StateDB.createObject creates an account only for an in-zone Quai-ledger address; in particular
   an address misclassified as internal by BytesToAddress (F10) is still refused by the state *)
Theorem state_accounts_in_zone_quai : forall a l, length a = 20%nat -> create_object_guard a l = true ->
  in_zone a l = true /\ is_quai a = true /\ is_qi a = false.
Proof.
  intros a l Hl H. rewrite (create_object_guard_spec a l Hl) in H. apply andb_true_iff in H.
  destruct H as [H1 H2]. rewrite ledger_negb, H2. auto.
Qed.
Print Assumptions state_accounts_in_zone_quai.

Theorem misclassified_internal_refused_by_state : forall b l a,
  bytes_to_address b l = Internal a -> in_zone a l = false -> create_object_guard a l = false.
Proof.
  intros b l a H Hz. destruct (addresses_are_20_bytes b l) as [Hl _]. rewrite H in Hl.
  rewrite (create_object_guard_spec a l Hl), Hz. reflexivity.
Qed.
Print Assumptions misclassified_internal_refused_by_state.

(* ProcessQiTx creates a UTXO only when the 20 bytes BytesToAddress would store are an in-zone
   Qi-ledger address ...                                                                   *)
Theorem qi_utxo_only_for_in_zone_qi_partial : forall addr datalen l, wf_bytes addr -> valid_zone l ->
  qi_output addr datalen l = QUtxo ->
  in_zone (to20 addr) l = true /\ is_qi (to20 addr) = true /\ is_quai (to20 addr) = false
  /\ (length addr = 20%nat -> to20 addr = addr).
Proof.
  intros addr dl l Hw Hv H. apply qi_output_utxo in H. destruct H as [H1 H2].
  rewrite (here_is_in_zone addr l Hw Hv) in H1. repeat split; auto using qi_not_quai, to20_id.
Qed.
Print Assumptions qi_utxo_only_for_in_zone_qi_partial.

(* ... but the UTXO stores the RAW output bytes: a 21-byte owner is accepted, and the 20-byte
   address its consumers read from it (common.AddressBytes(utxo.Address) = first 20 bytes) is a
   Quai-ledger address of another zone.  Full statement: the stored owner IS an in-zone Qi address. *)
Theorem qi_utxo_owner_is_in_zone_qi_address_refuted :
  exists addr, qi_output addr 0 [0; 0] = QUtxo /\ length addr = 21%nat
    /\ in_zone (firstn 20 addr) [0; 0] = false /\ is_qi (firstn 20 addr) = false.
Proof. exists (85 :: 0 :: 200 :: repeat 7 18). vm_compute. auto. Qed.   (* 21 bytes: 55 | 00 c8 07.. *)
Print Assumptions qi_utxo_owner_is_in_zone_qi_address_refuted.

(* ---- a WHOLE Qi transaction through ProcessQiTx (extension round): [qi_process l owners outs data ptn]
   = the three data guards, the output loop with the shared `addresses` set (seeded with the owners of
   the spent inputs) and the conversion / wrapping flags, the fork params.QiWrappingChangeBlock, the
   kQuai hold intervals and the aggregated ETX.  For every output list, data, zone, prime terminus. *)

(* From the fork on, every UTXO an accepted transaction creates is one of its outputs and the 20 bytes
   it is classified by are an in-zone Qi-ledger address. *)
Theorem qi_tx_utxos_only_for_in_zone_qi_after_fork : forall l owners outs data ptn evs idx owner,
  valid_zone l -> Forall wf_bytes outs ->
  C16Sites.qi_wrapping_change_block <= ptn ->
  qi_process l owners outs data ptn = Some evs -> In (EvUtxo idx owner) evs ->
  In owner outs /\ in_zone (to20 owner) l = true /\ is_qi (to20 owner) = true /\ is_quai (to20 owner) = false.
Proof.
  intros l owners outs data ptn evs idx owner Hv Hw Hf H Hin.
  pose proof (qi_process_sound l owners outs data ptn evs _ Hv Hw H Hin) as K.
  inversion K as [? ? Ho Hz Hq|? ? Ho Hz Hq Hs Hd| |]; subst.
  - auto using qi_not_quai.
  - apply wrap_skips_false in Hs. lia.
Qed.
Print Assumptions qi_tx_utxos_only_for_in_zone_qi_after_fork.

(* Full statement (no fork premise) is FALSE for the code: before params.QiWrappingChangeBlock the
   wrapping branch falls through to the local-UTXO part, and a UTXO owned by an in-zone QUAI-ledger
   address is written (witness replayed on the real ProcessQiTx by the harness corpus). *)
Theorem qi_tx_utxo_for_quai_address_before_fork_refuted :
  exists l owners outs data ptn evs owner,
    valid_zone l /\ Forall wf_bytes outs /\ qi_process l owners outs data ptn = Some evs
    /\ In (EvUtxo 0 owner) evs /\ List.length owner = 20%nat /\ is_qi owner = false /\ is_quai owner = true.
Proof.
  pose (w := 18 :: 5 :: repeat 7 18).          (* 12 05 07..: zone (1,2), Quai ledger *)
  exists [1; 2], [], [w], (18 :: 9 :: repeat 3 18), 0, [EvUtxo 0 w; EvEtx 2 0 0 w], w.   (* data 12 09 03..: in-zone Quai contract *)
  split; [exists 1, 2; repeat split; lia|].
  split; [unfold wf_bytes; repeat constructor|].
  vm_compute. repeat split; auto.
Qed.
Print Assumptions qi_tx_utxo_for_quai_address_before_fork_refuted.

(* The strongest statement true in every fork regime: a UTXO owner is always in the zone, and it is a
   Quai-ledger address only through the wrapping branch (20 data bytes) before the fork. *)
Theorem qi_tx_utxos_in_zone_partial : forall l owners outs data ptn evs idx owner,
  valid_zone l -> Forall wf_bytes outs ->
  qi_process l owners outs data ptn = Some evs -> In (EvUtxo idx owner) evs ->
  In owner outs /\ in_zone (to20 owner) l = true
  /\ (is_qi (to20 owner) = true
      \/ (ptn < C16Sites.qi_wrapping_change_block /\ List.length data = 20%nat /\ is_quai (to20 owner) = true)).
Proof.
  intros l owners outs data ptn evs idx owner Hv Hw H Hin.
  pose proof (qi_process_sound l owners outs data ptn evs _ Hv Hw H Hin) as K.
  inversion K as [? ? Ho Hz Hq|? ? Ho Hz Hq Hs Hd| |]; subst.
  - auto.
  - apply wrap_skips_false in Hs. split; [exact Ho|]. split; [exact Hz|]. right. auto.
Qed.
Print Assumptions qi_tx_utxos_in_zone_partial.

(* Every ETX of an accepted transaction: an ordinary one (type 0) goes to a 20-byte FOREIGN-zone Qi
   address held as an external object; the aggregated conversion / wrapping ETX goes to a 20-byte
   IN-zone Quai address held as an internal object. *)
Theorem qi_tx_etx_targets : forall l owners outs data ptn evs ty idx cls to,
  valid_zone l -> Forall wf_bytes outs ->
  qi_process l owners outs data ptn = Some evs -> In (EvEtx ty idx cls to) evs ->
  List.length to = 20%nat
  /\ (ty = 0 -> in_zone to l = false /\ is_qi to = true /\ is_quai to = false /\ cls = 1)
  /\ (ty <> 0 -> in_zone to l = true /\ is_quai to = true /\ is_qi to = false /\ cls = 0).
Proof.
  intros l owners outs data ptn evs ty idx cls to Hv Hw H Hin.
  pose proof (qi_process_sound l owners outs data ptn evs _ Hv Hw H Hin) as K.
  inversion K as [| |? ? H20 Hz Hq|? ? ? Hty H20 Hz Hq]; subst.
  - split; [exact H20|]. split; [auto using qi_not_quai|intros Hn; destruct Hn; reflexivity].
  - split; [exact H20|]. split; [intros E; destruct (Hty E)|auto using quai_not_qi].
Qed.
Print Assumptions qi_tx_etx_targets.

(* A Quai-ledger output that is not an in-zone conversion / wrapping output makes the WHOLE transaction
   fail, wherever it stands in the output list and whatever the other outputs, owners and fork are. *)
Theorem qi_tx_rejects_quai_output_anywhere : forall l owners outs data ptn addr,
  valid_zone l -> In addr outs -> wf_bytes addr -> is_quai (to20 addr) = true ->
  (in_zone (to20 addr) l = false \/ (List.length data <> 20%nat /\ List.length data <> 22%nat)) ->
  qi_process l owners outs data ptn = None.
Proof.
  intros l owners outs data ptn addr Hv Hin Hw Hq Hc. unfold qi_process.
  destruct (negb (qi_data_ok data)); [reflexivity|].
  rewrite (qi_loop_none l data (wrap_skips ptn) addr (qi_step_rejects_quai l data _ addr Hv Hw Hq Hc) outs _ 0 Hin).
  reflexivity.
Qed.
Print Assumptions qi_tx_rejects_quai_output_anywhere.

(* The one-output transaction agrees with the classification [qi_output] of the earlier theorems for
   every data length (the 20 / 22 branches are tied to the code through the IQiTx cases). *)
Theorem qi_tx_single_output_agrees_with_classification : forall l owners addr data ptn,
  (qi_output addr (N.of_nat (List.length data)) l = QReject -> qi_process l owners [addr] data ptn = None)
  /\ (forall evs, qi_process l owners [addr] data ptn = Some evs ->
      match qi_output addr (N.of_nat (List.length data)) l with
      | QUtxo => evs = [EvUtxo 0 addr]
      | QEtx => evs = [EvEtx 0 0 (class_of addr l) (to20 addr)]
      | QConvert => evs = [EvEtx 1 0 (class_of (to20 addr) l) (to20 addr)]
      | QWrap => if wrap_skips ptn then evs = [EvEtx 2 0 (class_of (to20 addr) l) (to20 addr)]
                 else evs = [EvUtxo 0 addr; EvEtx 2 0 (class_of (to20 addr) l) (to20 addr)]
      | QReject => False
      end).
Proof.
  intros l owners addr data ptn. unfold qi_process. cbn [qi_loop]. rewrite qi_step_by_output.
  cbv zeta. cbn [q_seen q_conv q_wrap q_cto].
  destruct (negb (qi_data_ok data)); [split; [reflexivity|discriminate]|].
  destruct (mem_key (to20 addr) owners); [split; [reflexivity|discriminate]|].
  destruct (qi_output addr (N.of_nat (List.length data)) l);
    (split; [intros E; try discriminate E; reflexivity|intros evs H]).
  - unfold qi_finish in H. cbn -[class_of to20 in_hold] in H.
    destruct (in_hold ptn); [discriminate|]. inversion H. reflexivity.
  - destruct (internal_and_quai (bytes_to_address data l)); [|discriminate].
    destruct (wrap_skips ptn); inversion H; reflexivity.
  - discriminate.
  - inversion H. reflexivity.
  - inversion H. reflexivity.
Qed.
Print Assumptions qi_tx_single_output_agrees_with_classification.

(* ---- addresses handed out from stored / cached bytes: the sender cache of a transaction ----
   [run_ops t st_init ops] = any history of Sender / SignerV1.Sender / From / SetFrom / Hash /
   AsMessage / FromChain calls on one *Transaction object, by signers of any chain id and location. *)

(* After ANY history, types.Sender(signer, tx) on a signed transaction fails or returns the class
   of 20 bytes AT THE LOCATION OF THE SIGNER THAT ASKS (warm or cold cache, whoever filled it). *)
Theorem sender_class_follows_asking_location : forall t ops c l, tk t = TQuai -> tx_wf t ->
  let r := fst (sender_step t (snd (run_ops t st_init ops)) c l) in
  r = Err \/ exists a, List.length a = 20%nat /\ r = (if in_zone a l then Internal a else External a).
Proof.
  intros t ops c l Hk _. exact (sender_step_class t _ c l Hk).
Qed.
Print Assumptions sender_class_follows_asking_location.

(* the same for tx.From(nodeLocation), for every transaction type *)
Theorem cached_from_class_follows_asking_location : forall t ops l, tx_wf t ->
  let x := fst (sop_step t (snd (run_ops t st_init ops)) (SFrom l)) in
  x = SNil \/ exists a, List.length a = 20%nat /\
                 x = sobs_of_res (if in_zone a l then Internal a else External a).
Proof.
  intros t ops l _. rewrite sop_step_eq.
  destruct (ecache (snd (run_ops t st_init ops))) as [[c0 from]|]; [|left; reflexivity].
  right. exists (to20 from). split; [apply to20_length|]. cbn [fst]. f_equal. apply bta_spec.
Qed.
Print Assumptions cached_from_class_follows_asking_location.

(* Without SetFrom the cache is transparent: after any history the (possibly cached) answer of
   types.Sender IS the answer of a fresh signature recovery by the asking signer. *)
Theorem warm_sender_equals_cold_sender : forall t ops c l, tk t = TQuai -> tx_wf t ->
  existsb is_setfrom ops = false ->
  fst (sender_step t (snd (run_ops t st_init ops)) c l) = signer_sender t c l.
Proof.
  intros t ops c l Hk _ Hno. apply warm_is_cold; auto. apply run_ops_true; auto.
Qed.
Print Assumptions warm_sender_equals_cold_sender.

(* No answer depends on who filled the cache: two histories that differ only in the LOCATIONS of
   their signers (same call kinds, chain ids, SetFrom bytes) are indistinguishable by every later
   query (Sender, SignerV1.Sender, From, AsMessage, FromChain at any location). *)
Theorem sender_answers_independent_of_cache_filler : forall t ops ops' q, tx_wf t ->
  Forall2 sop_sim ops ops' ->
  fst (sop_step t (snd (run_ops t st_init ops)) q) = fst (sop_step t (snd (run_ops t st_init ops')) q).
Proof.
  intros t ops ops' q _ H.
  exact (proj2 (sop_step_sim t _ _ q q (run_ops_sim t ops ops' H _ _ eq_refl) (sop_sim_refl q)) eq_refl).
Qed.
Print Assumptions sender_answers_independent_of_cache_filler.

(* Obligations on data generated from the source tree (a source edit breaks these) *)
Theorem generated_constants_as_modelled : constants_as_modelled = true.
Proof. vm_compute. reflexivity. Qed.
Print Assumptions generated_constants_as_modelled.

Theorem ledger_predicate_copies_identical : ledger_predicates_as_modelled = true.
Proof. vm_compute. reflexivity. Qed.
Print Assumptions ledger_predicate_copies_identical.

(* the BytesToAddress call sites whose argument is not 20 bytes by syntax are exactly the reviewed ones *)
Theorem bytes_to_address_sites_reviewed : inventory_as_reviewed = true.
Proof. vm_compute. reflexivity. Qed.
Print Assumptions bytes_to_address_sites_reviewed.

Example partition_nonvacuous :
  wf20 zone10_address /\ location_of zone10_address = [1; 0] /\ is_quai zone10_address = true
  /\ bytes_to_address zone10_address [1; 0] = Internal zone10_address
  /\ bytes_to_address zone10_address [0; 0] = External zone10_address.
Proof. split; [exact zone10_wf20|]. vm_compute. auto. Qed.

Example constructors_nonvacuous :
  hex_to_address (hex0x zone10_address) [1; 0] = Internal zone10_address
  /\ digest_to_address (repeat 9 12 ++ zone10_address) [1; 0] = Internal zone10_address
  /\ unmarshal_json (quote (hex0x zone10_address)) = External zone10_address
  /\ unmarshal_json [] = Internal (repeat 0 20).
Proof. vm_compute. auto. Qed.

(* grinding: attempts 0,1 fail (foreign zone; Qi ledger), attempt 2 succeeds, 3 x cost charged *)
Example grind_nonvacuous :
  grind (digest_fun [(5, 0); (16, 200)] (repeat 9 12 ++ zone10_address)) [1; 0] 1000 100 30
  = GOk zone10_address 10
  /\ grind (digest_fun [(5, 0); (16, 200)] (repeat 9 12 ++ zone10_address)) [1; 0] 2 100 30 = GErr
  /\ grind (digest_fun [(5, 0); (16, 200)] (repeat 9 12 ++ zone10_address)) [1; 0] 1000 80 30 = GErr.
Proof. vm_compute. auto. Qed.

Example guard_nonvacuous :
  create_object_guard zone10_address [1; 0] = true /\ create_object_guard zone10_address [0; 0] = false
  /\ create_object_guard (16 :: 200 :: repeat 7 18) [1; 0] = false.
Proof. vm_compute. auto. Qed.

Example qi_output_nonvacuous :
  qi_output (16 :: 200 :: repeat 7 18) 0 [1; 0] = QUtxo /\ qi_output (16 :: 200 :: repeat 7 18) 0 [0; 0] = QEtx
  /\ qi_output zone10_address 0 [1; 0] = QReject /\ qi_output zone10_address 22 [1; 0] = QConvert
  /\ qi_output zone10_address 20 [1; 0] = QWrap.
Proof. vm_compute. auto. Qed.

(* an accepted five-output conversion at zone (1,2) after the fork: UTXO, two converted outputs to the
   same address (aggregated), a cross-zone ETX, then the aggregate ETX; the same outputs with a second,
   different conversion address, or inside a kQuai hold interval, are rejected *)
Example qi_tx_nonvacuous :
  let q := 18 :: 5 :: repeat 7 18 in
  let u := 18 :: 200 :: repeat 1 18 in
  let f := 33 :: 200 :: repeat 2 18 in
  let d := 0 :: 5 :: 18 :: 200 :: repeat 4 18 in
  qi_process [1; 2] [] [u; q; f; q] d 1570000
    = Some [EvUtxo 0 u; EvEtx 0 2 1 f; EvEtx 1 0 0 q]
  /\ qi_process [1; 2] [] [u; q; f; 18 :: 6 :: repeat 7 18] d 1570000 = None
  /\ qi_process [1; 2] [] [u; q; f; q] d 1755000 = None
  /\ qi_process [1; 2] [u] [u; q; f; q] d 1570000 = None
  /\ qi_process [1; 2] [] [u; f; u] [] 1570000 = None.
Proof. vm_compute. auto. Qed.

Example f10_sites_nonvacuous : List.length f10_site_list = 8%nat.
Proof. vm_compute. reflexivity. Qed.

(* sender cache: tx.Hash() fills the cache through a signer at Location{0,0}; a zone-(0,1) node then
   still gets its own account as INTERNAL.  The variant that re-wraps at the filler's location (the
   blind change C16_3) answers EXTERNAL on the same state. *)
Example sender_cache_nonvacuous :
  tk witness_tx = TQuai /\ tx_wf witness_tx
  /\ fst (sender_step witness_tx (snd (run_ops witness_tx st_init [SHash false])) 9 [0; 1])
      = Internal (1 :: 5 :: repeat 7 18)
  /\ sender_step_filler_variant witness_tx (snd (run_ops witness_tx st_init [SHash false])) 9 [0; 1]
      = External (1 :: 5 :: repeat 7 18)
  /\ in_zone (1 :: 5 :: repeat 7 18) [0; 1] = true.
Proof. split; [reflexivity|]. split; [reflexivity|]. vm_compute. auto. Qed.
