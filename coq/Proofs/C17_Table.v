(* C17 — the rawdb table wrapper refines an independent store (for every history)
   and never reads or changes a key outside its prefix. Forward simulation [R] between the inner state and
   the store the table pretends to be: [tstep_db] and [tstep_getb] say what a table operation does to the
   inner store and to each inner batch (what [writes] and [action] say, every key prefixed); answer,
   relation, invariant and frame of one operation are read off them, [trun_refines] is the induction. *)
From Coq Require Import List NArith Bool.
From GQ Require Import Lib.Lists Lib.Key Lib.SMap Model.C17 Model.C17_Table Proofs.C17.
Import ListNotations.
Local Open Scope N_scope.

Lemma has_prefix_nested p q k :
  has_prefix (p ++ q) k = has_prefix p k && has_prefix q (strip_key p k).
Proof.
  revert k; induction p as [|x p IH]; intros k; cbn; [reflexivity|].
  destruct k as [|y k]; cbn; [reflexivity|]. destruct (x =? y); cbn; [apply IH|reflexivity].
Qed.

Lemma strip_app tp k : strip_key tp (tp ++ k) = k.
Proof. apply skipn_app_length. Qed.

Lemma strip_key_nested p q k : strip_key q (strip_key p k) = strip_key (p ++ q) k.
Proof.
  unfold strip_key. rewrite app_length. revert k; induction p as [|x p IH]; intros k; cbn; [reflexivity|].
  destruct k as [|y k]; cbn; [destruct (length q); reflexivity|apply IH].
Qed.

Lemma prefixed_split tp k : has_prefix tp k = true -> k = tp ++ strip_key tp k.
Proof. intros H. apply has_prefix_spec in H as [s ->]. rewrite strip_app. reflexivity. Qed.

Lemma foreign_neq tp k k0 : has_prefix tp k0 = false -> k0 <> tp ++ k.
Proof. intros H ->. rewrite has_prefix_app in H. discriminate. Qed.

Lemma in_range_nested tp p st k :
  in_range (tp ++ p) st k = has_prefix tp k && in_range p st (strip_key tp k).
Proof.
  unfold in_range. rewrite has_prefix_nested, <- app_assoc.
  destruct (has_prefix tp k) eqn:E; [cbn [andb]|reflexivity].
  apply has_prefix_spec in E as [s ->]. rewrite strip_app, kleb_app. reflexivity.
Qed.

Section View.
Context {V : Type}.
Implicit Types m : smap V.

Lemma tview_cons tp k v m : tview tp ((k, v) :: m) =
  if has_prefix tp k then (strip_key tp k, v) :: tview tp m else tview tp m.
Proof. unfold tview, strip_kvs. cbn. destruct (has_prefix tp k); reflexivity. Qed.

Lemma in_tview tp k v m : In (k, v) (tview tp m) <-> In (tp ++ k, v) m.
Proof.
  unfold tview, strip_kvs. split.
  - intros H. apply in_map_iff in H as ([k0 v0] & [= <- <-] & H). apply filter_In in H as [H E].
    cbn in E. rewrite <- (prefixed_split _ _ E). exact H.
  - intros H. apply in_map_iff. exists (tp ++ k, v). cbn. rewrite strip_app. split; [reflexivity|].
    apply filter_In. split; [exact H|apply has_prefix_app].
Qed.

Lemma tview_sorted tp m : sorted m -> sorted (tview tp m).
Proof.
  induction m as [|[k0 v0] m IH]; [intros _; exact I|]. intros [L S].
  rewrite tview_cons. destruct (has_prefix tp k0) eqn:E; [|apply IH, S].
  split; [|apply IH, S]. intros k' v' Hin. apply in_tview, L in Hin.
  rewrite (prefixed_split _ _ E), kltb_app in Hin. exact Hin.
Qed.

(* table.Get / table.Has / tableBatch.GetPending read exactly the prefixed cell *)
Lemma get_tview tp k m : sorted m -> get k (tview tp m) = get (tp ++ k) m.
Proof.
  intros S. apply get_in_ext; [apply tview_sorted, S|exact S|]. intros v. apply in_tview.
Qed.

Lemma tview_put tp k v m : sorted m -> tview tp (put (tp ++ k) v m) = put k v (tview tp m).
Proof.
  intros S. apply sorted_ext.
  - apply tview_sorted, put_sorted, S.
  - apply put_sorted, tview_sorted, S.
  - intros k0. rewrite get_tview, !get_put, keqb_app, get_tview by auto using put_sorted. reflexivity.
Qed.

Lemma tview_del tp k m : sorted m -> tview tp (del (tp ++ k) m) = del k (tview tp m).
Proof.
  intros S. apply sorted_ext.
  - apply tview_sorted, del_sorted, S.
  - apply del_sorted, tview_sorted, S.
  - intros k0.
    rewrite get_tview, !get_del, keqb_app, get_tview by auto using del_sorted, tview_sorted. reflexivity.
Qed.

(* tableIterator over NewIterator(tp ++ p, st) = the view's own iteration *)
Lemma tview_iterate tp p st m :
  strip_kvs tp (iterate (tp ++ p) st m) = iterate p st (tview tp m).
Proof.
  unfold iterate, tview, strip_kvs. rewrite filter_map_swap, filter_filter. f_equal.
  apply filter_ext. intros [k v]. apply in_range_nested.
Qed.

Lemma tview_all_foreign tp m :
  (forall k v, In (k, v) m -> has_prefix tp k = false) -> tview tp m = [].
Proof.
  intros H. unfold tview. rewrite filter_none; [reflexivity|].
  intros [k v] Hin. cbn. apply (H k v Hin).
Qed.

Lemma tview_nested p q m : tview q (tview p m) = tview (p ++ q) m.
Proof.
  unfold tview, strip_kvs. rewrite filter_map_swap, filter_filter, map_map.
  rewrite (filter_ext _ _ (fun kv => has_prefix_nested p q (fst kv))).
  apply map_ext. intros [k v]. cbn. rewrite strip_key_nested. reflexivity.
Qed.

End View.

Lemma strip_tr tp w : strip_wop tp (tr_wop tp w) = w.
Proof. destruct w; cbn; rewrite strip_app; reflexivity. Qed.

Lemma replayed_tr tp ws : replayed tp (map (tr_wop tp) ws) = map (tr_wop tp) ws.
Proof.
  unfold replayed. rewrite map_map. apply map_ext. intros w. rewrite strip_tr. reflexivity.
Qed.

Lemma tview_apply_wop tp m w : sorted m ->
  tview tp (apply_wop m (tr_wop tp w)) = apply_wop (tview tp m) w.
Proof. intros S. destruct w; cbn; [apply tview_put|apply tview_del]; exact S. Qed.

Lemma tview_apply_ops tp ws : forall m, sorted m ->
  tview tp (apply_ops (map (tr_wop tp) ws) m) = apply_ops ws (tview tp m).
Proof.
  unfold apply_ops. induction ws as [|w ws IH]; cbn [map fold_left]; intros m S; [reflexivity|].
  rewrite IH by (apply apply_wop_sorted, S). rewrite tview_apply_wop by exact S. reflexivity.
Qed.

Lemma frame_apply_wop tp m w k0 : sorted m -> has_prefix tp k0 = false ->
  get k0 (apply_wop m (tr_wop tp w)) = get k0 m.
Proof.
  intros S F. destruct w as [k v|k]; cbn.
  - apply get_put_other, foreign_neq, F.
  - apply get_del_other; [exact S|]. apply foreign_neq, F.
Qed.

Lemma frame_apply_ops tp ws k0 : forall m, sorted m -> has_prefix tp k0 = false ->
  get k0 (apply_ops (map (tr_wop tp) ws) m) = get k0 m.
Proof.
  unfold apply_ops. induction ws as [|w ws IH]; cbn [map fold_left]; intros m S F; [reflexivity|].
  rewrite IH by (auto using apply_wop_sorted). apply frame_apply_wop; assumption.
Qed.

(* Simulation relation: inner state i ~ the store t the table pretends to be. *)
Definition Rb (tp : key) (ib tb : batch) : Prop :=
  b_ops ib = map (tr_wop tp) (b_ops tb) /\
  b_tracking ib = b_tracking tb /\
  b_pend tb = tview tp (b_pend ib).

Definition R (tp : key) (i t : state) : Prop :=
  s_db t = tview tp (s_db i) /\ Rb tp (s_b0 i) (s_b0 t) /\ Rb tp (s_b1 i) (s_b1 t).

Lemma R_store tp i t : R tp i t -> s_db t = tview tp (s_db i).
Proof. intros [H _]. exact H. Qed.

Lemma R_getb tp i t b : R tp i t -> Rb tp (getb i b) (getb t b).
Proof. intros (_ & H0 & H1). destruct b; assumption. Qed.

Lemma R_ops tp i t b : R tp i t -> b_ops (getb i b) = map (tr_wop tp) (b_ops (getb t b)).
Proof. intros HR. apply (R_getb tp i t b HR). Qed.

Lemma R_intro tp i t : s_db t = tview tp (s_db i) -> (forall c, Rb tp (getb i c) (getb t c)) -> R tp i t.
Proof. intros Hd Hb. exact (conj Hd (conj (Hb false) (Hb true))). Qed.

Lemma Rb_apply tp ib tb w : Rb tp ib tb -> sorted (b_pend ib) ->
  Rb tp (batch_apply ib (tr_wop tp w)) (batch_apply tb w).
Proof.
  intros (Ho & Ht & Hp) S. repeat split.
  - rewrite !batch_apply_ops, Ho, map_app. reflexivity.
  - rewrite !batch_apply_tracking. exact Ht.
  - rewrite !batch_apply_pend, <- Ht, Hp. destruct (b_tracking ib); [|reflexivity].
    destruct w; symmetry; apply tview_put, S.
Qed.

Lemma Rb_run tp ws : forall ib tb, Rb tp ib tb -> sorted (b_pend ib) ->
  Rb tp (batch_run ib (map (tr_wop tp) ws)) (batch_run tb ws).
Proof.
  unfold batch_run. induction ws as [|w ws IH]; cbn; intros ib tb H S; [exact H|].
  apply IH; [apply Rb_apply; assumption|apply batch_apply_pend_sorted, S].
Qed.

Definition tr_act (tp : key) (a : bact) : bact :=
  match a with Run ws => Run (map (tr_wop tp) ws) | a => a end.

Lemma Rb_act tp a ib tb : Rb tp ib tb -> sorted (b_pend ib) -> Rb tp (act (tr_act tp a) ib) (act a tb).
Proof.
  intros H S. destruct a; cbn.
  - apply Rb_run; assumption.
  - split; [exact (proj1 H)|split; reflexivity].
  - repeat split.
Qed.

(* Replaying strips the prefix and the receiver puts it back: nothing happens to operations that carry it
   (replayed_tr), and those of a related inner batch all do (R_ops). *)
Lemma tstep_db tp i t o : R tp i t ->
  s_db (fst (tstep tp i o)) = apply_ops (map (tr_wop tp) (writes t o)) (s_db i).
Proof.
  intros HR. pose proof (fun b => R_ops tp i t b HR) as Ho.
  destruct o; cbn; rewrite ?db_setb, ?Ho, ?replayed_tr; reflexivity.
Qed.

Lemma tstep_getb tp i t o c : R tp i t ->
  getb (fst (tstep tp i o)) c = act (tr_act tp (action t o c)) (getb i c).
Proof.
  intros HR. destruct o; try reflexivity; cbn [tstep step fst].
  (* All but Replay(other batch) are closed first: Write mentions b_ops (getb i b) too, and rewriting it
     with R_ops would spoil that case. *)
  all: try (destruct b, c; reflexivity).
  rewrite (R_ops tp i t b HR), replayed_tr. destruct b, c; reflexivity.
Qed.

Lemma tstep_inv tp i t o : R tp i t -> Inv i -> Inv (fst (tstep tp i o)).
Proof.
  intros HR H. apply Inv_intro.
  - rewrite (tstep_db tp i t o HR). apply apply_ops_sorted, Inv_store, H.
  - intros c. rewrite (tstep_getb tp i t o c HR). apply act_pend_sorted, Inv_getb, H.
Qed.

(* ValueSize is left out where answers are compared: a tableBatch sizes a delete with the prefixed key. *)
Definition is_size (o : op) : bool := match o with BSize _ => true | _ => false end.

Lemma tstep_out tp i t o : Inv i -> R tp i t -> is_size o = false ->
  snd (tstep tp i o) = snd (step t o).
Proof.
  intros HI HR Hs. pose proof (Inv_store i HI) as Sd. pose proof (R_store tp i t HR) as Hd.
  destruct o; try reflexivity; try discriminate; cbn.
  - rewrite Hd, get_tview by exact Sd. reflexivity.
  - rewrite Hd, get_tview by exact Sd. reflexivity.
  - rewrite Hd, tview_iterate. reflexivity.
  - unfold batch_get_pending. destruct (R_getb tp i t b HR) as (_ & _ & ->).
    rewrite get_tview by (apply Inv_getb, HI). reflexivity.
  - rewrite Hd, tview_iterate. reflexivity.
Qed.

Lemma tstep_R tp i t o : Inv i -> R tp i t -> R tp (fst (tstep tp i o)) (fst (step t o)).
Proof.
  intros HI HR. apply R_intro.
  - rewrite step_db, (tstep_db tp i t o HR), tview_apply_ops by apply Inv_store, HI.
    rewrite (R_store tp i t HR). reflexivity.
  - intros c. rewrite step_getb, (tstep_getb tp i t o c HR).
    apply Rb_act; [apply R_getb, HR|apply Inv_getb, HI].
Qed.

Lemma tstep_frame tp i t o k0 : Inv i -> R tp i t -> has_prefix tp k0 = false ->
  get k0 (s_db (fst (tstep tp i o))) = get k0 (s_db i).
Proof. intros HI HR F. rewrite (tstep_db tp i t o HR). apply frame_apply_ops; [apply Inv_store, HI|exact F]. Qed.

Definition no_size (h : list op) : bool := forallb (fun o => negb (is_size o)) h.

Set Implicit Arguments.
Record refines (tp : key) (i t : state) (h : list op) : Prop := {
  ref_out : no_size h = true -> trun tp i h = run t h;
  ref_R : R tp (trun_state tp i h) (run_state t h);
  ref_Inv : Inv (trun_state tp i h);
  ref_frame : forall k0, has_prefix tp k0 = false -> get k0 (s_db (trun_state tp i h)) = get k0 (s_db i)
}.
Unset Implicit Arguments.

Lemma trun_refines tp h : forall i t, Inv i -> R tp i t -> refines tp i t h.
Proof.
  induction h as [|o h IH]; intros i t HI HR; [constructor; auto|].
  pose proof (IH _ _ (tstep_inv tp i t o HR HI) (tstep_R tp i t o HI HR)) as H.
  constructor; [|exact (ref_R H)|exact (ref_Inv H)|].
  - intros Hn. cbn in Hn. apply andb_prop in Hn as [Hn1 Hn2]. apply negb_true_iff in Hn1.
    pose proof (tstep_out tp i t o HI HR Hn1) as Ho. pose proof (ref_out H Hn2) as IHo. cbn [trun run].
    destruct (tstep tp i o), (step t o). cbn in Ho, IHo. rewrite Ho, IHo. reflexivity.
  - intros k0 F. rewrite <- (tstep_frame tp i t o k0 HI HR F). exact (ref_frame H k0 F).
Qed.

Definition fresh (db0 : smap val) : state := mkState db0 empty_batch empty_batch.

Lemma fresh_inv db0 : sorted db0 -> Inv (fresh db0).
Proof. intros S. repeat split; exact S. Qed.

Lemma fresh_R tp db0 : R tp (fresh db0) (fresh (tview tp db0)).
Proof. repeat split. Qed.

Lemma fresh_refines tp db0 h : sorted db0 -> refines tp (fresh db0) (fresh (tview tp db0)) h.
Proof. intros S. apply trun_refines; [apply fresh_inv, S|apply fresh_R]. Qed.
