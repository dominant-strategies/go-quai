(* C13 — the lockup ledger: invariant, closed forms of AddNewLock / ClaimCoinbaseLockup, the three
   shapes a step can have, accounting over histories, key encoding; at the end the reward and the claim
   (w_add, w_claim) that the refutations and examples of Props/C13.v run. *)
From Coq Require Import List NArith ZArith Bool Lia ZifyBool.
From GQ Require Import Lib.Key Lib.SMap Lib.Lists Generated.C13Params Model.C13.
Import ListNotations.
Import C13Params.
Local Open Scope N_scope.

Definition bal_at (L : ledger) (k : key) : Z := r_bal (read L k).

Lemma read_put k k' r L : read (put k' r L) k = if keqb k k' then r else read L k.
Proof. unfold read. rewrite get_put. destruct (keqb k k'); reflexivity. Qed.

Lemma read_del k k' L : sorted L -> read (del k' L) k = if keqb k k' then empty_rec else read L k.
Proof. intros S. unfold read. rewrite get_del by exact S. destruct (keqb k k'); reflexivity. Qed.

Definition msum {V} (f : V -> Z) (m : smap V) : Z := fold_right (fun kv acc => (f (snd kv) + acc)%Z) 0%Z m.

Lemma msum_cons {V} (f : V -> Z) k v (m : smap V) : msum f ((k, v) :: m) = (f v + msum f m)%Z.
Proof. reflexivity. Qed.

Lemma msum_put {V} (f : V -> Z) k v (m : smap V) :
  msum f (put k v m) = (msum f m - match get k m with Some b => f b | None => 0 end + f v)%Z.
Proof.
  induction m as [|[k' v'] m IH]; [cbn; lia|].
  cbn [put get]. destruct (kcmp k k'); rewrite !msum_cons; try rewrite IH; lia.
Qed.

Lemma msum_del {V} (f : V -> Z) k (m : smap V) :
  msum f (del k m) = (msum f m - match get k m with Some b => f b | None => 0 end)%Z.
Proof.
  induction m as [|[k' v'] m IH]; [cbn; lia|].
  cbn [del get]. destruct (kcmp k k'); rewrite ?msum_cons; try rewrite IH; lia.
Qed.

Lemma total_put k r (L : ledger) : total (put k r L) = (total L - bal_at L k + r_bal r)%Z.
Proof. unfold bal_at, read. change total with (msum r_bal). rewrite msum_put. destruct (get k L); reflexivity. Qed.

Lemma total_del k (L : ledger) : total (del k L) = (total L - bal_at L k)%Z.
Proof. unfold bal_at, read. change total with (msum r_bal). rewrite msum_del. destruct (get k L); reflexivity. Qed.

Definition nonzero_heights (L : ledger) : Prop := forall k r, get k L = Some r -> r_unlock r <> 0.
Definition Inv (L : ledger) : Prop := sorted L /\ nonzero_heights L.

Lemma inv_empty : Inv [].
Proof. split; [exact I|]. intros k r H; discriminate. Qed.

Lemma read_nonzero_some L k : r_unlock (read L k) <> 0 -> get k L = Some (read L k).
Proof. unfold read. destruct (get k L); cbn; [reflexivity|congruence]. Qed.

Lemma read_zero_none L k : nonzero_heights L -> r_unlock (read L k) = 0 -> get k L = None.
Proof.
  intros NZ. unfold read. destruct (get k L) eqn:G; [|reflexivity].
  intros H. exfalso. exact (NZ _ _ G H).
Qed.

Lemma put_preserves_inv L k r : Inv L -> r_unlock r <> 0 -> Inv (put k r L).
Proof.
  intros [S NZ] Hr. split; [apply put_sorted; exact S|].
  intros k0 r0 G. rewrite get_put in G. destruct (keqb k0 k); [congruence|exact (NZ _ _ G)].
Qed.

Lemma del_preserves_inv L k : Inv L -> Inv (del k L).
Proof.
  intros [S NZ]. split; [apply del_sorted; exact S|].
  intros k0 r G. rewrite get_del in G by exact S. destruct (keqb k0 k); [discriminate|exact (NZ _ _ G)].
Qed.

Definition tranche_height (a : addargs) : N := (a_unlock a - a_unlock a mod E) mod two32.

(* AddNewLock takes a stored height 0 for "no tranche": a reward whose epoch floor is 0 would be overwritten by the next *)
Definition op_wf (o : op) : Prop :=
  match o with OAdd a => tranche_height a <> 0 | _ => True end.

Lemma E_pos_of_params : depths_ge_epoch = true -> 0 < E.
Proof. unfold depths_ge_epoch. lia. Qed.

Lemma depths_at_least_epoch d : depths_ge_epoch = true -> In d depths -> E <= d.
Proof.
  unfold depths_ge_epoch. intros H Hd. apply andb_prop in H as [H _].
  rewrite forallb_forall in H. specialize (H d Hd). lia.
Qed.

Lemma epoch_floor u : 0 < E -> u - u mod E = E * (u / E).
Proof. intros HE. pose proof (N.div_mod u E). pose proof (N.mod_le u E). lia. Qed.

Lemma unlock_in_range_wf a : 0 < E -> E <= a_unlock a -> a_unlock a < two32 -> tranche_height a <> 0.
Proof.
  intros HE H1 H2. unfold tranche_height. rewrite epoch_floor by exact HE.
  pose proof (N.mul_div_le (a_unlock a) E).
  assert (1 <= a_unlock a / E) by (apply N.div_le_lower_bound; lia).
  rewrite N.mod_small by lia. nia.
Qed.

Definition new_rec (L : ledger) (a : addargs) : lkrec :=
  let r := read L (add_key a) in
  mkRec (r_bal r + a_value a)
        (if r_unlock r =? 0 then tranche_height a else r_unlock r)
        (((if r_unlock r =? 0 then 0 else r_elems r) + 1) mod two16)
        (a_deleg a).

Definition add_guards (L : ledger) (a : addargs) : bool :=
  internal (a_owner a) && is_quai (a_owner a) && internal (a_miner a) && a_sender_ok a &&
  (0 <? a_value a)%Z &&
  negb (negb (r_unlock (read L (add_key a)) =? 0) && (a_unlock a <? r_unlock (read L (add_key a)))) &&
  negb ((a_epoch a =? 0) && negb (r_unlock (read L (add_key a)) =? 0)) &&
  (r_bal (read L (add_key a)) + a_value a <? two256)%Z.

Lemma add_core_spec L a : nonzero_heights L ->
  add_core L a =
    if add_guards L a then
      let r := read L (add_key a) in
      Some (put (add_key a) (new_rec L a) L, negb (r_unlock r =? 0), if r_unlock r =? 0 then None else Some r)
    else None.
Proof.
  intros NZ. unfold add_core, add_guards, new_rec, tranche_height.
  (* a tranche that reads with height 0 is absent: the balance AddNewLock restarts at 0 is the balance read *)
  assert (Hb : r_unlock (read L (add_key a)) = 0 -> r_bal (read L (add_key a)) = 0%Z).
  { intros H. unfold read. rewrite (read_zero_none L _ NZ H). reflexivity. }
  destruct (read L (add_key a)) as [b u e dg]. cbn [r_bal r_unlock r_elems r_deleg] in *.
  rewrite (Z.ltb_antisym _ 0), (Z.ltb_antisym _ (b + a_value a)).
  destruct (internal (a_owner a) && is_quai (a_owner a)); [|reflexivity].
  destruct (internal (a_miner a)); [|reflexivity].
  destruct (a_sender_ok a); [|reflexivity].
  destruct (a_value a <=? 0)%Z; [reflexivity|].
  destruct (negb (u =? 0) && (a_unlock a <? u)); [reflexivity|].
  destruct ((a_epoch a =? 0) && negb (u =? 0)); [reflexivity|].
  cbn [negb andb]. destruct (u =? 0) eqn:U.
  - apply N.eqb_eq in U. rewrite (Hb U). destruct (two256 <=? 0 + a_value a)%Z; reflexivity.
  - destruct (two256 <=? b + a_value a)%Z; reflexivity.
Qed.

Lemma step_add_ledger L a : nonzero_heights L ->
  fst (step L (OAdd a)) = if add_guards L a then put (add_key a) (new_rec L a) L else L.
Proof. intros NZ. cbn [step]. rewrite add_core_spec by exact NZ. destruct (add_guards L a); reflexivity. Qed.

Lemma add_guards_value L a : add_guards L a = true -> (0 < a_value a)%Z.
Proof.
  unfold add_guards. intros H. apply andb_prop in H as [H _]. apply andb_prop in H as [H _].
  apply andb_prop in H as [H _]. apply andb_prop in H as [_ H]. lia.
Qed.

Lemma add_guards_again L L' a :
  r_unlock (read L' (add_key a)) = r_unlock (read L (add_key a)) ->
  (r_bal (read L' (add_key a)) + a_value a <? two256)%Z = true ->
  add_guards L a = true -> add_guards L' a = true.
Proof. unfold add_guards. intros -> Hb H. apply andb_prop in H as [H _]. rewrite H. exact Hb. Qed.

Definition claim_guards (L : ledger) (c : claimargs) : bool :=
  internal (c_caller c) && is_quai (c_caller c) && internal (c_miner c) &&
  (c_epoch c <? (c_height c / E + 1) mod two32) &&
  negb ((is_qi (c_miner c) && is_quai (c_to c)) || (is_quai (c_miner c) && is_qi (c_to c))) &&
  negb (r_unlock (read L (claim_key c)) =? 0) &&
  (r_unlock (read L (claim_key c)) <=? c_height c mod two32) &&
  negb (r_elems (read L (claim_key c)) =? 0).

Lemma claim_guards_timing L c : claim_guards L c = true ->
  r_unlock (read L (claim_key c)) <> 0 /\
  r_unlock (read L (claim_key c)) <= c_height c mod two32 /\
  c_epoch c < (c_height c / E + 1) mod two32 /\
  r_elems (read L (claim_key c)) <> 0.
Proof.
  unfold claim_guards. intros H.
  apply andb_prop in H as [H He]. apply andb_prop in H as [H Hu]. apply andb_prop in H as [H Hz].
  apply andb_prop in H as [H _]. apply andb_prop in H as [_ Hep].
  apply negb_true_iff, N.eqb_neq in He, Hz. apply N.leb_le in Hu. apply N.ltb_lt in Hep. auto.
Qed.

Lemma claim_guards_absent L c : get (claim_key c) L = None -> claim_guards L c = false.
Proof.
  intros G. unfold claim_guards, read. rewrite G. cbn [empty_rec r_unlock].
  rewrite N.eqb_refl. cbn [negb]. rewrite !andb_false_r. reflexivity.
Qed.

Lemma claim_check_spec L c :
  claim_check L c = if claim_guards L c then Some (read L (claim_key c)) else None.
Proof.
  unfold claim_check, claim_guards.
  rewrite (N.ltb_antisym _ (c_epoch c)), (N.leb_antisym _ (r_unlock (read L (claim_key c)))).
  destruct (internal (c_caller c) && is_quai (c_caller c)); [|reflexivity].
  destruct (internal (c_miner c)); [|reflexivity].
  destruct ((c_height c / E + 1) mod two32 <=? c_epoch c); [reflexivity|].
  destruct ((is_qi (c_miner c) && is_quai (c_to c)) || (is_quai (c_miner c) && is_qi (c_to c))); [reflexivity|].
  destruct (r_unlock (read L (claim_key c)) =? 0); [reflexivity|].
  destruct (c_height c mod two32 <? r_unlock (read L (claim_key c))); [reflexivity|].
  destruct (r_elems (read L (claim_key c)) =? 0); reflexivity.
Qed.

Lemma step_claim_ledger L m c :
  fst (step L (OClaim m c)) =
    if claim_goes c m then
      match claim_check L c with
      | Some r => match m with
                  | TxFailed => put (claim_key c) r (del (claim_key c) L)
                  | _ => del (claim_key c) L
                  end
      | None => L
      end
    else L.
Proof.
  unfold step, claim_goes.
  destruct m; cbn [andb negb]; try (destruct (c_gas c <? c_etxgas c); cbn [negb fst]; [reflexivity|]);
    destruct (claim_check L c); reflexivity.
Qed.

Definition paid_of (r : out) : option paid := match r with RClaim _ _ p _ => p | _ => None end.

Lemma step_claim_paid L m c :
  paid_of (snd (step L (OClaim m c))) =
    if claim_goes c m then
      match claim_check L c, m with
      | Some r, (TxOk | EvmOk) => Some (mkPaid (r_bal r) (c_to c) (c_caller c) (c_etxgas c))
      | _, _ => None
      end
    else None.
Proof.
  unfold step, claim_goes.
  destruct m; cbn [andb negb]; try (destruct (c_gas c <? c_etxgas c); cbn [negb snd paid_of]; [reflexivity|]);
    destruct (claim_check L c); reflexivity.
Qed.

Lemma claim_refused L m c : claim_guards L c = false ->
  paid_of (snd (step L (OClaim m c))) = None /\ fst (step L (OClaim m c)) = L.
Proof.
  intros G. rewrite step_claim_paid, step_claim_ledger, claim_check_spec, G.
  destruct (claim_goes c m); split; reflexivity.
Qed.

Lemma claim_pays_spec L m c p :
  paid_of (snd (step L (OClaim m c))) = Some p ->
  let r := read L (claim_key c) in
  get (claim_key c) L = Some r /\ claim_guards L c = true /\
  p = mkPaid (r_bal r) (c_to c) (c_caller c) (c_etxgas c) /\
  fst (step L (OClaim m c)) = del (claim_key c) L.
Proof.
  rewrite step_claim_paid, step_claim_ledger, claim_check_spec.
  destruct (claim_goes c m); [|discriminate].
  destruct (claim_guards L c) eqn:G; [|destruct m; discriminate].
  pose proof (claim_guards_timing L c G) as (U & _). apply read_nonzero_some in U.
  destruct m; try discriminate; intros [= <-]; cbn zeta; repeat split; exact U.
Qed.

Definition op_key (o : op) : option key :=
  match o with OAdd a => Some (add_key a) | OClaim _ c => Some (claim_key c) | _ => None end.

Lemma step_no_key L o : op_key o = None -> fst (step L o) = L.
Proof.
  destruct o as [a|m c|ow mi lb ep|ow mi lb h|]; try discriminate; intros _; [|reflexivity|reflexivity].
  cbn [step]. destruct (negb (internal ow && is_quai ow)); [|destruct (negb (internal mi))]; reflexivity.
Qed.

(* [shape L o L' a p b]: o takes L to L' and books a as added, p as paid, b as destroyed *)
Inductive shape (L : ledger) : op -> ledger -> Z -> Z -> Z -> Prop :=
| sh_idle o : shape L o L 0 0 0
| sh_reward a : shape L (OAdd a) (put (add_key a) (new_rec L a) L) (a_value a) 0 0
| sh_release m c p b : (p + b = bal_at L (claim_key c))%Z -> shape L (OClaim m c) (del (claim_key c) L) 0 p b.

Lemma step_shape L o : Inv L -> shape L o (fst (step L o)) (added_by L o) (paid_by L o) (burned_by L o).
Proof.
  intros [S NZ]. destruct o as [a|m c|ow mi lb ep|ow mi lb h|].
  3-5: rewrite step_no_key by reflexivity; apply sh_idle.
  - rewrite step_add_ledger by exact NZ. cbn [added_by paid_by burned_by]. rewrite add_core_spec by exact NZ.
    destruct (add_guards L a); constructor.
  - rewrite step_claim_ledger. cbn [added_by paid_by burned_by]. rewrite claim_check_spec.
    destruct (claim_goes c m) eqn:Go.
    2:{ destruct m; try discriminate Go; apply sh_idle. }
    destruct (claim_guards L c) eqn:G.
    2:{ destruct m; apply sh_idle. }
    destruct m; try (apply sh_release; unfold bal_at; lia).
    apply claim_guards_timing in G as (U & _). apply read_nonzero_some in U.
    rewrite put_del_restore by assumption. apply sh_idle.
Qed.

Lemma step_preserves_inv L o : Inv L -> op_wf o -> Inv (fst (step L o)).
Proof.
  intros I W. destruct (step_shape L o I) as [o|a|m c p b _].
  - exact I.
  - apply put_preserves_inv; [exact I|]. unfold new_rec; cbn [r_unlock].
    destruct (r_unlock (read L (add_key a)) =? 0) eqn:Z0; [exact W|lia].
  - apply del_preserves_inv; exact I.
Qed.

Lemma step_other_key L o k : Inv L -> op_key o <> Some k -> get k (fst (step L o)) = get k L.
Proof.
  intros I Hk. destruct (step_shape L o I) as [o|a|m c p b _].
  - reflexivity.
  - apply get_put_other. intros ->. apply Hk. reflexivity.
  - apply get_del_other; [apply I|]. intros ->. apply Hk. reflexivity.
Qed.

Lemma run_state_app L a b : run_state L (a ++ b) = run_state (run_state L a) b.
Proof. unfold run_state. apply fold_left_app. Qed.

Lemma run_state_cons L o t : run_state L (o :: t) = run_state (fst (step L o)) t.
Proof. reflexivity. Qed.

Lemma run_preserves_inv ops L : Inv L -> Forall op_wf ops -> Inv (run_state L ops).
Proof.
  intros I W. rewrite Forall_forall in W. apply (fold_left_inv Inv); [|exact I].
  intros L' o Ho I'. exact (step_preserves_inv L' o I' (W o Ho)).
Qed.

Definition at_key (k : key) (f : ledger -> op -> Z) (L : ledger) (o : op) : Z :=
  match op_key o with Some k' => if keqb k' k then f L o else 0%Z | None => 0%Z end.

Lemma step_accounting_key k L o : Inv L ->
  (bal_at (fst (step L o)) k + at_key k paid_by L o + at_key k burned_by L o
   = bal_at L k + at_key k added_by L o)%Z.
Proof.
  intros I. unfold at_key. destruct (step_shape L o I) as [o|a|m c p b PB].
  - destruct (op_key o) as [k'|]; [destruct (keqb k' k)|]; lia.
  - unfold bal_at. cbn [op_key]. rewrite read_put, (keqb_sym k).
    destruct (keqb (add_key a) k) eqn:Ek; [apply keqb_eq in Ek; subst k; cbn [new_rec r_bal]|]; lia.
  - unfold bal_at in *. cbn [op_key]. rewrite read_del, (keqb_sym k) by apply I.
    destruct (keqb (claim_key c) k) eqn:Ek; [apply keqb_eq in Ek; subst k; cbn [empty_rec r_bal]|]; lia.
Qed.

Lemma step_accounting_total L o : Inv L ->
  (total (fst (step L o)) + paid_by L o + burned_by L o = total L + added_by L o)%Z.
Proof.
  intros I. destruct (step_shape L o I) as [o|a|m c p b PB].
  - lia.
  - rewrite total_put. unfold new_rec; cbn [r_bal]. fold (bal_at L (add_key a)). lia.
  - rewrite total_del. lia.
Qed.

Lemma history_sum (mu : ledger -> Z) (fa fp fb : ledger -> op -> Z) :
  (forall L o, Inv L -> (mu (fst (step L o)) + fp L o + fb L o = mu L + fa L o)%Z) ->
  forall ops L, Inv L -> Forall op_wf ops ->
  (mu (run_state L ops) + sum_over fp L ops + sum_over fb L ops = mu L + sum_over fa L ops)%Z.
Proof.
  intros Hstep. induction ops as [|o t IH]; intros L I W; [cbn; lia|].
  inversion W as [|? ? Wo Wt]; subst. rewrite run_state_cons. cbn [sum_over].
  pose proof (Hstep L o I). pose proof (IH _ (step_preserves_inv L o I Wo) Wt). lia.
Qed.

Lemma history_accounting_key ops L k : Inv L -> Forall op_wf ops ->
  (bal_at (run_state L ops) k + sum_over (at_key k paid_by) L ops + sum_over (at_key k burned_by) L ops
   = bal_at L k + sum_over (at_key k added_by) L ops)%Z.
Proof. exact (history_sum (fun L => bal_at L k) _ _ _ (step_accounting_key k) ops L). Qed.

Lemma history_accounting_total ops L : Inv L -> Forall op_wf ops ->
  (total (run_state L ops) + sum_over paid_by L ops + sum_over burned_by L ops
   = total L + sum_over added_by L ops)%Z.
Proof. exact (history_sum total _ _ _ step_accounting_total ops L). Qed.

Definition no_inner_revert (o : op) : Prop := match o with OClaim EvmInnerRevert _ => False | _ => True end.

Lemma burned_zero_without_revert ops : forall L, Forall no_inner_revert ops -> sum_over burned_by L ops = 0%Z.
Proof.
  induction ops as [|o t IH]; intros L F; [reflexivity|].
  inversion F as [|? ? Fo Ft]; subst. cbn [sum_over]. rewrite IH by exact Ft.
  destruct o as [a|m c| | |]; cbn [burned_by]; try lia. destruct m; cbn [burned_by] in *; try lia. contradiction.
Qed.

Definition not_add_to (k : key) (o : op) : Prop := match o with OAdd a => add_key a <> k | _ => True end.

Lemma get_none_step L o k : Inv L -> get k L = None -> not_add_to k o -> get k (fst (step L o)) = None.
Proof.
  intros I G N. destruct (step_shape L o I) as [o|a|m c p b _].
  - exact G.
  - rewrite get_put_other; [exact G|]. intro E. exact (N (eq_sym E)).
  - rewrite get_del by apply I. destruct (keqb k (claim_key c)); [reflexivity|exact G].
Qed.

Lemma get_none_run ops L k : Inv L -> Forall op_wf ops -> Forall (not_add_to k) ops ->
  get k L = None -> get k (run_state L ops) = None.
Proof.
  intros I W N G. rewrite Forall_forall in W, N.
  apply (fold_left_inv (fun L => Inv L /\ get k L = None)); [|exact (conj I G)].
  intros L' o Ho [I' G']. split; [exact (step_preserves_inv L' o I' (W o Ho))|exact (get_none_step L' o k I' G' (N o Ho))].
Qed.

Lemma repeat_succ {A} (x : A) n : repeat x (N.to_nat (N.succ n)) = x :: repeat x (N.to_nat n).
Proof. rewrite N2Nat.inj_succ. reflexivity. Qed.

Lemma adds_to_tranche a n : forall L, Inv L -> op_wf (OAdd a) ->
  r_unlock (read L (add_key a)) <> 0 -> r_elems (read L (add_key a)) < two16 -> add_guards L a = true ->
  (r_bal (read L (add_key a)) + Z.of_N n * a_value a < two256)%Z ->
  let r' := read (run_state L (repeat (OAdd a) (N.to_nat n))) (add_key a) in
  r_bal r' = (r_bal (read L (add_key a)) + Z.of_N n * a_value a)%Z /\
  r_unlock r' = r_unlock (read L (add_key a)) /\
  r_elems r' = (r_elems (read L (add_key a)) + n) mod two16.
Proof.
  intros L I W U El G. pose proof (add_guards_value L a G) as V.
  induction n as [|n IH] using N.peano_ind; intros B; cbn zeta.
  - cbn [N.to_nat repeat run_state fold_left]. rewrite N.add_0_r, N.mod_small by exact El. repeat split; lia.
  - rewrite repeat_succ, repeat_cons, run_state_app.
    destruct IH as (Hb & Hu & He); [lia|].
    set (Ln := run_state L (repeat (OAdd a) (N.to_nat n))) in *.
    assert (In' : Inv Ln).
    { apply run_preserves_inv; [exact I|]. apply Forall_forall. intros o Ho. apply repeat_spec in Ho. subst o. exact W. }
    assert (Gn : add_guards Ln a = true) by (apply (add_guards_again L); [exact Hu|lia|exact G]).
    cbn [run_state fold_left]. rewrite step_add_ledger, Gn, read_put, keqb_refl by apply In'.
    unfold new_rec; cbn [r_bal r_unlock r_elems]. rewrite Hb, Hu, He.
    apply N.eqb_neq in U. rewrite U. rewrite N.add_mod_idemp_l by discriminate.
    repeat split; [lia|f_equal; lia].
Qed.

Lemma enc_owner_inj o m l e o' m' l' e' :
  length o = length o' -> enc o m l e = enc o' m' l' e' -> o = o'.
Proof. unfold enc. intros Hl H. apply app_inv_length in H as [H _]; assumption. Qed.

Definition be_val (bs : list N) : N := fold_left (fun v b => v * 256 + b) bs 0.

Lemma div_byte e m : m <> 0 -> e / m = 256 * (e / (m * 256)) + e / m mod 256.
Proof. intros Hm. rewrite <- N.div_div by (exact Hm || discriminate). apply N.div_mod. discriminate. Qed.

Lemma be4_val e : e < two32 -> be_val (be4 e) = e.
Proof.
  intros H. unfold be_val, be4. cbn [fold_left].
  pose proof (div_byte e 256 ltac:(discriminate)) as H1. change (256 * 256) with 65536 in H1.
  pose proof (div_byte e 65536 ltac:(discriminate)) as H2. change (65536 * 256) with 16777216 in H2.
  rewrite (N.mod_small (e / 16777216) 256) by (apply N.div_lt_upper_bound; [discriminate|exact H]).
  (* from the top byte down, each step puts one quotient back together *)
  rewrite N.mul_0_l, N.add_0_l, (N.mul_comm (e / 16777216)), <- H2, (N.mul_comm (e / 65536)), <- H1, (N.mul_comm (e / 256)).
  symmetry. apply N.div_mod. discriminate.
Qed.

Lemma be4_inj e e' : e < two32 -> e' < two32 -> be4 e = be4 e' -> e = e'.
Proof. intros H H' Heq. rewrite <- (be4_val e H), <- (be4_val e' H'), Heq. reflexivity. Qed.

Definition w_owner : addr := [0;1;1;0;0;0;0;0;0;0;0;0;0;0;0;0;0;0;0;1].
Definition w_miner : addr := [0;16;1;0;0;0;0;0;0;0;0;0;0;0;0;0;0;0;0;1].
Definition w_to : addr := [0;32;1;0;0;0;0;0;0;0;0;0;0;0;0;0;0;0;0;1].
Definition w_depth0 : N := nth 0 depths 0.
Definition w_add (v : Z) : addargs := mkAdd w_owner w_miner zero_addr true 0 (100 + w_depth0) 1 v.
Definition w_th : N := (100 + w_depth0) - (100 + w_depth0) mod E.
Definition w_claim (h : N) : claimargs := mkClaim w_owner w_miner w_to 0 1 h 100000 21000.

Lemma w_add_wf v : depths_ge_epoch = true -> op_wf (OAdd (w_add v)).
Proof. intros _. cbn [op_wf]. intro H. vm_compute in H. discriminate. Qed.
