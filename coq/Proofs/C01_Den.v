(* C01 -- CheckDenominations: accepted iff no value moves to a higher denomination.
   Stated over the generated table types.Denominations with decidable side conditions. *)
From Coq Require Import List NArith Lia.
From GQ Require Import Generated.C01Params Model.C01.
Import ListNotations.
Local Open Scope N_scope.

(* side conditions on the generated constants (re-checked whenever the source changes) *)
Definition levels : list N := map N.of_nat (seq 1 (N.to_nat max_denomination)).
Definition denoms_ok : bool :=
  (len denominations =? max_denomination + 1)
  && (denominations_map_size =? max_denomination + 1)
  && forallb (fun d => 0 <? d) denominations
  && forallb (fun i => den_value i mod den_value (i - 1) =? 0) levels.

Lemma denoms_ok_true : denoms_ok = true.
Proof. vm_compute. reflexivity. Qed.

Lemma denoms_facts :
  length denominations = S (N.to_nat max_denomination)
  /\ (forall d, In d denominations -> 0 < d)
  /\ (forall i, In i levels -> den_value i mod den_value (i - 1) = 0).
Proof.
  pose proof denoms_ok_true as H. unfold denoms_ok, len in H.
  apply andb_prop in H as (H & Hdiv). apply andb_prop in H as (H & Hpos). apply andb_prop in H as (Hlen & _).
  rewrite forallb_forall in Hpos, Hdiv. apply N.eqb_eq in Hlen.
  split; [lia|]. split; intros x Hx; [apply N.ltb_lt, Hpos, Hx|apply N.eqb_eq, Hdiv, Hx].
Qed.

Lemma den_value_pos d : d <= max_denomination -> 0 < den_value d.
Proof. intros H. destruct denoms_facts as (Hlen & Hpos & _). apply Hpos, nth_In. lia. Qed.

Lemma den_value_beyond d : max_denomination < d -> den_value d = 0.
Proof. intros H. destruct denoms_facts as (Hlen & _). apply nth_overflow. lia. Qed.

Lemma den_value_step d : d < max_denomination ->
  den_value (N.succ d) = den_value (N.succ d) / den_value d * den_value d.
Proof.
  intros H. destruct denoms_facts as (_ & _ & Hdiv).
  specialize (Hdiv (N.succ d)). rewrite N.sub_1_r, N.pred_succ in Hdiv.
  rewrite N.mul_comm. apply N.div_exact; [pose proof (den_value_pos d); lia|].
  apply Hdiv, in_map_iff. exists (N.to_nat (N.succ d)). split; [lia|]. apply in_seq. lia.
Qed.

Definition vge (d : N) (l : list N) : N := sum_den (filter (N.leb d) l).

Lemma sum_den_cons x l : sum_den (x :: l) = den_value x + sum_den l.
Proof. reflexivity. Qed.

Lemma count_cons d x l : count d (x :: l) = (if d =? x then 1 else 0) + count d l.
Proof. unfold count, len; cbn [filter]. destruct (d =? x); cbn [length]; lia. Qed.

Lemma vge_split d l : vge d l = count d l * den_value d + vge (N.succ d) l.
Proof.
  unfold vge. induction l as [|x l IH]; [reflexivity|].
  rewrite count_cons. cbn [filter].
  destruct (N.leb_spec d x) as [E1|E1], (N.leb_spec (N.succ d) x) as [E2|E2], (N.eqb_spec d x) as [E3|E3];
    rewrite ?sum_den_cons, IH; try lia.
  subst. lia.
Qed.

Lemma vge_le_total d l : vge d l <= sum_den l.
Proof.
  unfold vge. induction l as [|x l IH]; cbn [filter]; [lia|].
  destruct (d <=? x); rewrite ?sum_den_cons; lia.
Qed.

Lemma vge_top l : vge (N.succ max_denomination) l = 0.
Proof.
  unfold vge. induction l as [|x l IH]; cbn [filter]; [reflexivity|].
  destruct (N.leb_spec (N.succ max_denomination) x) as [E|E]; [|exact IH].
  rewrite sum_den_cons, IH, den_value_beyond; lia.
Qed.

Lemma two64_pos : 0 < two64.
Proof. reflexivity. Qed.

Lemma le_mul_pos x d : 0 < d -> x <= x * d.
Proof. intros H. rewrite <- (N.mul_1_r x) at 1. apply N.mul_le_mono_l. lia. Qed.

(* one level of the loop in numbers: x units of value D are at hand (inputs of this denomination plus the
   carry), co are asked for, the level below is worth Dp = D / q; nothing reaches 2^64 because every product
   is bounded by the input value Vi *)
Lemma level_arith x co D Dp q Vo Vi : 0 < D -> 0 < Dp -> D = q * Dp -> x * D + Vo = Vi -> Vi < two64 ->
  x < two64
  /\ (co <= x -> (x - co) * q < two64 /\ (x - co) * q * Dp + (co * D + Vo) = Vi)
  /\ (x < co -> Vi < co * D + Vo).
Proof.
  intros HD HDp Hq Hx Hb. pose proof (le_mul_pos x D HD) as Hxd. split; [lia|]. split.
  - intros Hc. pose proof (le_mul_pos ((x - co) * q) Dp HDp) as Hyd.
    assert ((x - co) * q * Dp + co * D = x * D) as Hy
        by (rewrite <- N.mul_assoc, <- Hq, <- N.mul_add_distr_r, N.sub_add by exact Hc; reflexivity).
    lia.
  - intros Hc. apply (N.mul_lt_mono_pos_r D x co HD) in Hc. lia.
Qed.

Lemma check_den_loop_succ n carry ins outs :
  check_den_loop (N.to_nat (N.succ n)) carry ins outs =
  let total := (count (N.succ n) ins + carry) mod two64 in
  if count (N.succ n) outs <=? total
  then check_den_loop (N.to_nat n) ((total - count (N.succ n) outs) * (den_value (N.succ n) / den_value n) mod two64) ins outs
  else false.
Proof.
  rewrite N2Nat.inj_succ. cbn [check_den_loop]. rewrite <- N2Nat.inj_succ, N2Nat.id, N.sub_1_r, N.pred_succ. reflexivity.
Qed.

Lemma upto_succ (P : N -> Prop) n :
  (forall d, 1 <= d <= N.succ n -> P d) <-> P (N.succ n) /\ forall d, 1 <= d <= n -> P d.
Proof.
  split.
  - intros H. split; [apply H; lia|]. intros d Hd. apply H. lia.
  - intros (Hn & H) d Hd. destruct (N.eq_dec d (N.succ n)) as [->|Hne]; [exact Hn|apply H; lia].
Qed.

(* the loop invariant: carry * D(n) is the value the inputs of denomination > n have in
   excess of the outputs of denomination > n; nothing wraps while the input value fits 64 bits *)
Lemma check_den_loop_spec ins outs : sum_den ins < two64 -> forall n carry,
  n <= max_denomination ->
  carry * den_value n + vge (N.succ n) outs = vge (N.succ n) ins ->
  (check_den_loop (N.to_nat n) carry ins outs = true <->
   forall d, 1 <= d <= n -> vge d outs <= vge d ins).
Proof.
  intros Hb. induction n as [|n IH] using N.peano_ind; intros carry Hn Hinv.
  - split; [intros _ d Hd; lia|reflexivity].
  - rewrite check_den_loop_succ, upto_succ. cbv zeta.
    assert (n < max_denomination) as Hn' by lia.
    assert ((count (N.succ n) ins + carry) * den_value (N.succ n) + vge (N.succ (N.succ n)) outs = vge (N.succ n) ins) as Hx
        by (rewrite (vge_split (N.succ n) ins), <- Hinv, N.mul_add_distr_r, N.add_assoc; reflexivity).
    destruct (level_arith _ (count (N.succ n) outs) _ _ _ _ _ (den_value_pos _ Hn) (den_value_pos n (N.lt_le_incl _ _ Hn'))
                (den_value_step n Hn') Hx (N.le_lt_trans _ _ _ (vge_le_total _ ins) Hb))
      as (Hsmall & Hge & Hlt).
    rewrite <- (vge_split (N.succ n) outs) in Hge, Hlt. rewrite (N.mod_small _ _ Hsmall).
    destruct (N.leb_spec (count (N.succ n) outs) (count (N.succ n) ins + carry)) as [Ec|Ec].
    + destruct (Hge Ec) as (Hsmall' & Hinv').
      rewrite (N.mod_small _ _ Hsmall'), (IH _ (N.lt_le_incl _ _ Hn') Hinv').
      split; [split; [rewrite <- Hinv'; apply N.le_add_l|assumption]|tauto].
    + split; [discriminate|]. intros (H & _). apply N.le_ngt in H. destruct (H (Hlt Ec)).
Qed.

Lemma check_denominations_iff ins outs : sum_den ins < two64 ->
  (check_denominations ins outs = true <->
   forall d, 1 <= d <= max_denomination -> vge d outs <= vge d ins).
Proof.
  intros Hb. apply (check_den_loop_spec ins outs Hb max_denomination 0); [apply N.le_refl|]. rewrite !vge_top. reflexivity.
Qed.
