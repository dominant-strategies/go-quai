(* C14_ProtoWireNF — the decoder of Lib/C14_ProtoWire.v only returns normal forms.

   decode_wf          : schema_ok sc -> wf_bytes b -> decode sc id b = Some m -> wf_msg sc id m = true
   decode_idempotent  : ... -> len (encode m) < 2^64 -> decode sc id (encode m) = Some m
                        (decode ∘ encode ∘ decode = decode)
   decode_reencode_iff: ... -> decode sc id b = Some m -> (encode m = b <-> b is the encoding of a well-formed message)
   ordered_same_key, ordered_app : [ordered] for entries of one key, for a concatenation
   No axioms. *)
From Coq Require Import List NArith Lia Bool.
From GQ Require Import Lib.Key Lib.C14_Varint Lib.C14_ProtoWire Lib.C14_ProtoWireFacts.
Import ListNotations.
Local Open Scope N_scope.

(* The normal form asks of a value read from the wire only that its payload is made of bytes: an integer is
   reduced to the width of its field by [build_int] whatever it was. *)
Definition wf_wv (w : wval) : Prop := wf_bytes (w_bytes w).
Definition wf_rec (r : record) : Prop := wf_wv (snd r).

Lemma wf_bytes_cut n (b : bytes) : wf_bytes b -> wf_bytes (firstn n b) /\ wf_bytes (skipn n b).
Proof. intros H. apply Forall_app. rewrite firstn_skipn. exact H. Qed.

Lemma varint_rest_wf b n r : wf_bytes b -> C14_Varint.decode b = Some (n, r) -> wf_bytes r.
Proof.
  intros W H. destruct (C14_Varint.decode_consumes _ _ _ H) as (c & -> & _). apply Forall_app in W. apply W.
Qed.

Lemma take_wf n b x r : wf_bytes b -> take n b = Some (x, r) -> wf_bytes r.
Proof.
  unfold take. destruct (Nat.ltb (length b) n); [discriminate|]. intros W H. injection H as <- <-.
  apply (wf_bytes_cut n b W).
Qed.

Lemma parse_record_wf b r rest : wf_bytes b -> parse_record b = Some (r, rest) -> wf_rec r /\ wf_bytes rest.
Proof.
  intros W. unfold parse_record.
  destruct (C14_Varint.decode b) as [[t r0]|] eqn:D; [|discriminate].
  pose proof (varint_rest_wf _ _ _ W D) as W0.
  destruct ((t / 8 =? 0) || (max_field <? t / 8)); [discriminate|].
  destruct (t mod 8 =? 0).
  { destruct (C14_Varint.decode r0) as [[v r']|] eqn:D2; [|discriminate]. intros H. injection H as <- <-.
    split; [constructor|exact (varint_rest_wf _ _ _ W0 D2)]. }
  destruct (t mod 8 =? 1).
  { destruct (take 8 r0) as [[x r']|] eqn:T; [|discriminate]. intros H. injection H as <- <-.
    split; [constructor|exact (take_wf _ _ _ _ W0 T)]. }
  destruct (t mod 8 =? 2).
  { destruct (C14_Varint.decode r0) as [[l r']|] eqn:D2; [|discriminate].
    destruct (len r' <? l); [discriminate|]. intros H. injection H as <- <-.
    exact (wf_bytes_cut (N.to_nat l) r' (varint_rest_wf _ _ _ W0 D2)). }
  destruct (t mod 8 =? 5); [|discriminate].
  destruct (take 4 r0) as [[x r']|] eqn:T; [|discriminate]. intros H. injection H as <- <-.
  split; [constructor|exact (take_wf _ _ _ _ W0 T)].
Qed.

Lemma parse_records_wf fuel : forall b rs, wf_bytes b -> parse_records fuel b = Some rs -> Forall wf_rec rs.
Proof.
  induction fuel as [|f IH]; intros b rs W H.
  - destruct b; [injection H as <-; constructor|discriminate].
  - destruct b as [|x b']; [injection H as <-; constructor|]. cbn [parse_records] in H.
    destruct (parse_record (x :: b')) as [[r rest]|] eqn:P; [|discriminate].
    destruct (parse_records f rest) as [rs'|] eqn:R; [|discriminate]. injection H as <-.
    destruct (parse_record_wf _ _ _ W P) as [Wr Wrest].
    constructor; [exact Wr|]. eapply IH; eassumption.
Qed.

Lemma parse_wf b rs : wf_bytes b -> parse b = Some rs -> Forall wf_rec rs.
Proof. apply parse_records_wf. Qed.

Lemma collect_wf fd others rs : Forall wf_rec rs -> forall w, In w (collect fd others rs []) -> wf_wv w.
Proof.
  intros F w H. apply collect_incl, in_map_iff in H as (r & <- & Hr). apply filter_In in Hr as [Hr _].
  rewrite Forall_forall in F. exact (F r Hr).
Qed.

(* two members of one oneof never both keep values *)
Lemma collect_exclusive fd1 fd2 o1 o2 rs :
  f_num fd1 <> f_num fd2 -> In fd2 o1 -> In fd1 o2 ->
  forall a1 a2, a1 = [] \/ a2 = [] ->
  collect fd1 o1 rs a1 = [] \/ collect fd2 o2 rs a2 = [].
Proof.
  intros Hne H21 H12. induction rs as [|r rs IH]; intros a1 a2 Ha; cbn [collect]; [exact Ha|].
  destruct (matches fd1 r) eqn:M1.
  - (* r sets fd1: it resets fd2 *)
    assert (M2 : matches fd2 r = false).
    { unfold matches in *. apply andb_prop in M1 as [E _]. apply N.eqb_eq in E.
      rewrite E. apply N.eqb_neq in Hne. rewrite Hne. reflexivity. }
    rewrite M2. assert (X : existsb (fun o => matches o r) o2 = true) by (apply existsb_exists; exists fd1; auto).
    rewrite X. apply IH. right. reflexivity.
  - destruct (matches fd2 r) eqn:M2.
    + assert (X : existsb (fun o => matches o r) o1 = true) by (apply existsb_exists; exists fd2; auto).
      rewrite X. apply IH. left. reflexivity.
    + destruct (existsb (fun o => matches o r) o1), (existsb (fun o => matches o r) o2); apply IH; tauto.
Qed.

Lemma ordered_same_key desc k : forall es, (forall e, In e es -> fst e = k) ->
  (rep_num desc k = false -> (length es <= 1)%nat) -> ordered desc es = true.
Proof.
  induction es as [|x [|y es'] IH]; intros Hk Hr; [reflexivity|reflexivity|]. rewrite ordered_cons.
  rewrite (Hk x), (Hk y), N.eqb_refl by (cbn [In]; auto).
  destruct (rep_num desc k); [|specialize (Hr eq_refl); cbn [length] in Hr; lia].
  rewrite orb_true_r. apply IH; [intros; apply Hk; right; assumption|discriminate].
Qed.

Lemma ordered_app desc : forall a b, ordered desc a = true -> ordered desc b = true ->
  (forall x y, In x a -> In y b -> fst x < fst y) -> ordered desc (a ++ b) = true.
Proof.
  induction a as [|x [|x' a'] IH]; intros b Ha Hb Hlt; [exact Hb| |].
  - cbn [app]. destruct b as [|y b']; [reflexivity|]. rewrite ordered_cons, Hb.
    specialize (Hlt x y (or_introl eq_refl) (or_introl eq_refl)). apply N.ltb_lt in Hlt. rewrite Hlt. reflexivity.
  - cbn [app]. rewrite ordered_cons in *. apply andb_prop in Ha as [Ha1 Ha2]. rewrite Ha1.
    apply (IH b Ha2 Hb). intros; apply Hlt; [right|]; assumption.
Qed.

(* what the decoder makes of one field ([] where [build] fails, and [interp_fields] with it) *)
Definition group (rec : N -> list record -> option msg) (all : msgdesc) (rs : list record) (fd : field) : msg :=
  match build rec fd (collect fd (others_of all fd) rs []) with Some es => es | None => [] end.

Lemma interp_fields_groups rec all rs : forall todo m, interp_fields rec todo all rs = Some m ->
  m = flat_map (group rec all rs) todo.
Proof.
  induction todo as [|fd t IH]; intros m H; cbn [interp_fields] in H.
  - injection H as <-. reflexivity.
  - destruct (overwritten_ok rec fd (others_of all fd) rs); [|discriminate]. cbn [flat_map]. unfold group at 1.
    destruct (build rec fd (collect fd (others_of all fd) rs [])) as [a|]; [|discriminate].
    destruct (interp_fields rec t all rs) as [b|]; [|discriminate]. injection H as <-.
    rewrite (IH b eq_refl). reflexivity.
Qed.

Lemma ordered_groups desc (g : field -> msg) : forall todo prev,
  nums_increasing prev todo = true ->
  (forall fd, In fd todo -> (forall e, In e (g fd) -> fst e = f_num fd) /\
                            (rep_num desc (f_num fd) = false -> (length (g fd) <= 1)%nat)) ->
  ordered desc (flat_map g todo) = true /\ forall e, In e (flat_map g todo) -> prev < fst e.
Proof.
  induction todo as [|fd t IH]; intros prev Hinc F; cbn [flat_map].
  - split; [reflexivity|intros ? []].
  - destruct (F fd (or_introl eq_refl)) as [Hk Hr].
    cbn [nums_increasing] in Hinc. apply andb_prop in Hinc as [Hx Ht]. apply andb_prop in Hx as [Hp _].
    apply N.ltb_lt in Hp. destruct (IH (f_num fd) Ht (fun fd' H => F fd' (or_intror H))) as [IHo IHk]. split.
    + apply ordered_app; [apply (ordered_same_key desc (f_num fd)); assumption|exact IHo|].
      intros x y Hxin Hyin. rewrite (Hk x Hxin). apply IHk. exact Hyin.
    + intros e He. apply in_app_or in He as [He|He]; [rewrite (Hk e He); exact Hp|].
      exact (N.lt_trans _ _ _ Hp (IHk e He)).
Qed.

Lemma oneof_ok_collected desc rs m : nums_increasing 0 desc = true ->
  (forall e, In e m -> exists fd, In fd desc /\ f_num fd = fst e /\ collect fd (others_of desc fd) rs [] <> []) ->
  oneof_ok desc m = true.
Proof.
  intros Hinc H. apply oneof_ok_iff. intros e1 e2 H1 H2.
  destruct (H e1 H1) as (fd1 & Hfd1 & <- & C1). destruct (H e2 H2) as (fd2 & Hfd2 & <- & C2).
  rewrite (oneof_of_field desc Hinc fd1 Hfd1), (oneof_of_field desc Hinc fd2 Hfd2). intros Z S.
  destruct (N.eq_dec (f_num fd1) (f_num fd2)) as [E|Nn]; [exact E|exfalso].
  assert (I21 : In fd2 (others_of desc fd1)) by (apply others_of_iff; repeat split; congruence).
  assert (I12 : In fd1 (others_of desc fd2)) by (apply others_of_iff; repeat split; congruence).
  destruct (collect_exclusive fd1 fd2 _ _ rs Nn I21 I12 [] [] (or_introl eq_refl)); contradiction.
Qed.

Section Build.
  Variables (sc : schema) (rec : N -> list record -> option msg).
  Hypothesis Hrec : forall ref rs m, Forall wf_rec rs -> rec ref rs = Some m -> wf_msg sc ref m = true.

  (* what [build rec fd ws = Some es] guarantees ([build_good]) *)
  Record group_ok (k : kind) (fd : field) (ws : list wval) (es : msg) : Prop := {
    g_entry : forall e, In e es -> fst e = f_num fd /\ wf_val sc k (snd e) = true /\ nonzero_ok fd (snd e) = true;
    g_single : is_rep (f_label fd) = false -> (length es <= 1)%nat;
    g_none : ws = [] -> es = [] }.
  Arguments g_entry {k fd ws es}.
  Arguments g_single {k fd ws es}.
  Arguments g_none {k fd ws es}.

  Lemma group_ok_nil k fd ws : group_ok k fd ws [].
  Proof. split; [intros ? []|cbn; lia|reflexivity]. Qed.

  Lemma group_ok_one k fd w ws v : wf_val sc k v = true -> nonzero_ok fd v = true ->
    group_ok k fd (w :: ws) [(f_num fd, v)].
  Proof. intros Hw Hz. split; [intros e [<-|[]]; auto|cbn; lia|discriminate]. Qed.

  Lemma group_ok_rep k fd ws es : is_rep (f_label fd) = true ->
    (forall e, In e es -> fst e = f_num fd /\ wf_val sc k (snd e) = true) -> (ws = [] -> es = []) ->
    group_ok k fd ws es.
  Proof.
    intros R G E. split.
    - intros e He. destruct (G e He) as [G1 G2]. split; [exact G1|]. split; [exact G2|].
      unfold nonzero_ok. destruct (f_label fd); try discriminate R. reflexivity.
    - rewrite R. discriminate.
    - exact E.
  Qed.

  Lemma build_int_good k fd M ws es : 0 < M ->
    (forall n, n < M -> wf_val sc k (FInt n) = true) ->
    build_int fd M ws = Some es -> group_ok k fd ws es.
  Proof.
    intros HM Hk. unfold build_int. destruct ws as [|w0 ws']; [intros H; injection H as <-; apply group_ok_nil|].
    destruct (last_opt (w0 :: ws')) as [w|]; [|intros H; injection H as <-; apply group_ok_nil].
    set (v := w_int w mod M). destruct (is_imp (f_label fd) && (v =? 0)) eqn:Z; intros H; injection H as <-.
    - apply group_ok_nil.
    - apply group_ok_one; [apply Hk, N.mod_lt, N.neq_0_lt_0, HM|].
      unfold nonzero_ok. destruct (f_label fd); try reflexivity. destruct v; [discriminate Z|reflexivity].
  Qed.

  Lemma parse_all_wf ws rs : (forall w, In w ws -> wf_wv w) -> parse_all ws = Some rs -> Forall wf_rec rs.
  Proof.
    revert rs. induction ws as [|w ws IH]; intros rs W H; cbn [parse_all] in H; [injection H as <-; constructor|].
    destruct (parse (w_bytes w)) as [a|] eqn:P; [|discriminate].
    destruct (parse_all ws) as [b|] eqn:PA; [|discriminate]. injection H as <-.
    apply Forall_app. split.
    - exact (parse_wf _ a (W w (or_introl eq_refl)) P).
    - apply IH; [intros; apply W; right; assumption|reflexivity].
  Qed.

  Lemma each_msg_good ref num ws es : (forall w, In w ws -> wf_wv w) -> each_msg rec ref num ws = Some es ->
    forall e, In e es -> fst e = num /\ wf_val sc (KMsg ref) (snd e) = true.
  Proof.
    revert es. induction ws as [|w ws IH]; intros es W H; cbn [each_msg] in H.
    - injection H as <-. intros ? [].
    - destruct (parse (w_bytes w)) as [rs|] eqn:P; [|discriminate].
      destruct (rec ref rs) as [m|] eqn:R; [|discriminate].
      destruct (each_msg rec ref num ws) as [l|] eqn:E; [|discriminate]. injection H as <-.
      intros e [<-|He]; [|exact (IH l ltac:(intros; apply W; right; assumption) eq_refl e He)].
      cbn [fst snd]. split; [reflexivity|].
      apply (Hrec ref rs m); [|exact R]. exact (parse_wf _ rs (W w (or_introl eq_refl)) P).
  Qed.

  Lemma last_opt_in {A} (l : list A) x : last_opt l = Some x -> In x l.
  Proof.
    induction l as [|a l IH]; [discriminate|]. cbn [last_opt]. destruct l as [|b l'].
    - intros H. injection H as <-. left. reflexivity.
    - intros H. right. apply IH. exact H.
  Qed.

  Lemma build_bytes_good fd ws es : (forall w, In w ws -> wf_wv w) ->
    build_bytes fd ws = Some es -> group_ok KBytes fd ws es.
  Proof.
    intros W. unfold build_bytes. destruct (last_opt ws) as [w|] eqn:Hl; [|intros H; injection H as <-; apply group_ok_nil].
    assert (Hp : wf_val sc KBytes (FBytes (w_bytes w)) = true) by (apply wf_bytesb_iff, W, last_opt_in, Hl).
    destruct ws as [|w0 ws']; [discriminate Hl|].
    revert Hp. destruct (w_bytes w) as [|x p']; intros Hp.
    - (* an empty value is dropped by an implicit-presence field *)
      destruct (is_imp (f_label fd)) eqn:I; intros H; injection H as <-; [apply group_ok_nil|].
      apply group_ok_one; [exact Hp|]. unfold nonzero_ok. destruct (f_label fd); try reflexivity. discriminate I.
    - intros H. injection H as <-. apply group_ok_one; [exact Hp|]. unfold nonzero_ok. destruct (f_label fd); reflexivity.
  Qed.

  Lemma build_msg_good fd ref ws es : (forall w, In w ws -> wf_wv w) ->
    build_msg rec fd ref ws = Some es -> group_ok (KMsg ref) fd ws es.
  Proof.
    intros W. unfold build_msg. destruct ws as [|w0 ws']; [intros H; injection H as <-; apply group_ok_nil|].
    destruct (parse_all (w0 :: ws')) as [rs|] eqn:PA; [|discriminate].
    destruct (rec ref rs) as [m|] eqn:R; [|discriminate]. intros H. injection H as <-.
    apply group_ok_one; [|unfold nonzero_ok; destruct (f_label fd); reflexivity].
    apply (Hrec ref rs m); [|exact R]. exact (parse_all_wf _ _ W PA).
  Qed.

  Lemma build_good fd ws es : (forall w, In w ws -> wf_wv w) ->
    build rec fd ws = Some es -> group_ok (f_kind fd) fd ws es.
  Proof.
    destruct (is_rep (f_label fd)) eqn:R.
    - rewrite build_repeated by exact R.
      destruct (f_kind fd) as [| | |ref|]; intros W H; try discriminate H.
      + injection H as <-. apply group_ok_rep; [exact R| |intros ->; reflexivity].
        intros e He. apply in_map_iff in He as (w & <- & Hw).
        split; [reflexivity|]. apply wf_bytesb_iff. exact (W w Hw).
      + apply group_ok_rep; [exact R| |intros ->; injection H as <-; reflexivity].
        exact (each_msg_good ref (f_num fd) ws es W H).
    - rewrite build_singular by exact R. destruct (f_kind fd) as [| | |ref|]; intros W H; try discriminate H.
      + exact (build_int_good KU32 fd u32 ws es eq_refl (fun n => proj2 (N.ltb_lt n u32)) H).
      + exact (build_int_good KU64 fd u64 ws es eq_refl (fun n => proj2 (N.ltb_lt n u64)) H).
      + exact (build_bytes_good fd ws es W H).
      + exact (build_msg_good fd ref ws es W H).
  Qed.

  Lemma group_good desc rs fd : Forall wf_rec rs ->
    group_ok (f_kind fd) fd (collect fd (others_of desc fd) rs []) (group rec desc rs fd).
  Proof.
    intros W. unfold group. destruct (build rec fd (collect fd (others_of desc fd) rs [])) as [es|] eqn:B; [|apply group_ok_nil].
    apply build_good; [|exact B]. intros w Hw. eapply collect_wf; eassumption.
  Qed.

  Lemma interp_fields_wf desc rs m : nums_increasing 0 desc = true -> Forall wf_rec rs ->
    interp_fields rec desc desc rs = Some m ->
    forallb (entry_ok sc desc) m && ordered desc m && oneof_ok desc m = true.
  Proof.
    intros Hinc Wrs H. rewrite (interp_fields_groups _ _ _ _ _ H). clear H.
    pose proof (fun fd => group_good desc rs fd Wrs) as G.
    apply andb_true_intro. split; [apply andb_true_intro; split|].
    - apply forallb_forall. intros e He. apply in_flat_map in He as (fd & Hfd & Hes).
      destruct (g_entry (G fd) e Hes) as [Hk H]. apply entry_ok_iff. exists fd.
      rewrite Hk. exact (conj (find_field_unique _ _ Hinc _ Hfd) H).
    - apply (ordered_groups desc _ desc 0 Hinc). intros fd Hfd. split; [intros e He; apply (g_entry (G fd) e He)|].
      unfold rep_num. rewrite (find_field_unique _ _ Hinc _ Hfd). exact (g_single (G fd)).
    - apply (oneof_ok_collected desc rs); [exact Hinc|]. intros e He.
      apply in_flat_map in He as (fd & Hfd & Hes). exists fd. split; [exact Hfd|].
      split; [symmetry; apply (g_entry (G fd) e Hes)|]. intros C. rewrite (g_none (G fd) C) in Hes. destruct Hes.
  Qed.
End Build.

Lemma interp_wf sc : schema_ok sc = true ->
  forall fuel id rs m, Forall wf_rec rs -> interp fuel sc id rs = Some m -> wf_msg sc id m = true.
Proof.
  intros Hsc. induction fuel as [|f IH]; intros id rs m Wrs H; [discriminate|].
  cbn [interp] in H. rewrite wf_msg_eq.
  destruct (nth_error sc (N.to_nat id)) as [desc|] eqn:Hn; [|discriminate].
  destruct (schema_ok_desc _ _ _ Hsc Hn) as [Hinc _].
  exact (interp_fields_wf sc (interp f sc) IH desc rs m Hinc Wrs H).
Qed.

Theorem decode_wf sc id b m : schema_ok sc = true -> wf_bytes b -> decode sc id b = Some m ->
  wf_msg sc id m = true.
Proof.
  intros Hsc W. unfold decode. destruct (parse b) as [rs|] eqn:P; [|discriminate].
  apply interp_wf; [exact Hsc|]. apply (parse_wf b); assumption.
Qed.

Theorem decode_idempotent sc id b m : schema_ok sc = true -> wf_bytes b -> decode sc id b = Some m ->
  len (encode m) < u64 -> decode sc id (encode m) = Some m.
Proof. intros Hsc W D L. apply decode_encode; [exact Hsc|eapply decode_wf; eassumption|exact L]. Qed.

Theorem decode_reencode_iff sc id b m : schema_ok sc = true -> wf_bytes b -> len b < u64 ->
  decode sc id b = Some m ->
  (encode m = b <-> exists m', wf_msg sc id m' = true /\ b = encode m').
Proof.
  intros Hsc W L D. split.
  - intros E. exists m. split; [eapply decode_wf; eassumption|symmetry; exact E].
  - intros (m' & Hw & ->). rewrite (decode_encode sc id m' Hsc Hw L) in D. injection D as ->. reflexivity.
Qed.
