(* C04 (c): the destination filters select an ETX for its destination and for nothing else. *)
From Coq Require Import List NArith Lia ZifyBool Bool.
From GQ Require Import Lib.Key Lib.Lists Model.C04 Proofs.C04_Queue.
Import ListNotations.
Local Open Scope N_scope.

Definition count {A : Type} (f : A -> bool) (l : list A) : nat := length (filter f l).

Definition standard_ty (ty : N) : bool := negb (ty =? ETX_COINBASE) && negb (ty =? ETX_CONVERSION).

Lemma keqb_pair a b c d : keqb [a; b] [c; d] = (a =? c) && (b =? d).
Proof. rewrite !keqb_cons. apply f_equal, andb_true_r. Qed.

Lemma keqb_pair_len p (l : list N) : keqb (loc_of_prefix p) l = true <-> l = [p / 16; p mod 16].
Proof. unfold loc_of_prefix. rewrite keqb_eq. split; congruence. Qed.

Lemma filter_prime_spec r rest order p ty :
  filter_to_sub (r :: rest) PRIME_CTX order (p, ty) = (p / 16 =? r).
Proof. reflexivity. Qed.

Lemma filter_prime_no_region order tx : filter_to_sub [] PRIME_CTX order tx = false.
Proof. destruct tx. reflexivity. Qed.

(* order = PRIME_CTX: the block is coincident with prime *)
Lemma filter_region_spec slice order p ty :
  filter_to_sub slice REGION_CTX order (p, ty) =
  keqb (loc_of_prefix p) slice && ((order =? PRIME_CTX) || standard_ty ty).
Proof.
  unfold filter_to_sub, standard_ty. change (REGION_CTX =? PRIME_CTX) with false.
  change (REGION_CTX =? REGION_CTX) with true. cbv iota.
  destruct (order =? PRIME_CTX); cbn [orb]; [rewrite andb_true_r|]; reflexivity.
Qed.

Lemma filter_region_pair r z order p ty :
  filter_to_sub [r; z] REGION_CTX order (p, ty) =
  (p / 16 =? r) && (p mod 16 =? z) && ((order =? PRIME_CTX) || standard_ty ty).
Proof. rewrite filter_region_spec. unfold loc_of_prefix. rewrite keqb_pair. reflexivity. Qed.

Lemma filter_zone_nothing slice ctx order tx :
  ctx <> PRIME_CTX -> ctx <> REGION_CTX -> filter_to_sub slice ctx order tx = false.
Proof.
  intros H0 H1. destruct tx as [p ty]. unfold filter_to_sub.
  destruct (N.eqb_spec ctx PRIME_CTX); [contradiction|].
  destruct (N.eqb_spec ctx REGION_CTX); [contradiction|]. reflexivity.
Qed.

Lemma filter_region_sound slice order p ty :
  filter_to_sub slice REGION_CTX order (p, ty) = true -> slice = loc_of_prefix p.
Proof.
  rewrite filter_region_spec. intros H. apply andb_prop in H as [H _].
  apply keqb_eq in H. congruence.
Qed.

Lemma filter_prime_sound slice order p ty :
  filter_to_sub slice PRIME_CTX order (p, ty) = true -> nth_error slice 0 = Some (p / 16).
Proof.
  destruct slice as [|r rest]; [rewrite filter_prime_no_region; discriminate|].
  rewrite filter_prime_spec. intros H. apply N.eqb_eq in H. subst. reflexivity.
Qed.

Lemma count_ext (A : Type) (f g : A -> bool) l : (forall a, f a = g a) -> count f l = count g l.
Proof. intros H. unfold count. rewrite (filter_ext f g H). reflexivity. Qed.

Lemma count_false (A : Type) (l : list A) : count (fun _ => false) l = 0%nat.
Proof. unfold count. rewrite filter_none; reflexivity. Qed.

Lemma count_eq_nseq x len : forall s,
  count (fun r => x =? r) (nseq s len) = if (s <=? x) && (x <? s + N.of_nat len) then 1%nat else 0%nat.
Proof.
  unfold count. induction len as [|len IH]; intros s; cbn [nseq filter].
  - destruct ((s <=? x) && (x <? s + N.of_nat 0)) eqn:E; [lia|reflexivity].
  - destruct (N.eqb_spec x s) as [->|Hx]; cbn [length]; rewrite IH;
      destruct ((s + 1 <=? _) && _) eqn:E1; destruct ((s <=? _) && _) eqn:E2; try reflexivity; lia.
Qed.

Lemma count_eq_nseq0 x n : count (fun r => x =? r) (nseq 0 n) = if x <? N.of_nat n then 1%nat else 0%nat.
Proof. rewrite count_eq_nseq. destruct x; reflexivity. Qed.
