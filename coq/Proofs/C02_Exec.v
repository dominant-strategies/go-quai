(* C02 — the effect-tree semantics ([exec]).  [exec] is unfolded in one place, [exec_outcome]; what holds
   of every action is an instance of [exec_rel]: a preorder on states that is closed under the guarded
   primitives relates [s] and [exec e a s].  The instances: ledger conservation, non-negative balances with
   monotone ghosts, once-only rent refund, balances written through [bset] only.  That a rolled-back
   frame leaves the [core] as it found it ([reverted_frame_neutral]) is read off [exec_outcome] directly. *)
From Coq Require Import List ZArith NArith Bool Lia.
From GQ Require Import Lib.Lists Lib.C02_BMap Model.C02.
Import ListNotations.
Local Open Scope Z_scope.

Definition subs (a : action) : list action :=
  match a with
  | ACall _ _ _ _ _ body _ | AFrame _ _ _ _ body _ | ACreate _ _ _ _ body _ => body
  | _ => []
  end.

Section ActionInd.
  Variable P : action -> Prop.
  Hypothesis step : forall a, Forall P (subs a) -> P a.

  Fixpoint action_subs_ind (a : action) : P a :=
    step a (match a return Forall P (subs a) with
            | ACall _ _ _ _ _ body _ | AFrame _ _ _ _ body _ | ACreate _ _ _ _ body _ =>
                Forall_all P action_subs_ind body
            | _ => Forall_nil P
            end).
End ActionInd.

(* the part of the state that balances and their accounting ghosts live in *)
Definition core (s : st) := (bal s, sui s, etx s, burn s, rent s).

Lemma core_snap s : core (p_snap s) = core s. Proof. reflexivity. Qed.
Lemma core_create a s : core (p_create a s) = core s. Proof. reflexivity. Qed.
Lemma core_restore s0 s id : core (restore s0 s id) = core s0. Proof. reflexivity. Qed.

Lemma core_frame_end s1 s2 id rv : core (frame_end s1 s2 id rv) = if rv then core s1 else core s2.
Proof. now destruct rv. Qed.

Lemma core_inj s s' : core s = core s' ->
  bal s = bal s' /\ sui s = sui s' /\ etx s = etx s' /\ burn s = burn s' /\ rent s = rent s'.
Proof. intros [= Hb Hs He Hu Hr]. auto. Qed.

Lemma can_transfer_spec a v s : can_transfer a v s = true <-> v <= bget a (bal s).
Proof. apply Z.leb_le. Qed.

Lemma call_guard v f s :
  negb (v =? 0) && negb (can_transfer f v s) = false -> v = 0 \/ v <= bget f (bal s).
Proof.
  intros H. destruct (v =? 0) eqn:E; [left; now apply Z.eqb_eq|].
  right. apply negb_false_iff in H. now apply can_transfer_spec.
Qed.

(* Two constructors lump paths of [exec] together and keep no guard.  [o_none]: a guard refused, the frame
   was not reached, or the action touches no balance; [o_empty]: snapshot taken and nothing moved (reach 1,
   or CreateETX's own balance guard). *)
Inductive outcome (e : env) : action -> st -> st -> Prop :=
| o_none a s : outcome e a s s
| o_empty a s rv : outcome e a s (frame_end (p_snap s) (p_snap s) (nsnap s) rv)
| o_call f t v r mk body rv s :
    negb (v =? 0) && negb (can_transfer f v s) = false -> (r <? 2)%N = false ->
    outcome e (ACall f t v r mk body rv) s
      (frame_end (p_snap s)
         (exec_list e body (transfer f t v (if mk then p_create t (p_snap s) else p_snap s))) (nsnap s) rv)
| o_call_etx f v r rv s :
    can_transfer f v s = true -> (r =? 0)%N = false ->
    outcome e (ACallEtx f v r rv) s
      (frame_end (p_snap s) (add_etx (v, 0) (p_sub f v (p_snap s))) (nsnap s) rv)
| o_frame self v c r body rv s :
    outcome e (AFrame self v c r body rv) s (frame_end (p_snap s) (exec_list e body (p_snap s)) (nsnap s) rv)
| o_create f n v r body out s :
    can_transfer f v s = true -> (r <? 2)%N = false ->
    outcome e (ACreate f n v r body out) s
      (frame_end (p_snap s) (exec_list e body (transfer f n v (p_create n (p_snap s)))) (nsnap s) (out =? 1)%N)
| o_selfdestruct a ben s : outcome e (ASelfDestruct a ben) s (do_selfdestruct e a ben s)
| o_etx a v f s :
    v + f <> 0 -> can_transfer a (v + f) s = true ->
    outcome e (AEtx a v f true true) s (add_etx (v, f) (p_sub a (v + f) s))
| o_lost a v f s :
    v + f <> 0 -> can_transfer a (v + f) s = true ->
    outcome e (AEtx a v f true false) s (add_burn (v + f) (p_sub a (v + f) s)).

Lemma exec_outcome e a s : outcome e a s (exec e a s).
Proof.
  destruct a as [f t v r mk body rv|f v r rv|self v c r body rv|f n v r body out|a b|a v f p em|]; cbn [exec].
  - destruct (negb (v =? 0) && negb (can_transfer f v s)) eqn:G; [constructor|].
    destruct (r =? 0)%N eqn:R0; [constructor|].
    destruct (r =? 1)%N eqn:R1; [constructor|].
    apply o_call; [exact G|]. apply N.eqb_neq in R0, R1. apply N.ltb_ge. lia.
  - destruct (negb (v =? 0) && negb (can_transfer f v s)); [constructor|].
    destruct (r =? 0)%N eqn:R0; [constructor|].
    destruct (r =? 1)%N; [constructor|].
    destruct (negb (can_transfer f v (p_snap s))) eqn:G; [constructor|].
    apply negb_false_iff in G.
    (* reverted, the model restores from the state before [add_etx]: convertible, [restore] takes [etx] from the snapshot *)
    destruct rv; now apply o_call_etx.
  - destruct (c && negb (can_transfer self v s)); [constructor|].
    destruct (r =? 0)%N; [constructor|].
    destruct (r =? 1)%N; [constructor|apply o_frame].
  - destruct (negb (can_transfer f v s)) eqn:G; [constructor|]. apply negb_false_iff in G.
    destruct (r <? 2)%N eqn:R; [constructor|]. now apply o_create.
  - constructor.
  - destruct p; [|constructor]. cbn [negb].
    destruct ((v + f =? 0) || negb (can_transfer a (v + f) s)) eqn:G; [constructor|].
    apply orb_false_iff in G. destruct G as [G0 G1]. apply Z.eqb_neq in G0. apply negb_false_iff in G1.
    destruct em; now constructor.
  - constructor.
Qed.

Section Rel.
  Variable e : env.
  Variable R : st -> st -> Prop.
  Hypothesis R_refl : forall s, R s s.
  Hypothesis R_trans : forall a b c, R a b -> R b c -> R a c.
  Hypothesis R_core : forall s a b, core a = core b -> R s a -> R s b.
  Hypothesis R_transfer : forall s f t v, 0 <= v -> (v = 0 \/ v <= bget f (bal s)) -> R s (transfer f t v s).
  Hypothesis R_etx : forall s a value fee, 0 <= value -> 0 <= fee -> value + fee <= bget a (bal s) ->
    R s (add_etx (value, fee) (p_sub a (value + fee) s)).
  Hypothesis R_lost : forall s a t, 0 < t -> t <= bget a (bal s) -> R s (add_burn t (p_sub a t s)).
  Hypothesis R_selfd : forall s a ben, R s (do_selfdestruct e a ben s).

  Lemma R_same_core s s' : core s = core s' -> R s s'.
  Proof. intros H. apply (R_core s s s' H). apply R_refl. Qed.

  Lemma R_via s s0 s' : core s = core s0 -> R s0 s' -> R s s'.
  Proof. intros C H. exact (R_trans _ _ _ (R_same_core _ _ C) H). Qed.

  Lemma fold_R body :
    Forall (fun a => wf a = true -> forall s, R s (exec e a s)) body ->
    forallb wf body = true -> forall s, R s (exec_list e body s).
  Proof.
    intros HF HW. apply fold_left_preorder; [exact R_refl|exact R_trans|].
    rewrite forallb_forall in HW. rewrite Forall_forall in *. intros a Ha. exact (HF a Ha (HW a Ha)).
  Qed.

  Lemma frame_R s s2 id rv : R (p_snap s) s2 -> R s (frame_end (p_snap s) s2 id rv).
  Proof.
    intros H. destruct rv; [now apply R_same_core|].
    now apply (R_via s (p_snap s)).
  Qed.

  Theorem exec_rel : forall a, wf a = true -> forall s, R s (exec e a s).
  Proof.
    induction a as [a IH] using action_subs_ind. intros W s.
    destruct (exec_outcome e a s) as [a s|a s rv|f t v r mk body rv s G _|f v r rv s G _|self v c r body rv s
                                     |f n v r body out s G _|a b s|a v f s _ G|a v f s G0 G]; cbn [wf subs] in *.
    - apply R_refl.
    - apply frame_R, R_refl.
    - apply andb_true_iff in W. destruct W as [Wv Wb]. apply Z.leb_le in Wv. apply call_guard in G.
      apply frame_R, (R_via _ (if mk then p_create t (p_snap s) else p_snap s)); [now destruct mk|].
      eapply R_trans; [apply (R_transfer _ f t v Wv); now destruct mk|now apply fold_R].
    - apply Z.leb_le in W. apply can_transfer_spec in G. apply frame_R.
      replace v with (v + 0) at 2 by lia. apply R_etx; [exact W|lia|]. cbn [bal p_snap]. lia.
    - apply andb_true_iff in W. destruct W as [Wv Wb]. now apply frame_R, fold_R.
    - apply andb_true_iff in W. destruct W as [Wv Wb]. apply Z.leb_le in Wv. apply can_transfer_spec in G.
      apply frame_R, (R_via _ (p_create n (p_snap s))); [reflexivity|].
      eapply R_trans; [apply (R_transfer _ f n v Wv); now right|now apply fold_R].
    - apply R_selfd.
    - apply andb_true_iff in W. destruct W as [Wv Wf]. apply Z.leb_le in Wv, Wf. apply can_transfer_spec in G.
      now apply R_etx.
    - apply andb_true_iff in W. destruct W as [Wv Wf]. apply Z.leb_le in Wv, Wf. apply can_transfer_spec in G.
      apply R_lost; [lia|exact G].
  Qed.

  Corollary exec_list_rel l : forallb wf l = true -> forall s, R s (exec_list e l s).
  Proof.
    intros W s. apply fold_R; [|exact W].
    apply Forall_forall. intros a _ Wa. now apply exec_rel.
  Qed.
End Rel.

Lemma etx_total_app l x : etx_total (l ++ [x]) = etx_total l + fst x + snd x.
Proof. induction l as [|y l IH]; cbn; [lia|]. unfold etx_total in IH. cbn in IH. rewrite IH. lia. Qed.

Lemma ledger_core e s s' : core s = core s' -> ledger e s = ledger e s'.
Proof. intros C. destruct (core_inj _ _ C) as (Hb & _ & He & Hu & Hr). unfold ledger. now rewrite Hb, He, Hu, Hr. Qed.

Lemma ledger_sub e a v s : ledger e (p_sub a v s) = ledger e s - v.
Proof. unfold ledger. cbn [bal etx burn rent p_sub]. rewrite bsum_bset. lia. Qed.
Lemma ledger_add e a v s : ledger e (p_add a v s) = ledger e s + v.
Proof. unfold ledger. cbn [bal etx burn rent p_add]. rewrite bsum_bset. lia. Qed.
Lemma ledger_suicide e a s : ledger e (p_suicide a s) = ledger e s - bget a (bal s).
Proof. unfold ledger. cbn [bal etx burn rent p_suicide]. rewrite bsum_bset. lia. Qed.
Lemma ledger_add_etx e x s : ledger e (add_etx x s) = ledger e s + fst x + snd x.
Proof. unfold ledger. cbn [bal etx burn rent add_etx]. rewrite etx_total_app. lia. Qed.
Lemma ledger_add_burn e v s : ledger e (add_burn v s) = ledger e s + v.
Proof. unfold ledger. cbn [bal etx burn rent add_burn]. lia. Qed.
Lemma ledger_add_rent e a s : ledger e (add_rent a s) = ledger e s - e_rent e.
Proof. unfold ledger. cbn [bal etx burn rent add_rent length]. rewrite Nat2Z.inj_succ. lia. Qed.

Definition grows (s s' : st) : Prop :=
  nonneg (bal s) ->
  nonneg (bal s') /\ burn s <= burn s' /\ (exists l, etx s' = etx s ++ l) /\ (exists l, rent s' = l ++ rent s)
  /\ (forall a, mem a (sui s) = true -> mem a (sui s') = true)
  /\ etx_total (etx s) <= etx_total (etx s').

Lemma grows_refl s : grows s s.
Proof.
  intros NN. repeat split; auto; try lia.
  - exists []. now rewrite app_nil_r.
  - exists []. reflexivity.
Qed.

Lemma grows_trans {a b c} : grows a b -> grows b c -> grows a c.
Proof.
  intros H1 H2 NN. destruct (H1 NN) as (N1 & B1 & [l1 E1] & [r1 T1] & S1 & X1).
  destruct (H2 N1) as (N2 & B2 & [l2 E2] & [r2 T2] & S2 & X2).
  repeat split; auto; try lia.
  - exists (l1 ++ l2). rewrite E2, E1. now rewrite app_assoc.
  - exists (r2 ++ r1). rewrite T2, T1. now rewrite app_assoc.
Qed.

Lemma grows_steady s s' :
  etx s' = etx s -> rent s' = rent s -> (forall a, mem a (sui s) = true -> mem a (sui s') = true) ->
  (nonneg (bal s) -> nonneg (bal s') /\ burn s <= burn s') -> grows s s'.
Proof.
  intros E Rn S H NN. destruct (H NN) as [N1 B]. rewrite E, Rn.
  destruct (grows_refl s NN) as (_ & _ & HE & HR & _ & HX). auto 7.
Qed.

Lemma grows_sub a v s : v = 0 \/ v <= bget a (bal s) -> grows s (p_sub a v s).
Proof.
  intros G. apply grows_steady; auto. intros NN. split; [|apply Z.le_refl].
  apply nonneg_bset; [exact NN|]. specialize (NN a). lia.
Qed.

Lemma grows_add a v s : 0 <= v -> grows s (p_add a v s).
Proof.
  intros Hv. apply grows_steady; auto. intros NN. split; [|apply Z.le_refl].
  apply nonneg_bset; [exact NN|]. specialize (NN a). lia.
Qed.

Lemma grows_suicide a s : grows s (p_suicide a s).
Proof.
  apply grows_steady; auto.
  - intros x Hx. cbn [sui p_suicide]. rewrite mem_cons, Hx. apply orb_true_r.
  - intros NN. split; [|apply Z.le_refl]. apply nonneg_bset; [exact NN|lia].
Qed.

Lemma grows_add_burn v s : 0 <= v -> grows s (add_burn v s).
Proof. intros Hv. apply grows_steady; auto. intros NN. split; [exact NN|]. cbn [burn add_burn]. lia. Qed.

Lemma grows_add_etx x s : 0 <= fst x + snd x -> grows s (add_etx x s).
Proof.
  intros Hx NN. cbn [bal sui etx burn rent add_etx]. rewrite etx_total_app.
  repeat split; auto; try lia; [now exists [x]|now exists []].
Qed.

Lemma grows_add_rent a s : grows s (add_rent a s).
Proof.
  intros NN. cbn [bal sui etx burn rent add_rent].
  repeat split; auto; try lia; [exists []; now rewrite app_nil_r|now exists [a]].
Qed.

(* the last step of [do_selfdestruct], [b] having been moved out before *)
Lemma grows_wipe a b s : b <= bget a (bal s) -> grows s (add_burn (bget a (bal s) - b) (p_suicide a s)).
Proof. intros H. apply (grows_trans (grows_suicide a s)), grows_add_burn. lia. Qed.

(* after the fork the rent refund is granted at most once per account: only on first marking *)
Definition rent_inv (s : st) : Prop :=
  NoDup (rent s) /\ forall a, In a (rent s) -> mem a (sui s) = true.

Lemma rent_inv_same s s' : sui s' = sui s -> rent s' = rent s -> rent_inv s -> rent_inv s'.
Proof. unfold rent_inv. now intros -> ->. Qed.

(* The opcode ([do_selfdestruct]) and the Suicide branch of TransitionDb issue Suicide and AddBalance in
   opposite orders and end in different states (beneficiary = self: the opcode burns the balance, the branch
   keeps it until Finalize); both meet this specification. *)
Record destructs (e : env) (a : addr) (s s' : st) : Prop := {
  d_sui : sui s' = a :: sui s;
  d_rent : rent s' = if e_prefork e || negb (mem a (sui s)) then a :: rent s else rent s;
  d_etx : etx s' = etx s;
  d_ledger : ledger e s' = ledger e s;
  d_grows : 0 <= e_rent e -> grows s s' }.
Arguments d_sui {e a s s'}.
Arguments d_rent {e a s s'}.
Arguments d_etx {e a s s'}.
Arguments d_ledger {e a s s'}.
Arguments d_grows {e a s s'}.

Lemma destructs_rent_inv {e a s s'} : e_prefork e = false -> destructs e a s s' -> rent_inv s -> rent_inv s'.
Proof.
  unfold rent_inv. intros PF D [ND IN]. rewrite (d_sui D), (d_rent D), PF. cbn [orb]. split.
  - destruct (mem a (sui s)) eqn:M; [exact ND|]. constructor; [|exact ND].
    intros HI. apply IN in HI. congruence.
  - intros y Hy. rewrite mem_cons. destruct (N.eqb_spec y a) as [->|Hya]; [reflexivity|].
    apply IN. destruct (mem a (sui s)); [exact Hy|]. destruct Hy as [<-|Hy]; [contradiction|exact Hy].
Qed.

Lemma bget_add_ge a ben v s : 0 <= v -> bget a (bal s) <= bget a (bal (p_add ben v s)).
Proof.
  intros Hv. cbn [bal p_add]. rewrite bget_bset.
  destruct (N.eqb_spec a ben) as [->|]; lia.
Qed.

Lemma selfdestruct_destructs e a ben s : destructs e a s (do_selfdestruct e a ben s).
Proof.
  unfold do_selfdestruct. cbn [sui p_add]. split.
  1-3: now destruct (e_prefork e || negb (mem a (sui s))).
  - rewrite ledger_add_burn, ledger_suicide.
    destruct (e_prefork e || negb (mem a (sui s))); cbv iota;
      rewrite ?ledger_add_rent, !ledger_add; lia.
  - intros Hr NN.
    set (b := bget a (bal s)). assert (Hb : 0 <= b) by apply NN.
    pose proof (grows_add ben b s Hb) as G1. pose proof (bget_add_ge a ben b s Hb) as B1.
    set (s1 := p_add ben b s) in *. fold b in B1.
    destruct (e_prefork e || negb (mem a (sui s))).
    + pose proof (bget_add_ge a ben _ s1 Hr) as B2.
      refine (grows_trans G1 (grows_trans (grows_add ben _ s1 Hr)
                (grows_trans (grows_add_rent a _) (grows_wipe a b _ _))) NN).
      cbn [bal add_rent]. lia.
    + exact (grows_trans G1 (grows_wipe a b s1 B1) NN).
Qed.

Theorem exec_ledger e a : wf a = true -> forall s, ledger e (exec e a s) = ledger e s.
Proof.
  intros W s.
  apply (exec_rel e (fun s s' => ledger e s' = ledger e s)); try exact W.
  - reflexivity.
  - intros x y z H1 H2. now rewrite H2.
  - intros x y z C H. now rewrite <- (ledger_core e y z C).
  - intros x f t v _ _. unfold transfer. rewrite ledger_add, ledger_sub. lia.
  - intros x a0 value fee _ _ _. rewrite ledger_add_etx, ledger_sub. cbn [fst snd]. lia.
  - intros x a0 t _ _. rewrite ledger_add_burn, ledger_sub. lia.
  - intros x a0 ben. apply (d_ledger (selfdestruct_destructs e a0 ben x)).
Qed.

Theorem exec_grows e a : 0 <= e_rent e -> wf a = true -> forall s, grows s (exec e a s).
Proof.
  intros Hr W s.
  apply (exec_rel e grows); try exact W.
  - apply grows_refl.
  - exact (@grows_trans).
  - intros x y z C H NN. destruct (core_inj _ _ C) as (Cb & Cs & Ce & Cu & Cr).
    rewrite <- Cb, <- Cs, <- Ce, <- Cu, <- Cr. exact (H NN).
  - intros x f t v Hv G. exact (grows_trans (grows_sub f v x G) (grows_add t v _ Hv)).
  - intros x a0 value fee Hv Hf G. apply (grows_trans (b := p_sub a0 (value + fee) x)).
    + apply grows_sub. now right.
    + apply grows_add_etx. cbn [fst snd]. lia.
  - intros x a0 t Ht G. apply (grows_trans (b := p_sub a0 t x)).
    + apply grows_sub. now right.
    + apply grows_add_burn. lia.
  - intros x a0 ben. now apply (d_grows (selfdestruct_destructs e a0 ben x)).
Qed.

Theorem exec_rent_once e a : e_prefork e = false -> wf a = true ->
  forall s, rent_inv s -> rent_inv (exec e a s).
Proof.
  intros PF W s.
  (* transfers and debits leave [sui] and [rent] as they are, by computation: left are states of equal
     [core], and self-destruct *)
  apply (exec_rel e (fun s s' => rent_inv s -> rent_inv s')); try exact W; auto.
  - intros x y z C H I. destruct (core_inj _ _ C) as (_ & Cs & _ & _ & Cr).
    exact (rent_inv_same y z (eq_sym Cs) (eq_sym Cr) (H I)).
  - intros x a0 ben. exact (destructs_rent_inv PF (selfdestruct_destructs e a0 ben x)).
Qed.

Theorem exec_bal_closed e (P : bmap -> Prop) :
  (forall a v m, P m -> P (bset a v m)) ->
  forall a, wf a = true -> forall s, P (bal s) -> P (bal (exec e a s)).
Proof.
  intros HP a W s.
  apply (exec_rel e (fun s s' => P (bal s) -> P (bal s'))); try exact W; auto.
  - intros x y z C H I. destruct (core_inj _ _ C) as (<- & _). exact (H I).
  - intros x f t v _ _ I. cbn. now repeat apply HP.
  - intros x a0 value fee _ _ _ I. cbn. now apply HP.
  - intros x a0 t _ _ I. cbn. now apply HP.
  - intros x a0 ben I. unfold do_selfdestruct.
    destruct (e_prefork e || negb (mem a0 (sui (p_add ben (bget a0 (bal x)) x)))); cbn; now repeat apply HP.
Qed.

Definition reverted_frame (a : action) : bool :=
  match a with
  | ACall _ _ _ _ _ _ rv => rv
  | ACallEtx _ _ _ rv => rv
  | AFrame _ _ _ _ _ rv => rv
  | ACreate _ _ _ _ _ out => (out =? 1)%N
  | _ => false
  end.

Theorem reverted_frame_neutral e a s : reverted_frame a = true -> core (exec e a s) = core s.
Proof.
  intros RV.
  destruct (exec_outcome e a s) as [a s|a s rv|f t v r mk body rv s _ _|f v r rv s _ _|self v c r body rv s
                                   |f n v r body out s _ _|a b s|a v f s _ _|a v f s _ _];
    cbn [reverted_frame] in RV; try discriminate; rewrite ?core_frame_end, ?RV; try reflexivity.
  (* [o_empty], whose [rv] is not tied to the action: nothing ran, so either way the core is that of [s] *)
  now destruct rv.
Qed.
