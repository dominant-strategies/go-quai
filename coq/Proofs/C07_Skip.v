(* C07 — the worker's pool loop (wfill) unfolded by the outcome of one transaction, the execution function
   used to refute skipping without revert, the minimum-inclusion rule of the inbound ETX queue
   (StateProcessor.Process; Model/C07.v, last section) as one range rule, and the side conditions on the
   generated data worker_apply_guard / process_inclusion_rule (Generated/C07Checks.v). *)
From Coq Require Import List PeanoNat NArith Bool String.
From GQ Require Import Model.C07 Generated.C07Checks.
Import ListNotations.
Local Open Scope N_scope.

Section Fill.
  Variables (S T : Type) (apply : S -> T -> S * bool).
  Notation wfill := (wfill S T apply).

  Lemma wfill_cons : forall p st t r,
    wfill p st (t :: r) =
    let '(st', ok) := apply st t in
    if ok then (fst (wfill p st' r), t :: snd (wfill p st' r))
    else wfill p (match p with Revert => st | KeepEffects => st' end) r.
  Proof.
    intros p st t r. cbn [C07.wfill]. unfold wcommit.
    destruct (apply st t) as [st' []]; destruct (wfill p _ r); reflexivity.
  Qed.
End Fill.

(* the state is (nonce, balance); a transaction is (nonce, gas cost, value); apply = nonce check, buy gas,
   then the value transfer fails when the balance no longer covers it — after the gas was bought *)
Definition toy_apply (st : N * N) (t : N * N * N) : (N * N) * bool :=
  let '(n, bal) := st in
  let '(tn, cost, v) := t in
  if negb (tn =? n) then (st, false)
  else if bal <? cost then (st, false)
  else if bal - cost <? v then ((n, bal - cost), false)
  else ((n + 1, bal - cost - v), true).

Lemma range_rule_true : forall (avail : bool) v lo hi,
  negb ((avail && (v <? lo)) || (hi <? v)) = true <-> (avail = false \/ lo <= v) /\ v <= hi.
Proof. intros avail v lo hi. rewrite negb_true_iff, orb_false_iff, andb_false_iff, !N.ltb_ge. reflexivity. Qed.

Lemma rule_gas_true : forall p q k minG maxG,
  rule_gas p q k minG maxG = true <-> (etx_available p q k = false \/ minG <= gas_of q k) /\ gas_of q k <= maxG.
Proof. intros. apply range_rule_true. Qed.

Lemma rule_count_true : forall p q k minC maxC,
  rule_count p q k minC maxC = true <-> (etx_available p q k = false \/ minC <= N.of_nat k) /\ N.of_nat k <= maxC.
Proof. intros. apply range_rule_true. Qed.

Lemma unavailable_after_pops : forall q k, etx_available AfterPops q k = false <-> (List.length q <= k)%nat.
Proof. intros q k. apply Nat.ltb_ge. Qed.

Lemma drained_iff : forall q k, (k <= List.length q)%nat ->
  (etx_available AfterPops q k = false <-> k = List.length q).
Proof.
  intros q k Hk. rewrite unavailable_after_pops. split; [intro H; apply Nat.le_antisymm; assumption | intros ->; apply le_n].
Qed.

Lemma unavailable_before_pops : forall q k, (1 <= k)%nat -> etx_available BeforePops q k = false.
Proof. intros q [|k] Hk; [inversion Hk | reflexivity]. Qed.

Lemma available_at_zero : forall p q, q <> [] -> etx_available p q 0 = true.
Proof. intros [] [|x q] H; try reflexivity; contradiction H; reflexivity. Qed.

Local Open Scope string_scope.

Definition str_drop (n : nat) (s : string) : string := substring n (Nat.sub (String.length s) n) s.

(* worker_apply_guard = [snapshot:v; apply; if-err{; revert:v; return-err; }] for one variable v:
   a snapshot is taken before ApplyTransaction, and the error branch right after the call reverts to
   THAT snapshot before it returns the error *)
Definition apply_guard_ok (l : list string) : bool :=
  match l with
  | [s; a; i; r; e; c] =>
      prefix "snapshot:" s && (a =? "apply") && (i =? "if-err{") && prefix "revert:" r
      && (e =? "return-err") && (c =? "}")
      && (str_drop 9 s =? str_drop 7 r) && negb (str_drop 9 s =? "")
  | _ => false
  end.

(* process_inclusion_rule: the queue head is probed AFTER the loop that pops the block's ETXs, directly
   before the two range rules, whose conditions are the reviewed ones *)
Definition reviewed_inclusion_rule : list string := [
  "etx-loop"; "GetOldestIndex"; "ReadETX";
  "rule:block.NumberU64(common.ZONE_CTX) <= params.TimeToStartTx && (etxAvailable && etxCount < minimumEtxCount || etxCount > maximumEtxCount)";
  "rule:block.NumberU64(common.ZONE_CTX) > params.TimeToStartTx && ((etxAvailable && totalEtxGas < minimumEtxGas) || totalEtxGas > maximumEtxGas)"
].

Fixpoint strs_eqb (a b : list string) : bool :=
  match a, b with
  | [], [] => true
  | x :: a', y :: b' => (x =? y) && strs_eqb a' b'
  | _, _ => false
  end.

Definition inclusion_rule_ok (l : list string) : bool := strs_eqb l reviewed_inclusion_rule.

Definition worker_skip_reverts : bool := apply_guard_ok worker_apply_guard.
Definition queue_probed_after_pops : bool := inclusion_rule_ok process_inclusion_rule.
