(* C20 -- the conversion block of Slice.Append ([reprice]): the stable sort; what the three passes
   together make of one inbound ETX ([entry]); the block as one [run] of such entries over the
   sorted ETXs ([reprice_run]). *)
From Coq Require Import List ZArith Bool Lia Permutation.
From GQ Require Import Generated.C20Params Model.C20 Proofs.C20.
Import ListNotations.
Local Open Scope Z_scope.

Lemma mapM_Forall2 : forall (A B : Type) (f : A -> option B) l r,
  mapM f l = Some r -> Forall2 (fun x y => f x = Some y) l r.
Proof.
  induction l as [|x l IH]; intros r H; cbn [mapM] in H.
  - injection H as <-. constructor.
  - destruct (f x) as [y|] eqn:Hf; [|discriminate].
    destruct (mapM f l) as [r0|]; [|discriminate].
    injection H as <-. constructor; [exact Hf|apply IH; reflexivity].
Qed.

Lemma mapM_map : forall (A B C : Type) (f : A -> option B) (g : B -> C) (k : A -> C) l r,
  (forall x y, f x = Some y -> g y = k x) -> mapM f l = Some r -> map g r = map k l.
Proof.
  intros A B C f g k l r Hf H. apply mapM_Forall2 in H.
  induction H as [|x y l r Hxy _ IH]; [reflexivity|]. cbn [map]. rewrite (Hf _ _ Hxy), IH. reflexivity.
Qed.

Lemma insert_desc_perm : forall x l, Permutation (insert_desc x l) (x :: l).
Proof.
  induction l as [|y l IH]; simpl; [reflexivity|].
  destruct (sort_key x <? sort_key y); [|reflexivity].
  rewrite IH. apply perm_swap.
Qed.
Lemma sort_desc_perm : forall l, Permutation (sort_desc l) l.
Proof.
  induction l as [|x l IH]; simpl; [reflexivity|].
  rewrite insert_desc_perm. constructor. exact IH.
Qed.

Lemma insert_desc_sorted : forall x l, desc_sorted l -> desc_sorted (insert_desc x l).
Proof.
  induction 1 as [|y l Hy Hs IH]; simpl.
  - constructor; [intros ? []|constructor].
  - destruct (Z.ltb_spec (sort_key x) (sort_key y)) as [Hlt|Hge].
    + constructor; [|assumption]. intros z Hz.
      apply (Permutation_in _ (insert_desc_perm x l)) in Hz. destruct Hz as [<-|Hz]; [lia|auto].
    + constructor; [|constructor; assumption]. intros z [<-|Hz]; [lia|]. specialize (Hy z Hz). lia.
Qed.
Lemma sort_desc_sorted : forall l, desc_sorted (sort_desc l).
Proof. induction l; simpl; [constructor|apply insert_desc_sorted; assumption]. Qed.

Lemma insert_desc_stable : forall k x l,
  filter (same_key k) (insert_desc x l) = filter (same_key k) (x :: l).
Proof.
  induction l as [|y l IH]; [reflexivity|].
  cbn [insert_desc]. destruct (Z.ltb_spec (sort_key x) (sort_key y)) as [Hlt|Hge]; [|reflexivity].
  cbn [filter] in *. rewrite IH. unfold same_key.
  destruct (Z.eqb_spec (sort_key y) k), (Z.eqb_spec (sort_key x) k); try reflexivity. lia.
Qed.
Lemma sort_desc_stable : forall k l, filter (same_key k) (sort_desc l) = filter (same_key k) l.
Proof.
  induction l as [|x l IH]; [reflexivity|]. simpl sort_desc.
  rewrite insert_desc_stable. simpl. rewrite IH. reflexivity.
Qed.

Section WithDisc.
  Variable disc : Z -> Z -> Z.

  (* the one expression of [p1_step] and [p2_entry]: pass one tests it at the running total against
     the sender's slip bound, pass two converts it at the final total *)
  Definition discounted (h : hdr) (e : etx) (total : Z) : Z :=
    floor10 (e_value e)
      (apply_kq h (e_toqi e) (disc_at disc h total) (kq_of h (disc_at disc h total))
                (e_value e * disc_at disc h total / total)).
  Definition p1_total (h : hdr) (acc : Z) (e : etx) : Z :=
    if e_toqi e then acc + e_value e else acc + qi_to_quai (ra h) (rb h) (e_value e).

  Lemma discounted_ge_floor : forall h e total, e_value e * 10 / 100 <= discounted h e total.
  Proof. intros. apply floor10_ge_tenth. Qed.

  Inductive p1_entry (h : hdr) (acc : Z) (e : etx) : Z -> st1 -> Prop :=
  | p1_other : e_conv e && (0 <? e_value e) = false ->
      p1_entry h acc e acc (mkSt1 e None (e_value e) 0)
  | p1_rejected : forall p, p = discounted h e (p1_total h acc e) ->
      e_conv e = true -> 0 < e_value e -> p < after_slip e ->
      p1_entry h acc e acc (mkSt1 e (Some (e_value e)) 0 p)
  | p1_accepted : forall p, p = discounted h e (p1_total h acc e) ->
      e_conv e = true -> 0 < e_value e -> after_slip e <= p ->
      p1_entry h acc e (p1_total h acc e) (mkSt1 e (Some (e_value e)) (e_value e) p).

  Lemma p1_step_cases : forall h acc e acc' s,
    p1_step disc h acc e = Some (acc', s) -> p1_entry h acc e acc' s.
  Proof.
    intros h acc e acc' s H. unfold p1_step in H. cbv zeta in H. fold (p1_total h acc e) in H.
    destruct (e_conv e && (0 <? e_value e)) eqn:Hc.
    - apply andb_prop in Hc. destruct Hc as (Hc & Hpos). apply Z.ltb_lt in Hpos.
      destruct (p1_total h acc e =? 0); [discriminate|].
      fold (discounted h e (p1_total h acc e)) in H.
      destruct (Z.ltb_spec (discounted h e (p1_total h acc e)) (after_slip e)); injection H as <- <-;
        [eapply p1_rejected|eapply p1_accepted]; (reflexivity || assumption).
    - injection H as <- <-. apply p1_other. exact Hc.
  Qed.

  Lemma p1_step_etx : forall h acc e acc' s, p1_step disc h acc e = Some (acc', s) -> s_e s = e.
  Proof. intros h acc e acc' s H. destruct (p1_step_cases _ _ _ _ _ H); reflexivity. Qed.

  (* the block recomputes its total with ComputeConversionAmountInQuai ([amount_of]) after pass
     one: that is pass one's accumulator *)
  Lemma p1_step_amount : forall h acc e acc' s,
    0 <= e_value e -> p1_step disc h acc e = Some (acc', s) -> acc' = acc + amount_of h s.
  Proof.
    intros h acc e acc' s Hv H. unfold amount_of.
    destruct (p1_step_cases _ _ _ _ _ H) as [Hc|p _ Hc Hpos _|p _ Hc Hpos _]; cbn [s_e s_val].
    - replace (e_conv e && negb (e_value e =? 0)) with false; [lia|].
      destruct (e_conv e); [|reflexivity]. apply Z.ltb_ge in Hc. replace (e_value e) with 0 by lia. reflexivity.
    - rewrite andb_false_r. lia.
    - rewrite Hc, (proj2 (Z.eqb_neq _ 0)) by lia. unfold p1_total. destruct (e_toqi e); reflexivity.
  Qed.

  Lemma pass1_inv : forall h acc e l r, pass1 disc h acc (e :: l) = Some r ->
    exists acc' s r', p1_step disc h acc e = Some (acc', s) /\ pass1 disc h acc' l = Some r' /\ r = s :: r'.
  Proof.
    intros h acc e l r H. cbn [pass1] in H.
    destruct (p1_step disc h acc e) as [[acc' s]|]; [|discriminate].
    destruct (pass1 disc h acc' l) as [r'|] eqn:Hr; [|discriminate].
    injection H as <-. exists acc', s, r'. repeat split. exact Hr.
  Qed.

  Lemma pass1_map : forall h l acc r, pass1 disc h acc l = Some r -> map s_e r = l.
  Proof.
    induction l as [|e l IH]; intros acc r H.
    - injection H as <-. reflexivity.
    - destruct (pass1_inv _ _ _ _ _ H) as (acc' & s & r' & Hs & Hr & ->).
      cbn [map]. rewrite (p1_step_etx _ _ _ _ _ Hs), (IH _ _ Hr). reflexivity.
  Qed.

  Lemma actual_amount_app : forall h a b, actual_amount h (a ++ b) = actual_amount h a + actual_amount h b.
  Proof. intros h. exact (fold_sum_app _ (amount_of h)). Qed.

  Lemma p2_entry_etx : forall h actual d2 s t, p2_entry h actual d2 s = Some t -> s_e (t_s t) = s_e s.
  Proof.
    intros h actual d2 s t H. unfold p2_entry in H.
    destruct (e_conv (s_e s) && (0 <? s_val s)); [|injection H as <-; reflexivity].
    destruct (s_orig s); [|discriminate]. destruct (actual =? 0); [discriminate|].
    destruct (e_toqi (s_e s)); injection H as <-; reflexivity.
  Qed.

  Lemma p3_entry_etx : forall h knew t o, p3_entry h knew t = Some o -> o_e o = s_e (t_s t).
  Proof.
    intros h knew t o H. unfold p3_entry in H.
    destruct (e_conv (s_e (t_s t))); [|injection H as <-; reflexivity].
    destruct (t_val t <? 0); [injection H as <-; reflexivity|].
    destruct (t_val t =? 0); [destruct (s_orig (t_s t))|destruct (t_before t)];
      (discriminate || injection H as <-; reflexivity).
  Qed.

  Lemma reprice_inv : forall h knew etxs r, reprice disc h knew etxs = Some r ->
    exists l1 l2, pass1 disc h 0 (sort_desc etxs) = Some l1 /\ r_actual r = actual_amount h l1 /\
      mapM (p2_entry h (r_actual r) (disc_at disc h (r_actual r))) l1 = Some l2 /\
      mapM (p3_entry h knew) l2 = Some (r_out r).
  Proof.
    intros h knew etxs r H. unfold reprice in H.
    destruct (pass1 disc h 0 (sort_desc etxs)) as [l1|]; [|discriminate].
    destruct (mapM _ l1) as [l2|] eqn:H2; [|discriminate].
    destruct (mapM _ l2) as [l3|] eqn:H3; [|discriminate].
    injection H as <-. exists l1, l2. repeat split; assumption.
  Qed.

  (* no inbound ETX is lost or duplicated; they leave in stable descending-slip order *)
  Lemma reprice_order : forall h knew etxs r,
    reprice disc h knew etxs = Some r -> map o_e (r_out r) = sort_desc etxs.
  Proof.
    intros h knew etxs r H. destruct (reprice_inv _ _ _ _ H) as (l1 & l2 & H1 & _ & H2 & H3).
    rewrite (mapM_map _ _ _ _ _ _ _ _ (p3_entry_etx h knew) H3), <- (pass1_map _ _ _ _ H1).
    exact (mapM_map _ _ _ _ _ _ _ _ (p2_entry_etx h _ _) H2).
  Qed.

  (* one inbound ETX through the three passes, met at running total [acc] in a block whose
     conversions total [total]; the Z index is the running total behind it.  [entry_worthless]: an
     accepted conversion counts towards the total even if pass three reverts it as worth 0 at the
     header rate (a condition the constructor leaves out). *)
  Inductive entry (h : hdr) (knew total acc : Z) (e : etx) : Z -> out -> Prop :=
  | entry_other :
      e_conv e = false -> entry h knew total acc e acc (mkOut e KOther (e_value e) 0 0)
  | entry_rejected : forall p, p = discounted h e (p1_total h acc e) ->
      e_conv e = true -> 0 < e_value e -> p < after_slip e ->
      entry h knew total acc e acc (mkOut e KReverted (e_value e) p 0)
  | entry_worthless : forall p, p = discounted h e (p1_total h acc e) ->
      e_conv e = true -> 0 < e_value e -> after_slip e <= p ->
      entry h knew total acc e (p1_total h acc e) (mkOut e KReverted (e_value e) p 0)
  | entry_converted : forall p, p = discounted h e (p1_total h acc e) ->
      e_conv e = true -> 0 < e_value e -> after_slip e <= p -> total <> 0 ->
      entry h knew total acc e (p1_total h acc e)
            (mkOut e KConverted (rate_amount h knew e (discounted h e total)) p (discounted h e total)).

  Inductive run (h : hdr) (knew total : Z) : Z -> list etx -> list out -> Z -> Prop :=
  | run_nil : forall acc, run h knew total acc [] [] acc
  | run_cons : forall acc e acc' o l outs fin,
      entry h knew total acc e acc' o -> run h knew total acc' l outs fin ->
      run h knew total acc (e :: l) (o :: outs) fin.

  Lemma run_split : forall h knew total pre o post acc l fin,
    run h knew total acc l (pre ++ o :: post) fin ->
    exists a e a' l', In e l /\ entry h knew total a e a' o /\ run h knew total a' l' post fin.
  Proof.
    induction pre as [|o1 pre IH]; intros o post acc l fin H; inversion H as [|? e acc' ? l' ? ? He Hr]; subst.
    - exists acc, e, acc', l'. split; [left; reflexivity|]. split; assumption.
    - destruct (IH _ _ _ _ _ Hr) as (a & e' & a' & l'' & Hin & Hrest). exists a, e', a', l''.
      split; [right; exact Hin|exact Hrest].
  Qed.

  Lemma run_rejected : forall h knew total acc l outs fin, run h knew total acc l outs fin ->
    (forall o, In o outs -> e_conv (o_e o) = true -> 0 < e_value (o_e o) -> o_p1 o < after_slip (o_e o)) ->
    fin = acc.
  Proof.
    induction 1 as [|acc e acc' o l outs fin He _ IH]; intros Hrej; [reflexivity|].
    rewrite (IH (fun o' Ho' => Hrej o' (or_intror Ho'))).
    specialize (Hrej o (or_introl eq_refl)).
    destruct He as [|p _ Hc Hpos _|p _ Hc Hpos Hge|p _ Hc Hpos Hge _]; try reflexivity;
      specialize (Hrej Hc Hpos); cbn [o_p1 o_e] in Hrej; lia.
  Qed.

  Lemma run_total_mono : forall h knew total acc l outs fin,
    rates_ok h -> Forall (fun e => 0 <= e_value e) l -> run h knew total acc l outs fin -> acc <= fin.
  Proof.
    intros h knew total acc l outs fin Hr Hv H. induction H as [|acc e acc' o l outs fin He _ IH]; [lia|].
    specialize (IH (Forall_inv_tail Hv)). pose proof (Forall_inv Hv) as Hve. cbn beta in Hve.
    assert (acc <= p1_total h acc e).
    { unfold p1_total. destruct (e_toqi e); [lia|].
      pose proof (qi_to_quai_nonneg _ _ _ (rates_ok_ra h Hr) (rates_ok_rb h Hr) Hve). lia. }
    destruct He; lia.
  Qed.

  Lemma passes_entry : forall h knew total acc e acc' s t o,
    rates_ok h -> 0 <= e_value e ->
    p1_step disc h acc e = Some (acc', s) ->
    p2_entry h total (disc_at disc h total) s = Some t -> p3_entry h knew t = Some o ->
    entry h knew total acc e acc' o.
  Proof.
    intros h knew total acc e acc' s t o Hr Hv Hp1 Hp2 Hp3.
    pose proof (rates_ok_ra h Hr) as Ha. pose proof (rates_ok_rb h Hr) as Hb.
    unfold p2_entry in Hp2.
    destruct (p1_step_cases _ _ _ _ _ Hp1) as [Hc|p Hp Hc Hpos Hlt|p Hp Hc Hpos Hge]; cbn [s_e s_val s_orig s_p1] in Hp2.
    - (* not a conversion; a conversion of value 0 makes pass three panic *)
      rewrite Hc in Hp2. injection Hp2 as <-. unfold p3_entry in Hp3. cbn [t_s t_val s_e s_orig] in Hp3.
      destruct (e_conv e) eqn:Ec; [|injection Hp3 as <-; apply entry_other; exact Ec].
      apply Z.ltb_ge in Hc. destruct (Z.ltb_spec (e_value e) 0); [lia|].
      destruct (Z.eqb_spec (e_value e) 0); [discriminate|lia].
    - rewrite andb_false_r in Hp2. injection Hp2 as <-. unfold p3_entry in Hp3.
      cbn [t_s t_val s_e s_orig s_p1] in Hp3.
      rewrite Hc in Hp3. injection Hp3 as <-. exact (entry_rejected _ _ _ _ _ p Hp Hc Hpos Hlt).
    - (* accepted: pass two discounts at the final total; pass three reverts if that is worth 0 at
         the header rate, else converts at the new rate *)
      rewrite Hc, (proj2 (Z.ltb_lt 0 _) Hpos) in Hp2. cbn [andb] in Hp2.
      destruct (Z.eqb_spec total 0) as [|Hne]; [discriminate|].
      fold (discounted h e total) in Hp2.
      assert (Ht : exists tv tr, 0 <= tv /\
                t = mkSt2 (mkSt1 e (Some (e_value e)) (e_value e) p) tv (Some (discounted h e total)) tr).
      { pose proof (discounted_ge_floor h e total). pose proof (ten_percent_bounds (e_value e) ltac:(lia)).
        destruct (e_toqi e); injection Hp2 as <-; do 2 eexists; (split; [|reflexivity]);
          [apply quai_to_qi_nonneg|apply qi_to_quai_nonneg]; lia. }
      destruct Ht as (tv & tr & Htv & ->).
      unfold p3_entry in Hp3. cbn [t_s t_val t_before s_e s_orig s_p1] in Hp3. rewrite Hc in Hp3.
      destruct (Z.ltb_spec tv 0); [lia|].
      destruct (tv =? 0); injection Hp3 as <-.
      + exact (entry_worthless _ _ _ _ _ p Hp Hc Hpos Hge).
      + exact (entry_converted _ _ _ _ _ p Hp Hc Hpos Hge Hne).
  Qed.

  Lemma passes_run : forall h knew total l acc l1 l2 l3,
    rates_ok h -> Forall (fun e => 0 <= e_value e) l ->
    pass1 disc h acc l = Some l1 ->
    Forall2 (fun s t => p2_entry h total (disc_at disc h total) s = Some t) l1 l2 ->
    Forall2 (fun t o => p3_entry h knew t = Some o) l2 l3 ->
    run h knew total acc l l3 (acc + actual_amount h l1).
  Proof.
    intros h knew total l acc l1 l2 l3 Hr. revert acc l1 l2 l3.
    induction l as [|e l IH]; intros acc l1 l2 l3 Hv H1 H2 H3.
    - injection H1 as <-. inversion H2; subst. inversion H3; subst. cbn. rewrite Z.add_0_r. constructor.
    - destruct (pass1_inv _ _ _ _ _ H1) as (acc' & s & r1 & Hs & Hr1 & ->).
      inversion H2 as [|? t ? r2 Ht Hr2]; subst. inversion H3 as [|? o ? r3 Ho Hr3]; subst.
      change (actual_amount h (s :: r1)) with (amount_of h s + actual_amount h r1).
      rewrite Z.add_assoc, <- (p1_step_amount _ _ _ _ _ (Forall_inv Hv) Hs).
      exact (run_cons _ _ _ _ _ _ _ _ _ _ (passes_entry _ _ _ _ _ _ _ _ _ Hr (Forall_inv Hv) Hs Ht Ho)
                      (IH _ _ _ _ (Forall_inv_tail Hv) Hr1 Hr2 Hr3)).
  Qed.

  (* the block is one run over the sorted ETXs, priced at the total that run ends with *)
  Theorem reprice_run : forall h knew etxs r,
    rates_ok h -> Forall (fun e => 0 <= e_value e) etxs -> reprice disc h knew etxs = Some r ->
    run h knew (r_actual r) 0 (sort_desc etxs) (r_out r) (r_actual r).
  Proof.
    intros h knew etxs r Hr Hv H. destruct (reprice_inv _ _ _ _ H) as (l1 & l2 & H1 & Ha & H2 & H3).
    assert (Hv' : Forall (fun e => 0 <= e_value e) (sort_desc etxs)).
    { eapply Permutation_Forall; [symmetry; apply sort_desc_perm|exact Hv]. }
    pose proof (passes_run _ _ _ _ _ _ _ _ Hr Hv' H1 (mapM_Forall2 _ _ _ _ _ H2) (mapM_Forall2 _ _ _ _ _ H3)) as R.
    rewrite Z.add_0_l, <- Ha in R. exact R.
  Qed.

  Lemma reprice_entry : forall h knew etxs r o,
    inputs_ok h knew etxs -> reprice disc h knew etxs = Some r -> In o (r_out r) ->
    exists acc e acc', In e etxs /\ 0 <= e_value e /\ entry h knew (r_actual r) acc e acc' o.
  Proof.
    intros h knew etxs r o (Hr & _ & Hv) H Hin. apply in_split in Hin. destruct Hin as (pre & post & Hs).
    pose proof (reprice_run _ _ _ _ Hr Hv H) as R. rewrite Hs in R.
    destruct (run_split _ _ _ _ _ _ _ _ _ R) as (acc & e & acc' & _ & Hie & He & _).
    apply (Permutation_in _ (sort_desc_perm etxs)) in Hie. rewrite Forall_forall in Hv.
    exists acc, e, acc'. split; [exact Hie|]. split; [exact (Hv e Hie)|exact He].
  Qed.

  Lemma reprice_total_nonneg : forall h knew etxs r,
    inputs_ok h knew etxs -> reprice disc h knew etxs = Some r -> 0 <= r_actual r.
  Proof.
    intros h knew etxs r (Hr & _ & Hv) H.
    eapply run_total_mono; [exact Hr| |exact (reprice_run _ _ _ _ Hr Hv H)].
    exact (Permutation_Forall (Permutation_sym (sort_desc_perm etxs)) Hv).
  Qed.

  Lemma apply_kq_le : forall h toqi dint value,
    0 <= h_kqd h -> 0 <= dint -> 0 <= value ->
    apply_kq h toqi dint (kq_of h dint) value <= value.
  Proof.
    intros h toqi dint value Hk Hd Hv. assert (Hmult : 0 < kquai_mult) by apply params_facts.
    unfold apply_kq, kq_of.
    destruct (kq_applies h toqi && negb (dint =? 0)) eqn:Hc; [|lia].
    apply andb_prop in Hc. destruct Hc as [_ Hc]. apply negb_true_iff, Z.eqb_neq in Hc.
    apply scale_le; [assumption| |lia]. apply scale_le; lia.
  Qed.

  Hypothesis disc_bounds : forall v m, 0 <= v -> 0 <= disc v m <= v.

  Lemma discounted_le : forall h e total,
    postfork h = true -> 0 <= h_kqd h -> 0 <= e_value e -> 0 < total ->
    discounted h e total <= e_value e.
  Proof.
    intros h e total Hpf Hkqd Hv Ht. unfold discounted.
    (* before the fork [disc_at] exchanges the oracle's arguments, and the bound would be the flow *)
    assert (Hd : 0 <= disc_at disc h total <= total).
    { unfold disc_at. rewrite Hpf. apply disc_bounds. lia. }
    apply floor10_le; [assumption|].
    etransitivity; [apply apply_kq_le; try lia; apply Z.div_pos; nia|]. apply scale_le; lia.
  Qed.
End WithDisc.
