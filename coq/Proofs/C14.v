(* C14 — lemmas: instantiation of the generic codec theorems on the generated schemas,
   and round trips of the hand-modelled object layers (Model/C14.v). *)
From Coq Require Import List Arith NArith Lia ZifyBool.
From GQ Require Import Lib.Key Lib.Lists Lib.C14_Varint Lib.C14_BigEndian Lib.C14_ProtoWire Lib.C14_ProtoWireFacts
  Generated.C14Schemas Model.C14.
Import ListNotations.
Local Open Scope N_scope.

Lemma sc_ok : schema_ok sc = true.
Proof. vm_compute. reflexivity. Qed.

Lemma n_messages_ok : N.of_nat (length schemas) = n_messages.
Proof. vm_compute. reflexivity. Qed.

Lemma sc_roundtrip id m : wf_msg sc id m = true -> len (encode m) < u64 -> decode sc id (encode m) = Some m.
Proof. apply decode_encode. exact sc_ok. Qed.

Lemma sc_inj id m1 m2 : wf_msg sc id m1 = true -> wf_msg sc id m2 = true -> len (encode m1) < u64 ->
  encode m1 = encode m2 -> m1 = m2.
Proof. apply encode_inj. exact sc_ok. Qed.

Lemma be_enc_wfb n : wf_bytesb (be_enc n) = true.
Proof. apply wf_bytesb_iff. apply be_enc_wf. Qed.

Lemma big_roundtrip n : big_of_bytes (big_bytes n) = n.
Proof. apply be_dec_enc. Qed.

Lemma obj_wire {A} id (dec : msg -> dres A) m :
  wf_msg sc id m = true -> len (encode m) < u64 -> obj_decode id dec (encode m) = dec m.
Proof. intros Hw Hl. unfold obj_decode. rewrite sc_roundtrip by assumption. reflexivity. Qed.

Definition txout_nf (o : txout) : Prop :=
  to_denom o < 256 /\ match to_addr o with Some a => wf_bytes a | None => True end.
(* what a round trip gives: a nil lock comes back as 0 *)
Definition txout_norm (o : txout) : txout :=
  mkTxOut (to_denom o) (to_addr o) (Some (match to_lock o with Some l => l | None => 0 end)).

(* TxOut.ProtoDecode and UtxoEntry.ProtoDecode both invert the one encoder *)
Lemma txout_tree_roundtrip o : to_denom o < 256 ->
  txout_decode (txout_encode o) = DOk (txout_norm o) /\ utxo_decode (txout_encode o) = DOk (txout_norm o).
Proof.
  intros Hd. unfold txout_encode, txout_decode, utxo_decode, txout_norm.
  rewrite (N.mod_small _ _ Hd).
  destruct (to_addr o) as [a|]; cbn [app get_field fst snd N.eqb Pos.eqb as_int as_bytes];
    (replace (255 <? to_denom o) with false by lia); rewrite big_roundtrip; split; reflexivity.
Qed.

Lemma txout_desc : nth_error sc (N.to_nat id_block_ProtoTxOut) =
  Some [mkField 1 KU32 LOpt 0; mkField 2 KBytes LOpt 0; mkField 3 KBytes LOpt 0].
Proof. vm_compute. reflexivity. Qed.

Lemma txout_wf o : txout_nf o -> wf_msg sc id_block_ProtoTxOut (txout_encode o) = true.
Proof.
  intros [Hd Ha]. rewrite wf_msg_eq, txout_desc.
  unfold txout_encode. rewrite (N.mod_small _ _ Hd).
  assert (E : to_denom o <? u32 = true) by (unfold u32; lia).
  destruct (to_addr o) as [a|].
  - apply wf_bytesb_iff in Ha. cbn -[N.ltb u32 be_enc wf_bytesb]. rewrite Ha, be_enc_wfb, E. reflexivity.
  - cbn -[N.ltb u32 be_enc wf_bytesb]. rewrite be_enc_wfb, E. reflexivity.
Qed.

(* the decoded object re-encodes to the same tree: same bytes, same hash *)
Lemma txout_reencode o : txout_encode (txout_norm o) = txout_encode o.
Proof. unfold txout_encode, txout_norm. cbn [to_denom to_addr to_lock]. destruct (to_lock o); reflexivity. Qed.

Lemma txout_norm_idem o : txout_norm (txout_norm o) = txout_norm o.
Proof. reflexivity. Qed.

Definition hash_nf (h : bytes) : Prop := length h = hash_len /\ wf_bytes h.

Lemma set_bytes_exact n b : length b = n -> set_bytes n b = b.
Proof.
  intros H. unfold set_bytes. rewrite H, Nat.leb_refl, Nat.sub_diag. reflexivity.
Qed.

Lemma set_bytes_pad n b : (length b <= n)%nat -> set_bytes n b = repeat 0 (n - length b) ++ b.
Proof. intros H. unfold set_bytes. apply Nat.leb_le in H. rewrite H. reflexivity. Qed.

Lemma set_bytes_length n b : length (set_bytes n b) = n.
Proof.
  unfold set_bytes. destruct (Nat.leb (length b) n) eqn:E.
  - apply Nat.leb_le in E. rewrite app_length, repeat_length. lia.
  - apply Nat.leb_gt in E. rewrite skipn_length. lia.
Qed.

Lemma hash_msg_roundtrip h : length h = hash_len -> hash_of_msg (hash_msg h) = h.
Proof.
  intros H. unfold hash_msg. destruct h as [|x h]; [discriminate|].
  unfold hash_of_msg. cbn [get_field fst snd N.eqb Pos.eqb as_bytes]. apply set_bytes_exact. exact H.
Qed.

Lemma outpoint_tree_roundtrip o : length (op_hash o) = hash_len -> op_index o < 65536 ->
  outpoint_decode (outpoint_encode o) = DOk o.
Proof.
  intros Hh Hi. unfold outpoint_encode, outpoint_decode.
  cbn [get_field fst snd N.eqb Pos.eqb as_int as_msg].
  rewrite hash_msg_roundtrip by assumption. rewrite N.mod_mod by discriminate. rewrite N.mod_small by assumption.
  destruct o; reflexivity.
Qed.

Lemma hash_desc : nth_error sc (N.to_nat id_common_ProtoHash) = Some [mkField 1 KBytes LImp 0].
Proof. vm_compute. reflexivity. Qed.

Lemma hash_msg_wf h : hash_nf h -> wf_msg sc id_common_ProtoHash (hash_msg h) = true.
Proof.
  intros [Hl Hw]. rewrite wf_msg_eq, hash_desc.
  destruct h as [|x h]; [discriminate|]. apply wf_bytesb_iff in Hw.
  cbn -[wf_bytesb]. rewrite Hw. reflexivity.
Qed.

Definition opd_norm (o : opd) : opd :=
  mkOpd (od_hash o) (od_index o) (od_denom o) (Some (match od_lock o with Some l => l | None => 0 end)).

Definition termini_nf (t : termini) : Prop :=
  length (t_dom t) = max_width /\ length (t_sub t) = max_width /\
  Forall (fun h => length h = hash_len) (t_dom t) /\ Forall (fun h => length h = hash_len) (t_sub t).

Lemma get_all_app m1 m2 k : get_all (m1 ++ m2) k = get_all m1 k ++ get_all m2 k.
Proof. unfold get_all. rewrite filter_app, map_app. reflexivity. Qed.

Lemma get_all_same k (vs : list fval) : get_all (map (fun v => (k, v)) vs) k = vs.
Proof.
  unfold get_all. rewrite filter_all, map_map; [apply map_id|].
  intros e He. apply in_map_iff in He as (v & <- & _). apply N.eqb_refl.
Qed.

Lemma get_all_other k k' (vs : list fval) : k' <> k -> get_all (map (fun v => (k', v)) vs) k = [].
Proof.
  intros H. unfold get_all. rewrite filter_none; [reflexivity|].
  intros e He. apply in_map_iff in He as (v & <- & _). apply N.eqb_neq, H.
Qed.

Lemma map_hash_roundtrip l : Forall (fun h => length h = hash_len) l ->
  map (fun v => hash_of_msg (as_msg v)) (map (fun h => FMsg (hash_msg h)) l) = l.
Proof.
  intros H. rewrite map_map. rewrite <- (map_id l) at 2. apply map_ext_Forall. eapply Forall_impl; [|exact H].
  exact hash_msg_roundtrip.
Qed.

Lemma termini_match (D S : list fval) :
  D <> [] -> S <> [] ->
  match D, S with
  | [], _ => DErr
  | _, [] => DErr
  | d, s => DOk (mkTermini (map (fun v => hash_of_msg (as_msg v)) d) (map (fun v => hash_of_msg (as_msg v)) s))
  end = DOk (mkTermini (map (fun v => hash_of_msg (as_msg v)) D) (map (fun v => hash_of_msg (as_msg v)) S)).
Proof. destruct D, S; intros; try congruence; reflexivity. Qed.

(* shorter arrays come back padded with zero hashes up to MaxWidth *)
Definition termini_padded (t : termini) : termini :=
  mkTermini (t_dom t ++ repeat zero_hash (max_width - length (t_dom t)))
            (t_sub t ++ repeat zero_hash (max_width - length (t_sub t))).

Definition slot (h : option bytes) : fval := FMsg (match h with Some x => hash_msg x | None => [] end).

Lemma termini_decode_entries (D S : list fval) : D <> [] -> S <> [] ->
  termini_decode (map (fun v => (1, v)) D ++ map (fun v => (2, v)) S) =
  DOk (mkTermini (map (fun v => hash_of_msg (as_msg v)) D) (map (fun v => hash_of_msg (as_msg v)) S)).
Proof.
  intros HD HS. unfold termini_decode. rewrite !get_all_app, !get_all_same.
  rewrite (get_all_other 1 2), (get_all_other 2 1) by discriminate. rewrite app_nil_r. cbn [app].
  destruct D; [congruence|]. destruct S; [congruence|]. reflexivity.
Qed.

Lemma slots_decode l k : Forall (fun h => length h = hash_len) l ->
  map (fun v => hash_of_msg (as_msg v)) (map slot (map Some l ++ repeat None k)) = l ++ repeat zero_hash k.
Proof.
  intros F. rewrite !map_app. f_equal.
  - rewrite (map_map Some slot). exact (map_hash_roundtrip l F).
  - induction k as [|k IH]; [reflexivity|]. cbn [repeat map]. f_equal. exact IH.
Qed.

Lemma slots_nonempty l : map slot (pad_to max_width l) <> [].
Proof.
  intros E. apply (f_equal (@length fval)) in E. unfold pad_to in E.
  rewrite map_length, app_length, map_length, repeat_length in E. cbn [length] in E. unfold max_width in E. lia.
Qed.

Lemma termini_pads t :
  Forall (fun h => length h = hash_len) (t_dom t) -> Forall (fun h => length h = hash_len) (t_sub t) ->
  termini_decode (termini_encode t) = DOk (termini_padded t).
Proof.
  intros Fd Fs. unfold termini_encode, termini_padded.
  rewrite <- (map_map slot (fun v => (1, v))), <- (map_map slot (fun v => (2, v))).
  rewrite termini_decode_entries by apply slots_nonempty.
  unfold pad_to. rewrite !slots_decode by assumption. reflexivity.
Qed.

Lemma be_dec_set_bytes n v : v < 256 ^ N.of_nat n -> be_dec (set_bytes n (be_enc v)) = v.
Proof.
  intros H. rewrite set_bytes_pad by (apply be_enc_length; exact H).
  rewrite be_dec_zeros. apply be_dec_enc.
Qed.

Lemma utxo_key_roundtrip h i : length h = 32%nat -> i < 65536 ->
  reverse_utxo_key (utxo_key h i) = DOk (h, i).
Proof.
  intros Hh Hi. unfold reverse_utxo_key, utxo_key, be_fixed.
  rewrite !app_length, set_bytes_length, Hh. cbn [utxo_prefix length Nat.add Nat.eqb].
  rewrite (N.mod_small _ _ Hi).
  rewrite (skipn_exact 2 utxo_prefix) by reflexivity.
  rewrite (firstn_exact 32 h) by exact Hh.
  rewrite app_assoc. rewrite (skipn_exact 34 (utxo_prefix ++ h)) by (rewrite app_length, Hh; reflexivity).
  rewrite be_dec_set_bytes by exact Hi. reflexivity.
Qed.

Definition lockup_nf (l : lockup) : Prop :=
  lk_amount l < 256 ^ 32 /\ lk_height l < 4294967296 /\ lk_elements l < 65536 /\
  match lk_delegate l with
  | Some d => length d = 20%nat /\ is_zero_bytes d = false
  | None => True
  end.

(* ReadCoinbaseLockup on a record laid out as amount(32) height(4) elements(2) delegate(0 or 20) *)
Lemma lockup_decode_fields (A H E D : bytes) : length A = 32%nat -> length H = 4%nat -> length E = 2%nat ->
  lockup_decode (A ++ H ++ E ++ D) =
  mkLockup (be_dec A) (be_dec H) (be_dec E) (if Nat.eqb (38 + length D) 58 then Some D else None).
Proof.
  intros LA LH LE. unfold lockup_decode.
  rewrite (firstn_exact 32 A), (skipn_exact 32 A), (firstn_exact 4 H) by assumption.
  rewrite (app_assoc A H), (skipn_exact 36 (A ++ H)) by (rewrite app_length, LA, LH; reflexivity).
  rewrite (firstn_exact 2 E) by assumption.
  rewrite (app_assoc (A ++ H) E), (skipn_exact 38 ((A ++ H) ++ E)) by (rewrite !app_length, LA, LH, LE; reflexivity).
  rewrite !app_length, LA, LH, LE. reflexivity.
Qed.
