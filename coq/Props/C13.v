(* C13 — Mining rewards and lockups pay out exactly once, no earlier, no more.
   Property theorems, each followed by [Print Assumptions].  Model: Model/C13.v   Lemmas: Proofs/C13.v (ledger),
   Proofs/C13_Redeem.v, Proofs/C13_Uncles.v, Proofs/C13_Reorg.v, Proofs/C13_Reward.v
   Generated data: Generated/C13Params.v (params.LockupByteToBlockDepth, multipliers, epoch length, ...). *)
From Coq Require Import List NArith ZArith Bool Lia.
From GQ Require Import Lib.Key Lib.SMap Lib.Lists Generated.C13Params Model.C13 Proofs.C13 Proofs.C13_Redeem Proofs.C13_Uncles Proofs.C13_Reorg Proofs.C13_Reward.
Import ListNotations.
Import C13Params.
Local Open Scope N_scope.

(* ---- obligations on the protocol parameters as they are in the source now ---- *)

(* two lock bytes with the same depth would make RedeemLockedQuai scan one block twice and credit twice *)
Theorem params_depths_pairwise_distinct : depths_nodup = true.
Proof. vm_compute. reflexivity. Qed.
Print Assumptions params_depths_pairwise_distinct.

(* every depth is positive and at least one epoch: the tranche unlock height of a Process-made lockup is never 0
   (0 is the ledger's "no tranche" marker) *)
Theorem params_depths_at_least_one_epoch : depths_ge_epoch = true.
Proof. vm_compute. reflexivity. Qed.
Print Assumptions params_depths_at_least_one_epoch.

(* Qi->Quai conversions are released by exactly one entry of the depth table *)
Theorem params_conversion_period_in_table_once : conversion_depth_once = true.
Proof. vm_compute. reflexivity. Qed.
Print Assumptions params_conversion_period_in_table_once.

Theorem params_table_covers_lock_bytes : depths_cover_lock_bytes = true.
Proof. vm_compute. reflexivity. Qed.
Print Assumptions params_table_covers_lock_bytes.

(* multipliers: terminal <= first-year, both >= 100000 (never below the plain value) *)
Theorem params_multipliers_sane : multiples_ok = true.
Proof. vm_compute. reflexivity. Qed.
Print Assumptions params_multipliers_sane.

(* ---- the lockup ledger: AddNewLock / ClaimCoinbaseLockup over any history ---- *)

(* every reachable ledger is a well-formed map whose records all carry a non-zero unlock height *)
Theorem ledger_reachable_inv : forall ops, Forall op_wf ops -> Inv (run_state [] ops).
Proof. intros ops W. exact (run_preserves_inv ops [] inv_empty W). Qed.
Print Assumptions ledger_reachable_inv.

(* rewards as Process creates them (unlock = block + depth of the lock byte, below 2^32) are well-formed adds *)
Theorem process_rewards_are_wf : forall a b lb d,
  nth_error depths lb = Some d -> a_unlock a = b + d -> b + d < two32 -> op_wf (OAdd a).
Proof.
  intros a b lb d Hd Hu Hlt. pose proof params_depths_at_least_one_epoch as P.
  apply unlock_in_range_wf; [exact (E_pos_of_params P)| |lia].
  pose proof (depths_at_least_epoch d P (nth_error_In _ _ Hd)). lia.
Qed.
Print Assumptions process_rewards_are_wf.

(* one successful AddNewLock: the tranche of (owner, miner, lock byte, epoch) gains exactly the reward, keeps its
   unlock height (a new tranche gets the epoch floor of the nominal unlock height), counts one more element,
   takes the new delegate; no other tranche changes; a refused add changes nothing *)
Theorem lock_add_step : forall L a, Inv L ->
  match add_core L a with
  | Some (L', deleted, _) =>
      add_guards L a = true /\
      get (add_key a) L' = Some (mkRec (r_bal (read L (add_key a)) + a_value a)
                                       (if r_unlock (read L (add_key a)) =? 0 then tranche_height a
                                        else r_unlock (read L (add_key a)))
                                       (((if r_unlock (read L (add_key a)) =? 0 then 0
                                          else r_elems (read L (add_key a))) + 1) mod two16)
                                       (a_deleg a)) /\
      (forall k, k <> add_key a -> get k L' = get k L) /\
      deleted = negb (r_unlock (read L (add_key a)) =? 0)
  | None => add_guards L a = false /\ fst (step L (OAdd a)) = L
  end.
Proof.
  intros L a [S NZ]. rewrite step_add_ledger, add_core_spec by exact NZ.
  destruct (add_guards L a); [|auto].
  repeat split; [apply get_put_same|intros k Hk; apply get_put_other; exact Hk].
Qed.
Print Assumptions lock_add_step.

(* lock_accumulates: after ANY history of well-formed operations the balance of every tranche is the sum of the
   rewards added to it minus what was paid out of it (minus what a reverted frame destroyed, see below) *)
Theorem lock_accumulates : forall ops k, Forall op_wf ops ->
  (bal_at (run_state [] ops) k =
   sum_over (at_key k added_by) [] ops - sum_over (at_key k paid_by) [] ops - sum_over (at_key k burned_by) [] ops)%Z.
Proof.
  intros ops k W. pose proof (history_accounting_key ops [] k inv_empty W) as H.
  change (bal_at [] k) with 0%Z in H. lia.
Qed.
Print Assumptions lock_accumulates.

(* total conservation: sum(added) = sum(claimed) + sum(still locked), for histories without a claim inside a
   reverted frame *)
Theorem total_conservation : forall ops, Forall op_wf ops -> Forall no_inner_revert ops ->
  (sum_over added_by [] ops = sum_over paid_by [] ops + total (run_state [] ops))%Z.
Proof.
  intros ops W N. pose proof (history_accounting_total ops [] inv_empty W) as H.
  rewrite (burned_zero_without_revert ops [] N) in H. change (total []) with 0%Z in H. lia.
Qed.
Print Assumptions total_conservation.

(* full statement (no side condition on frames) is FALSE of the code: a claim made inside a call frame that
   reverts afterwards (evm.revertToSnapshot restores ETXCache/CoinbasesDeleted but not the batch) deletes the
   lockup and emits nothing.  Replayed on the real EVM by the harness (corpus "evm-inner-revert"). *)
Theorem total_conservation_refuted_by_reverted_frame :
  exists ops, Forall op_wf ops /\
    (sum_over added_by [] ops <> sum_over paid_by [] ops + total (run_state [] ops))%Z.
Proof.
  exists [OAdd (w_add 4242); OClaim EvmInnerRevert (w_claim w_th)]. split.
  - repeat constructor. exact (w_add_wf 4242 params_depths_at_least_one_epoch).
  - vm_compute. discriminate.
Qed.
Print Assumptions total_conservation_refuted_by_reverted_frame.

(* with the destroyed amounts accounted for, conservation holds for every history *)
Theorem total_conservation_with_burn : forall ops, Forall op_wf ops ->
  (sum_over added_by [] ops =
   sum_over paid_by [] ops + sum_over burned_by [] ops + total (run_state [] ops))%Z.
Proof.
  intros ops W. pose proof (history_accounting_total ops [] inv_empty W) as H.
  change (total []) with 0%Z in H. lia.
Qed.
Print Assumptions total_conservation_with_burn.

(* the well-formedness side condition is necessary: with a nominal unlock height below one epoch the tranche
   height is 0 and the next reward overwrites the balance (unreachable with the generated depths, see
   process_rewards_are_wf) *)
Theorem lock_accumulates_refuted_for_unlock_below_epoch :
  exists a, ~ op_wf (OAdd a) /\
    let ops := [OAdd a; OAdd a] in
    (bal_at (run_state [] ops) (add_key a) <> sum_over (at_key (add_key a) added_by) [] ops)%Z.
Proof.
  exists (mkAdd w_owner w_miner zero_addr true 0 (E - 1) 1 10). split.
  - intro H. apply H. vm_compute. reflexivity.
  - vm_compute. discriminate.
Qed.
Print Assumptions lock_accumulates_refuted_for_unlock_below_epoch.

(* a claim that pays: the record existed, its unlock height has been reached, its epoch is over, the ETX carries
   exactly the record's balance from the caller to the requested address, and the record is gone afterwards *)
Theorem claim_not_before_unlock : forall L m c p, Inv L -> c_height c < two32 ->
  paid_of (snd (step L (OClaim m c))) = Some p ->
  let r := read L (claim_key c) in
  get (claim_key c) L = Some r /\ r_unlock r <> 0 /\ r_unlock r <= c_height c /\
  c_epoch c < (c_height c / E + 1) mod two32 /\ r_elems r <> 0 /\
  p = mkPaid (r_bal r) (c_to c) (c_caller c) (c_etxgas c) /\
  fst (step L (OClaim m c)) = del (claim_key c) L.
Proof.
  intros L m c p _ Hh P. destruct (claim_pays_spec L m c p P) as (G & Gd & Hp & Hl).
  destruct (claim_guards_timing L c Gd) as (T1 & T2 & T3 & T4).
  rewrite N.mod_small in T2 by exact Hh. cbn zeta. repeat split; assumption.
Qed.
Print Assumptions claim_not_before_unlock.

(* the unlock height of a tranche never moves while the tranche exists *)
Theorem tranche_unlock_height_never_moves : forall L o k r r', Inv L -> get k L = Some r ->
  get k (fst (step L o)) = Some r' -> r_unlock r' = r_unlock r.
Proof.
  intros L o k r r' I G. destruct (step_shape L o I) as [o|a|m c p b _].
  - congruence.
  - rewrite get_put. destruct (keqb k (add_key a)) eqn:Ek; [|congruence].
    apply keqb_eq in Ek. subst k. intros [= <-]. unfold new_rec, read; cbn [r_unlock]. rewrite G.
    destruct (r_unlock r =? 0) eqn:Z0; [|reflexivity]. apply N.eqb_eq in Z0. destruct (proj2 I _ _ G Z0).
  - rewrite get_del by apply I. destruct (keqb k (claim_key c)); congruence.
Qed.
Print Assumptions tranche_unlock_height_never_moves.

(* claim_only_owner: a claim (any mode, any verdict) touches no tranche other than the one keyed by its caller;
   in particular no tranche of another owner contract *)
Theorem claim_only_owner : forall L m c k, Inv L -> k <> claim_key c ->
  get k (fst (step L (OClaim m c))) = get k L.
Proof.
  intros L m c k I Hk. apply step_other_key; [exact I|]. cbn [op_key]. congruence.
Qed.
Print Assumptions claim_only_owner.

Theorem claim_only_owner_by_address : forall L m c o mi lb ep, Inv L ->
  length o = length (c_caller c) -> o <> c_caller c ->
  get (enc o mi lb ep) (fst (step L (OClaim m c))) = get (enc o mi lb ep) L.
Proof.
  intros L m c o mi lb ep I Hl Hn. apply claim_only_owner; [exact I|].
  intros Heq. apply Hn. exact (enc_owner_inj _ _ _ _ _ _ _ _ Hl Heq).
Qed.
Print Assumptions claim_only_owner_by_address.

(* the ledger key determines (owner, miner, lock byte, epoch) *)
Theorem ledger_key_injective : forall o m l e o' m' l' e',
  length o = length o' -> length m = length m' -> e < two32 -> e' < two32 ->
  enc o m l e = enc o' m' l' e' -> o = o' /\ m = m' /\ l = l' /\ e = e'.
Proof.
  unfold enc. intros o m l e o' m' l' e' Ho Hm He He' H.
  apply app_inv_length in H as [-> H]; [|assumption].
  apply app_inv_length in H as [-> H]; [|assumption].
  cbn [app] in H. inversion H as [[Hl Hb]].
  repeat split; try reflexivity. apply be4_inj; try assumption.
  unfold be4. congruence.
Qed.
Print Assumptions ledger_key_injective.

(* claim_once: after a paying claim, no claim on the same tranche pays again unless a new reward was added to it *)
Theorem claim_once : forall L m c p ops m' c', Inv L -> Forall op_wf ops ->
  paid_of (snd (step L (OClaim m c))) = Some p ->
  Forall (not_add_to (claim_key c)) ops -> claim_key c' = claim_key c ->
  paid_of (snd (step (run_state (fst (step L (OClaim m c))) ops) (OClaim m' c'))) = None.
Proof.
  intros L m c p ops m' c' I W P N K. apply claim_refused, claim_guards_absent. rewrite K.
  apply get_none_run; try assumption.
  - apply step_preserves_inv; [exact I|exact Logic.I].
  - destruct (claim_pays_spec L m c p P) as (_ & _ & _ & ->). apply get_del_same, I.
Qed.
Print Assumptions claim_once.

(* claimed_equals_accumulated: what a claim pays is exactly what the history accumulated in that tranche *)
Theorem claimed_equals_accumulated : forall ops m c p, Forall op_wf ops ->
  paid_of (snd (step (run_state [] ops) (OClaim m c))) = Some p ->
  (p_value p = sum_over (at_key (claim_key c) added_by) [] ops
               - sum_over (at_key (claim_key c) paid_by) [] ops
               - sum_over (at_key (claim_key c) burned_by) [] ops)%Z /\
  p_sender p = c_caller c /\ p_to p = c_to c.
Proof.
  intros ops m c p W P.
  destruct (claim_pays_spec _ m c p P) as (_ & _ & -> & _).
  split; [exact (lock_accumulates ops (claim_key c) W)|split; reflexivity].
Qed.
Print Assumptions claimed_equals_accumulated.

(* a due claim by the owner succeeds and pays the whole balance ... *)
Theorem claim_due_succeeds : forall L c, claim_guards L c = true -> c_etxgas c <= c_gas c ->
  step L (OClaim TxOk c) =
    (del (claim_key c) L,
     RClaim true (c_gas c - c_etxgas c)
            (Some (mkPaid (r_bal (read L (claim_key c))) (c_to c) (c_caller c) (c_etxgas c)))
            (read (del (claim_key c) L) (claim_key c))).
Proof.
  intros L c G Hg. unfold step. cbn [andb].
  apply N.ltb_ge in Hg. rewrite Hg, claim_check_spec, G. reflexivity.
Qed.
Print Assumptions claim_due_succeeds.

(* ... but claim_guards contains "elements <> 0", and the uint16 element counter wraps: after 65536 rewards in one
   tranche the unlocked balance cannot be claimed (until another reward arrives, which a finished epoch never
   gets).  Replayed on the real code by the harness (corpus "elements-wrap"). *)
Theorem claim_due_refuted_by_elements_wrap :
  exists a c, op_wf (OAdd a) /\
    let L := run_state [] (repeat (OAdd a) (N.to_nat 65536)) in
    let r := read L (claim_key c) in
    (0 < r_bal r)%Z /\ r_unlock r <> 0 /\ r_unlock r <= c_height c /\ c_height c < two32 /\
    c_epoch c < c_height c / E + 1 /\ internal (c_caller c) = true /\ is_quai (c_caller c) = true /\
    internal (c_miner c) = true /\ c_etxgas c <= c_gas c /\ claim_key c = add_key a /\
    paid_of (snd (step L (OClaim TxOk c))) = None /\ fst (step L (OClaim TxOk c)) = L.
Proof.
  pose proof (w_add_wf 3 params_depths_at_least_one_epoch) as W.
  exists (w_add 3), (w_claim w_th). split; [exact W|]. cbv zeta.
  change (claim_key (w_claim w_th)) with (add_key (w_add 3)).
  (* the first reward creates the tranche, 65535 more bring the counter to 65536 mod 2^16 = 0 *)
  change 65536 with (N.succ 65535). rewrite repeat_succ, run_state_cons.
  set (L := run_state (fst (step [] (OAdd (w_add 3)))) (repeat (OAdd (w_add 3)) (N.to_nat 65535))).
  destruct (adds_to_tranche (w_add 3) 65535 (fst (step [] (OAdd (w_add 3))))) as (Hb & Hu & He);
    [apply step_preserves_inv; [exact inv_empty|exact W] | exact W | vm_compute; discriminate
    | vm_compute; reflexivity | vm_compute; reflexivity | vm_compute; reflexivity |].
  fold L in Hb, Hu, He. clearbody L. rewrite Hb, Hu.
  assert (He0 : r_elems (read L (add_key (w_add 3))) = 0) by (rewrite He; reflexivity).
  destruct (claim_refused L TxOk (w_claim w_th)) as [Hp Hl].
  { unfold claim_guards. change (claim_key (w_claim w_th)) with (add_key (w_add 3)). rewrite He0. apply andb_false_r. }
  repeat split; (exact Hp || exact Hl || (vm_compute; reflexivity) || (vm_compute; discriminate)).
Qed.
Print Assumptions claim_due_refuted_by_elements_wrap.

(* design observation: the tranche unlocks at the epoch floor of the FIRST reward's nominal height, so a later
   reward of the same epoch is claimable before its own block + depth; the gap is below two epochs *)
Theorem claim_before_nominal_unlock_possible :
  exists ops c p (a : addargs), Forall op_wf ops /\ In (OAdd a) ops /\ add_key a = claim_key c /\
    paid_of (snd (step (run_state [] ops) (OClaim TxOk c))) = Some p /\
    (0 < p_value p)%Z /\ c_height c < a_unlock a.
Proof.
  set (late := mkAdd w_owner w_miner zero_addr true 0 (E - 1 + w_depth0) 1 7%Z).
  exists [OAdd (w_add 5); OAdd late], (w_claim w_th).
  eexists. exists late. split; [|split; [|split; [|split; [|split]]]].
  - repeat constructor; intro H; vm_compute in H; discriminate.
  - right; left; reflexivity.
  - vm_compute. reflexivity.
  - vm_compute. reflexivity.
  - vm_compute. reflexivity.
  - vm_compute. reflexivity.
Qed.
Print Assumptions claim_before_nominal_unlock_possible.

Theorem claim_early_by_less_than_two_epochs : forall b0 b d th h,
  b0 / E = b / E -> th = (b0 + d) - (b0 + d) mod E -> th <= h -> b + d < h + 2 * E.
Proof.
  intros b0 b d th h Hep -> Hh. pose proof (E_pos_of_params params_depths_at_least_one_epoch) as HE.
  rewrite epoch_floor in Hh by exact HE. apply N.neq_0_lt_0 in HE.
  (* b lies less than one epoch above the floor it shares with b0, and b0 + d less than one epoch above its own *)
  pose proof (N.mul_succ_div_gt b E HE) as H1. rewrite <- Hep in H1.
  pose proof (N.mul_div_le b0 E HE) as H2. pose proof (N.mul_succ_div_gt (b0 + d) E HE) as H3.
  lia.
Qed.
Print Assumptions claim_early_by_less_than_two_epochs.

(* for Process-made rewards the epoch guard of a claim is implied by the unlock guard (depth >= epoch): a mutation of
   the epoch comparison is only visible on inputs Process never produces (the harness corpus has them) *)
Theorem claim_unlock_guard_implies_epoch_guard : forall b d h, E <= d ->
  (b + d) - (b + d) mod E <= h -> b / E + 1 < h / E + 1.
Proof.
  intros b d h Hd Hh. pose proof (E_pos_of_params params_depths_at_least_one_epoch) as HE.
  rewrite epoch_floor in Hh by exact HE.
  assert (b / E + 1 <= (b + d) / E) by (rewrite <- (N.div_add b 1 E) by lia; apply N.div_le_mono; lia).
  assert ((b + d) / E <= h / E) by (apply N.div_le_lower_bound; lia).
  lia.
Qed.
Print Assumptions claim_unlock_guard_implies_epoch_guard.

(* ---- RedeemLockedQuai: plain locked rewards and Qi->Quai conversions ---- *)

(* redeem_exactly_once_at_unlock: an ETX in canonical block b (b >= 1) that RedeemLockedQuai can credit at all
   (plain coinbase to an in-zone Quai address with lock byte l: depth = LockupByteToBlockDepth[l]; conversion:
   depth = ConversionLockPeriod) is selected by the scan of height h exactly once if h = b + depth and not at
   all otherwise *)
Theorem redeem_exactly_once_at_unlock : forall ch h b xs i x d,
  ch b = Some xs -> nth_error xs i = Some x -> credit_depth x = Some d -> In d depths ->
  cnt (b, i) (selected_at depths ch h) = if (h =? b + d) && (1 <=? b) then 1%nat else 0%nat.
Proof.
  intros ch h b xs i x d Hb Hx Hc Hin. rewrite (selected_at_cnt depths ch h b xs i x Hb Hx), Hc.
  rewrite (proj1 (NoDup_count_occ' N.eq_dec depths) (nodupb_spec depths params_depths_pairwise_distinct) d Hin).
  reflexivity.
Qed.
Print Assumptions redeem_exactly_once_at_unlock.

Theorem redeem_plain_coinbase_depth : forall x d, e_kind x = KCoinbase -> is_quai (e_to x) = true ->
  internal (e_to x) = true -> e_dlen x = plain_len -> depth_of (e_lock x) = Some d ->
  credit_depth x = Some d /\ In d depths.
Proof.
  intros x d K Q I Dl Dp. unfold credit_depth. rewrite K, Q, I, Dl, N.eqb_refl.
  split; [exact Dp|]. unfold depth_of in Dp. eapply nth_error_In; eauto.
Qed.
Print Assumptions redeem_plain_coinbase_depth.

Theorem redeem_conversion_depth : forall x, e_kind x = KConversion -> is_quai (e_to x) = true ->
  internal (e_to x) = true -> credit_depth x = Some conversion_lock_period /\ In conversion_lock_period depths.
Proof.
  intros x K Q I. unfold credit_depth. rewrite K, Q, I. split; [reflexivity|].
  pose proof params_conversion_period_in_table_once as P. unfold conversion_depth_once in P.
  destruct (filter (N.eqb conversion_lock_period) depths) as [|y t] eqn:F; [discriminate|].
  assert (Hin : In y (filter (N.eqb conversion_lock_period) depths)) by (rewrite F; left; reflexivity).
  apply filter_In in Hin as [Hin Hy]. apply N.eqb_eq in Hy. subst y. exact Hin.
Qed.
Print Assumptions redeem_conversion_depth.

(* contract-held rewards (53/73-byte data), other ETX kinds, Qi-ledger recipients, malformed data: never credited *)
Theorem redeem_never_credits_others : forall ch h b xs i x,
  ch b = Some xs -> nth_error xs i = Some x -> credit_depth x = None ->
  cnt (b, i) (selected_at depths ch h) = 0%nat.
Proof. intros ch h b xs i x Hb Hx Hc. rewrite (selected_at_cnt depths ch h b xs i x Hb Hx), Hc. reflexivity. Qed.
Print Assumptions redeem_never_credits_others.

(* amount: the lockup-adjusted value at the REDEEMING height for a coinbase, the plain value for a conversion *)
Theorem redeem_credit_amount : forall d h x a v, select d h x = SCredit a v ->
  a = e_to x /\ v = match e_kind x with KCoinbase => lockup_value (e_value x) (e_lock x) h | _ => e_value x end.
Proof. exact select_credit_payload. Qed.
Print Assumptions redeem_credit_amount.

(* the whole function = account-creation-fee rule applied to exactly the selected ETXs, in depth-table then
   block order (when every target block is present and holds no foreign-zone recipient / bad lock byte) *)
Theorem redeem_is_fee_rule_over_selected : forall ch h fee st, Forall (depth_ok ch h) depths ->
  redeem ch h fee st =
    let '(cr, st') := apply_credits fee (all_selected depths ch h) [] st in RedOk cr st'.
Proof. intros ch h fee st F. exact (redeem_depths_as_selected depths ch h fee [] st F). Qed.
Print Assumptions redeem_is_fee_rule_over_selected.

(* no more: balances grow by exactly the reported unlocks *)
Theorem redeem_balance_conservation : forall ch h fee st cr st',
  redeem ch h fee st = RedOk cr st' -> (atotal st' = atotal st + csum cr)%Z.
Proof.
  unfold redeem. intros ch h fee st cr st' H. apply redeem_depths_conserves in H.
  change (csum []) with 0%Z in H. lia.
Qed.
Print Assumptions redeem_balance_conservation.

(* lockup-adjusted value: never below the plain value, never above the first-year multiple *)
Theorem lockup_value_bounds : forall v lb h, (0 <= v)%Z -> lb <= max_lockup_byte ->
  (v <= lockup_value v lb h)%Z /\
  (lockup_value v lb h <= Z.max v (v * Z.of_N (fst (mult_of lb)) / 100000))%Z /\
  (lb = 0 -> lockup_value v lb h = v).
Proof.
  intros v lb h Hv Hl. unfold lockup_value.
  destruct (lb =? 0) eqn:L0; cbn [orb]; [repeat split; lia|].
  destruct (h <? 2 * blocks_per_month); [repeat split; lia|].
  destruct (rewards_multiple_bounds lb h params_multipliers_sane ltac:(lia) Hl) as [[Hm1 Hm0] H1].
  repeat split; [| |lia].
  - apply Z.div_le_lower_bound; nia.
  - apply Z.le_trans with (v * Z.of_N (fst (mult_of lb)) / 100000)%Z; [|lia].
    apply Z.div_le_mono; nia.
Qed.
Print Assumptions lockup_value_bounds.

(* ---- reward split, pre-fork formula (modelled, not driven by the harness) ---- *)

(* sum of the share rewards <= block reward + one unit per share (a share whose part rounds to 0 is paid 1) *)
Theorem reward_split_bounded_partial : forall R es, (0 <= R)%Z -> Forall (fun e => (0 <= e)%Z) es -> (0 < zsum es)%Z ->
  (zsum (split_prefork R es) <= R + Z.of_nat (length es))%Z.
Proof.
  intros R es _ _ HT. unfold split_prefork.
  pose proof (share_rewards_le R (zsum es) es HT) as H. rewrite Z.div_mul in H by lia. exact H.
Qed.
Print Assumptions reward_split_bounded_partial.

(* full statement "sum of shares <= block reward" is false because of the minimum of 1 *)
Theorem reward_split_bounded_refuted : exists R es, (0 <= R)%Z /\ Forall (fun e => (0 <= e)%Z) es /\ (0 < zsum es)%Z /\
  (R < zsum (split_prefork R es))%Z.
Proof. exact share_split_strict_refuted. Qed.
Print Assumptions reward_split_bounded_refuted.

Definition nv_ops : list op :=
  [OAdd (w_add 100); OAdd (w_add 50); OClaim TxOk (w_claim (w_th - 1)); OClaim TxOk (w_claim w_th)].

Example ledger_history_nonvacuous :
  Forall op_wf nv_ops /\ Forall no_inner_revert nv_ops /\
  sum_over added_by [] nv_ops = 150%Z /\ sum_over paid_by [] nv_ops = 150%Z /\ total (run_state [] nv_ops) = 0%Z /\
  bal_at (run_state [] (firstn 3 nv_ops)) (add_key (w_add 1)) = 150%Z.
Proof.
  split; [|split; [|vm_compute; repeat split; reflexivity]].
  - repeat constructor; apply w_add_wf, params_depths_at_least_one_epoch.
  - repeat constructor.
Qed.

Example claim_pays_nonvacuous :
  paid_of (snd (step (run_state [] (firstn 2 nv_ops)) (OClaim TxOk (w_claim w_th))))
    = Some (mkPaid 150%Z w_to w_owner 21000) /\
  paid_of (snd (step (run_state [] (firstn 2 nv_ops)) (OClaim TxOk (w_claim (w_th - 1))))) = None /\
  claim_guards (run_state [] (firstn 2 nv_ops)) (w_claim w_th) = true.
Proof. vm_compute. repeat split; reflexivity. Qed.

Example claim_once_nonvacuous :
  paid_of (snd (step (run_state [] nv_ops) (OClaim TxOk (w_claim (w_th + 1))))) = None /\
  Forall (not_add_to (claim_key (w_claim w_th))) [OClaim TxOk (w_claim w_th); OCommit].
Proof. split; [vm_compute; reflexivity|repeat constructor]. Qed.

Definition nv_x (lb : N) : retx := mkRetx KCoinbase w_to plain_len lb 1000000.
Definition nv_chain (b : N) : option (list retx) := if b =? 7 then Some [nv_x 1; nv_x 0; mkRetx KConversion w_to 0 0 55] else Some [].

Example redeem_nonvacuous :
  credit_depth (nv_x 1) = Some (nth 1 depths 0) /\
  selected_at depths nv_chain (7 + nth 1 depths 0) = [(7, 0%nat)] /\
  selected_at depths nv_chain (7 + nth 0 depths 0) = [(7, 1%nat); (7, 2%nat)] /\
  selected_at depths nv_chain (8 + nth 0 depths 0) = [] /\
  redeem [(7, [nv_x 1; nv_x 0; mkRetx KConversion w_to 0 0 55])] (7 + nth 0 depths 0) 10 []
    = RedOk [(w_to, 999990%Z); (w_to, 55%Z)] [(w_to, 1000045%Z)].
Proof. vm_compute. repeat split; reflexivity. Qed.

Example lockup_value_nonvacuous :
  lockup_value 1000000 3 (2 * blocks_per_month) = 1250000%Z /\ lockup_value 1000000 3 (6 * blocks_per_year) = 1015620%Z /\
  lockup_value 1000000 0 (6 * blocks_per_year) = 1000000%Z /\ lockup_value 1000000 3 (2 * blocks_per_month - 1) = 1000000%Z.
Proof. vm_compute. repeat split; reflexivity. Qed.

Example reward_split_nonvacuous : split_prefork 1000 [3; 1; 0]%Z = [750; 250; 1]%Z.
Proof. vm_compute. reflexivity. Qed.

(* ================================================================== workshare inclusion
   HeaderChain.VerifyUncles (model verify_uncles) and the reward-at-depth rule of the Process tail
   (model upaid).  Chains are lists of blocks, NEWEST FIRST; each block is validated against the
   chain below it.  Chain hypotheses: uwf = distinct block hashes + parent links, uroot = the parent of
   the oldest block is not on the chain, ubinds / ubinds_blocks = a header hash determines the parent
   hash inside it (their negation is a hash collision). *)

(* the inclusion windows as they are in the source now: the proofs below use 3 <= depth <= 4 *)
Theorem params_inclusion_window_sane :
  ((3 =? workshares_inclusion_depth) && (workshares_inclusion_depth <=? new_workshares_inclusion_depth)
   && (new_workshares_inclusion_depth <=? 4) && (max_workshare_count <=? new_max_workshare_count)
   && (kawpow_fork_block <=? inclusion_depth_change_block) && (controller_kick_in_block <=? kawpow_fork_block)) = true.
Proof. exact inclusion_window_ok. Qed.
Print Assumptions params_inclusion_window_sane.

(* inside one accepted block no share hash is listed twice, and the count limit of its fork holds *)
Theorem share_unique_in_block : forall db b, verify_uncles db b = VOk -> NoDup (map s_id (b_uncles b)).
Proof. intros db b H. exact (ac_nodup (verify_ok_spec db b H)). Qed.
Print Assumptions share_unique_in_block.

Theorem share_count_bounded : forall db b, verify_uncles db b = VOk ->
  N.of_nat (length (b_uncles b)) <= u_maxcount (b_ptn b).
Proof. intros db b H. exact (ac_count (verify_ok_spec db b H)). Qed.
Print Assumptions share_count_bounded.

(* recency: an accepted share was mined on one of the last `depth` ancestors of the including block, so
   number(share) <= number(block) < number(share) + depth.  This is the side condition that makes the
   FINITE window of the duplicate check sufficient. *)
Theorem share_recent : forall b rest, uwf (b :: rest) -> uroot (b :: rest) -> unumbered (b :: rest) ->
  verify_uncles rest b = VOk ->
  forall s, In s (b_uncles b) -> s_num s <= b_num b /\ b_num b < s_num s + N.of_nat (u_depth (b_ptn b)).
Proof.
  intros b rest Hwf Hroot Hnum Hv s Hs. pose proof (listed_share_numbers b rest s Hwf Hroot Hnum Hv Hs). lia.
Qed.
Print Assumptions share_recent.

(* THE clause: along any chain whose blocks were each accepted by VerifyUncles, no share hash occurs in
   two uncle lists (nor twice in one) - for every mix of inclusion depths along the chain *)
Theorem share_included_once : forall c, uwf c -> uroot c -> uaccepted c -> ubinds c ->
  NoDup (map s_id (ushares c)).
Proof.
  induction c as [|b rest IH]; intros Hwf Hroot Hacc Hb; [constructor|]. destruct Hacc as [Hv Har].
  rewrite ushares_cons. apply NoDup_map_app.
  - exact (ac_nodup (verify_ok_spec rest b Hv)).
  - exact (IH (uwf_app_r [b] rest Hwf) (uroot_app_r [b] rest Hroot) Har (ubinds_tail b rest Hb)).
  - intros s s' Hs Hs' Hid. apply (no_reinclusion b rest Hwf Hroot Hv Har s s' Hs Hs' Hid).
    apply Hb; [apply in_ushares_head; exact Hs|apply in_ushares_tail; exact Hs'|exact Hid].
Qed.
Print Assumptions share_included_once.

(* a listed share is never (the header of) a block of the chain that lists it *)
Theorem share_is_no_chain_block : forall c, uwf c -> uroot c -> uaccepted c -> ubinds_blocks c ->
  forall s bk, In s (ushares c) -> In bk c -> s_id s <> b_id bk.
Proof.
  induction c as [|b rest IH]; intros Hwf Hroot Hacc Hb s bk Hs Hbk Heq; [destruct Hbk|]. destruct Hacc as [Hv Har].
  pose proof (Hb s bk Hs Hbk Heq) as Hpar.
  rewrite ushares_cons in Hs. apply in_app_or in Hs as [Hs|Hs].
  - exact (listed_by_head_no_block b rest Hwf Hroot Hv s bk Hs Hbk Hpar Heq).
  - destruct Hbk as [<-|Hbk]; [exact (head_parent_not_listed b rest Hwf Har s Hs Hpar)|].
    exact (IH (uwf_app_r [b] rest Hwf) (uroot_app_r [b] rest Hroot) Har (ubinds_blocks_tail b rest Hb) s bk Hs Hbk Heq).
Qed.
Print Assumptions share_is_no_chain_block.

(* ... and so rewarded at most once: over the whole chain the coinbase payments made for shares carry
   pairwise distinct share hashes, as long as one inclusion depth is in force along the chain *)
Theorem share_rewarded_once : forall c d, uwf c -> uroot c -> uaccepted c -> ubinds c -> unumbered c ->
  (forall b, In b c -> u_depth (b_ptn b) = d) ->
  NoDup (map s_id (upaid_all c)).
Proof.
  intros c d Hwf Hroot Hacc Hb Hnum Hd.
  exact (upaid_all_nodup d c (share_included_once c Hwf Hroot Hacc Hb) Hnum Hd).
Qed.
Print Assumptions share_rewarded_once.

(* the constant-depth premise is necessary: the last depth-3 block (height n) and the first depth-4
   block (height n+1) both pay the shares numbered n-3 *)
Theorem share_rewarded_once_refuted_at_depth_change :
  exists c, uwf c /\ uroot c /\ uaccepted c /\ ubinds c /\ unumbered c /\ ~ NoDup (map s_id (upaid_all c)).
Proof.
  exists wit_chain. split; [|split; [|split; [|split; [|split]]]].
  - simpl. repeat split; try reflexivity; intro H; repeat (destruct H as [H|H]; [discriminate H|]); exact H.
  - unfold uroot. simpl. intro H; repeat (destruct H as [H|H]; [discriminate H|]); exact H.
  - simpl. repeat split; vm_compute; reflexivity.
  - intros s s' Hs Hs' _. vm_compute in Hs, Hs'. destruct Hs as [Hs|[]]. destruct Hs' as [Hs'|[]]. subst. reflexivity.
  - simpl. repeat split; reflexivity.
  - assert (H : map s_id (upaid_all wit_chain) = [100; 100]) by (vm_compute; reflexivity).
    rewrite H. intro Hn. inversion Hn as [|x l Hna _]. apply Hna. left. reflexivity.
Qed.
Print Assumptions share_rewarded_once_refuted_at_depth_change.

(* no less: a share listed on the chain is paid by the block `depth` above the share's number *)
Theorem share_paid_when_due : forall pre b rest d, let c := pre ++ b :: rest in
  uwf c -> uroot c -> uaccepted c -> unumbered c ->
  (forall x, In x c -> u_depth (b_ptn x) = d) ->
  forall s, In s (ushares (b :: rest)) -> b_num b = s_num s + N.of_nat d -> In s (upaid b rest).
Proof.
  intros pre b rest d c Hwf Hroot Hacc Hnum Hd s Hs Hdue. subst c.
  apply uwf_app_r in Hwf. apply uroot_app_r in Hroot. apply uaccepted_app_r in Hacc. apply unumbered_app_r in Hnum.
  assert (Hd' : forall x, In x (b :: rest) -> u_depth (b_ptn x) = d) by (intros x Hx; apply Hd, in_or_app; right; exact Hx).
  rewrite ushares_cons in Hs. apply in_app_or in Hs as [Hs|Hs].
  - (* a share listed by b itself is too young to be due *)
    destruct (share_recent b rest Hwf Hroot Hnum (proj1 Hacc) s Hs) as [_ Hr].
    rewrite (Hd' b) in Hr by (left; reflexivity). lia.
  - destruct (lister rest s Hs) as (l1 & bi & l2 & -> & Hsi).
    apply (listed_below_paid b l1 bi l2 d s); try assumption.
    + exact (uwf_app_r (b :: l1) _ Hwf).
    + exact (uroot_app_r (b :: l1) _ Hroot).
    + exact (uaccepted_at (b :: l1) _ _ Hacc).
    + apply Hd'. left. reflexivity.
    + apply Hd'. right. apply in_or_app. right. left. reflexivity.
Qed.
Print Assumptions share_paid_when_due.

Example share_included_once_nonvacuous :
  verify_uncles ex_base ex_b6 = VOk /\
  verify_uncles (ex_b6 :: ex_base) ex_b7_dup = VDup /\
  verify_uncles (ex_b6 :: ex_base) ex_b7_fresh = VOk /\
  uaccepted (ex_b7_fresh :: ex_b6 :: ex_base) /\
  map s_id (ushares (ex_b7_fresh :: ex_b6 :: ex_base)) = [101; 102; 100] /\
  (* re-listing from the grandparent, and from the oldest block of the window, is refused too *)
  verify_uncles (mkBlk 7 6 7 300000 [] :: ex_b6 :: ex_base) (mkBlk 8 7 8 300000 [ex_share 100 5 6]) = VDup /\
  verify_uncles (mkBlk 8 7 8 300000 [] :: mkBlk 7 6 7 300000 [] :: ex_b6 :: ex_base) (mkBlk 9 8 9 300000 [ex_share 100 5 6]) = VDup /\
  (* a block of the chain offered as a share, a share mined too long ago *)
  verify_uncles (ex_b6 :: ex_base) (mkBlk 7 6 7 300000 [mkShare 5 4 5 300000 false [0] 0 true PBlock true]) = VAncestor /\
  verify_uncles (ex_b6 :: ex_base) (mkBlk 7 6 7 300000 [ex_share 103 2 3]) = VDangling.
Proof. vm_compute. repeat split; reflexivity. Qed.

Example share_rewarded_once_nonvacuous :
  map s_id (upaid (mkBlk 9 8 9 300000 []) [mkBlk 8 7 8 300000 []; mkBlk 7 6 7 300000 []; ex_b6; mkBlk 5 4 5 300000 []; mkBlk 4 3 4 300000 []]) = [100] /\
  map s_id (upaid_all wit_chain) = [100; 100].
Proof. vm_compute. repeat split; reflexivity. Qed.

(* ================================================================== reorgs
   collect L ops = the ledger after a block of operations and the undo records StateProcessor.Process
   writes for it (created keys / replaced records); undo_block = what HeaderChain.SetCurrentHeader does
   with them when the block is orphaned: put the replaced records back in reverse order, then delete
   the created keys. *)

(* orphaning a block of rewards (any number of rewards per tranche, new and existing tranches, delegate
   changes) gives back EXACTLY the ledger before the block: no reward of an orphaned block stays
   accumulated, nothing of the surviving chain is lost *)
Theorem rollback_restores_rewards : forall ops L, Inv L -> Forall op_wf ops -> Forall no_claim ops ->
  undo_block (snd (collect L ops)) (fst (collect L ops)) = L.
Proof.
  intros ops L I W NC. destruct (run_preserves_inv ops L I W) as [S1 _]. rewrite <- collect_ledger in S1.
  apply sorted_ext; [apply undo_block_sorted; exact S1|apply I|].
  intros k0. rewrite undo_block_get by exact S1. exact (collect_undone ops L I W NC k0).
Qed.
Print Assumptions rollback_restores_rewards.

(* the two passes do not commute: with the created keys deleted first, the first reward of an orphaned
   block that created a tranche and added to it again survives the rollback *)
Theorem rollback_order_matters :
  Forall op_wf rw_ops /\ Forall no_claim rw_ops /\
  undo_block (snd (collect [] rw_ops)) (fst (collect [] rw_ops)) = [] /\
  r_bal (read (undo_block_swapped (snd (collect [] rw_ops)) (fst (collect [] rw_ops))) (add_key (rw_add 100))) = 100%Z.
Proof.
  split; [|split; [|split]].
  - repeat constructor; cbn [op_wf]; intro H; vm_compute in H; discriminate.
  - repeat constructor.
  - vm_compute. reflexivity.
  - vm_compute. reflexivity.
Qed.
Print Assumptions rollback_order_matters.

Example rollback_restores_nonvacuous :
  snd (collect [] rw_ops) = [ECreated (add_key (rw_add 100)); EDeleted (add_key (rw_add 100)) (mkRec 100 200000 1 zero_addr)] /\
  r_bal (read (fst (collect [] rw_ops)) (add_key (rw_add 100))) = 150%Z /\
  run_case [] [(CPrim (OAdd (rw_add 100)), RAdd true false None (mkRec 100 200000 1 zero_addr)); (CBlockEnd, RNone);
               (CRollback 1, RNone); (CPrim (OGet (a_owner (rw_add 1)) (a_miner (rw_add 1)) 0 1), RGet true empty_rec)] = true.
Proof. vm_compute. repeat split; reflexivity. Qed.

(* ---- post-fork share reward amounts: the time discount of a merged-mined share
        (core/headerchain.go CalculateTimeDiscountedShareReward, model time_discount; uint32 time arithmetic wraps) ---- *)

(* obligations on the generated constants: threshold < both liveness times, penalty <= divisor, no uint32 product wraps *)
Theorem params_time_discount_sane : discount_params_ok = true.
Proof. exact discount_params_hold. Qed.
Print Assumptions params_time_discount_sane.

(* the function never divides by zero, for every pow id, timestamp, signature time and reward *)
Theorem share_discount_total : forall pid ts sg reward, time_discount pid ts sg reward <> None.
Proof. intros. rewrite time_discount_spec. discriminate. Qed.
Print Assumptions share_discount_total.

(* "no more": the discounted amount never exceeds the share reward and never falls below the maximum-penalty amount *)
Theorem share_discount_bounds : forall pid ts sg reward v, (0 <= reward)%Z -> time_discount pid ts sg reward = Some v ->
  (max_penalty_amount reward <= v <= reward)%Z.
Proof.
  intros pid ts sg reward v Hr H. rewrite time_discount_spec in H. injection H as <-.
  destruct (clamp_range pid (u32sub ts sg)) as [Hlo Hhi]. split.
  - rewrite <- (discounted_stale pid). apply discounted_antitone; [exact Hr|exact Hlo|exact Hhi|apply N.le_refl].
  - rewrite <- (discounted_fresh pid reward) at 2. apply discounted_antitone; [exact Hr|apply N.le_refl|exact Hlo|exact Hhi].
Qed.
Print Assumptions share_discount_bounds.

(* a share signed at most NoPenaltyTimeThreshold seconds before its header timestamp is paid in full *)
Theorem share_discount_fresh_is_full : forall pid ts sg reward, u32sub ts sg <= no_penalty_time_threshold ->
  time_discount pid ts sg reward = Some reward.
Proof.
  intros pid ts sg reward H. rewrite time_discount_spec, clamp_spec.
  replace (N.max _ _) with no_penalty_time_threshold by lia. f_equal. apply discounted_fresh.
Qed.
Print Assumptions share_discount_fresh_is_full.

(* elapsed time (as the uint32 difference the code computes) at or beyond the liveness time of the share's
   algorithm: exactly reward * UnlivelySharePenalty / ShareRewardPenaltyDivisor *)
Theorem share_discount_stale_is_max_penalty : forall pid ts sg reward, liveness_of pid <= u32sub ts sg ->
  time_discount pid ts sg reward = Some (max_penalty_amount reward).
Proof.
  intros pid ts sg reward H. rewrite time_discount_spec, clamp_spec.
  replace (N.max _ _) with (liveness_of pid) by (destruct (discount_facts pid); lia). f_equal. apply discounted_stale.
Qed.
Print Assumptions share_discount_stale_is_max_penalty.

(* a signature time LATER than the header timestamp (post-dated template signature) is NOT fresh: the uint32
   difference wraps and the share gets the maximum penalty (all post-datings up to 2^32 - liveness seconds) *)
Theorem share_discount_postdated_is_max_penalty : forall pid ts sg reward,
  ts < sg -> sg < two32 -> sg - ts <= two32 - liveness_of pid ->
  time_discount pid ts sg reward = Some (max_penalty_amount reward).
Proof.
  intros pid ts sg reward H1 H2 H3. apply share_discount_stale_is_max_penalty.
  rewrite u32sub_wraps by assumption. lia.
Qed.
Print Assumptions share_discount_postdated_is_max_penalty.

(* an older share (larger elapsed uint32 time) is never paid more than a fresher one of the same algorithm *)
Theorem share_discount_monotone : forall pid ts sg ts' sg' reward v v', (0 <= reward)%Z ->
  u32sub ts sg <= u32sub ts' sg' ->
  time_discount pid ts sg reward = Some v -> time_discount pid ts' sg' reward = Some v' -> (v' <= v)%Z.
Proof.
  intros pid ts sg ts' sg' reward v v' Hr Hle H H'. rewrite time_discount_spec in H, H'. injection H as <-. injection H' as <-.
  destruct (clamp_range pid (u32sub ts sg)) as [Hlo _]. destruct (clamp_range pid (u32sub ts' sg')) as [_ Hhi].
  apply discounted_antitone; [exact Hr|exact Hlo| |exact Hhi]. rewrite !clamp_spec. lia.
Qed.
Print Assumptions share_discount_monotone.

Example share_discount_nonvacuous :
  time_discount 1 110 100 1000 = Some 860%Z /\ time_discount 2 110 100 1000 = Some 922%Z /\
  time_discount 1 103 100 1000 = Some 1000%Z /\ time_discount 4 118 100 1000 = Some 700%Z /\
  time_discount 1 100 140 1234567000000000000 = Some 864196900000000000%Z /\
  time_discount 3 1 4294967295 1000 = Some 1000%Z /\ u32sub 100 140 = 4294967256.
Proof. vm_compute. repeat split; reflexivity. Qed.
