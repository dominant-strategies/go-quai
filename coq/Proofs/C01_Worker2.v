(* C01 -- the worker's input loop and the outpoints it reserves (env.deletedUtxos); what the worker accepted, the
   processor accepts. *)
From Coq Require Import List NArith Bool Lia.
From GQ Require Import Lib.Key Lib.SMap Lib.Lists Generated.C01Params Model.C01 Proofs.C01_Steps Proofs.C01_Ledger Proofs.C01_Worker.
Import ListNotations.
Local Open Scope N_scope.

Definition w_acc (a : wiacc) (i : txin) (u : utxo) : wiacc :=
  mkWI (u_owner u :: wi_addrs a) (wi_total a + den_value (u_den u)) (u_den u :: wi_dens a) (wi_spent a ++ [(i_op i, u)]).

Lemma w_in_loop_cons c l gp deleted a i r deleted' res :
  w_in_loop c l gp deleted a (i :: r) = (deleted', res) ->
  (deleted' = deleted /\ exists e, res = Err e gp)
  \/ exists u, get (i_op i) l = Some u /\ u_lock u <= c_height c /\ u_den u <= max_denomination
       /\ is_qi (u_owner u) = true /\ ~ In (i_op i) deleted
       /\ w_in_loop c l gp (i_op i :: deleted) (w_acc a i u) r = (deleted', res).
Proof.
  cbn [w_in_loop]. destruct (get (i_op i) l) as [u|] eqn:G; [|intros [= <- <-]; eauto].
  destruct (c_height c <? u_lock u) eqn:E1; [intros [= <- <-]; eauto|]. apply N.ltb_ge in E1.
  destruct (max_denomination <? u_den u) eqn:E2; [intros [= <- <-]; eauto|]. apply N.ltb_ge in E2.
  destruct (is_qi (u_owner u)) eqn:E3; cbn [negb]; [|intros [= <- <-]; eauto].
  destruct (amem (i_op i) deleted) eqn:E4; [intros [= <- <-]; eauto|].
  intros H. right. exists u. repeat split; try assumption. rewrite <- amem_In, E4. discriminate.
Qed.

Set Implicit Arguments.
Record reserves (d ks d' : list key) : Prop := {
  rs_grows : incl d d';
  rs_nodup : NoDup ks;
  rs_new : forall k, In k ks -> ~ In k d /\ In k d'
}.
Unset Implicit Arguments.

Lemma reserves_nil d d' : incl d d' -> reserves d [] d'.
Proof. intros H. split; [exact H|constructor|intros k []]. Qed.

Lemma reserves_one d k : ~ In k d -> reserves d [k] (k :: d).
Proof.
  intros H. split; [apply incl_tl, incl_refl|repeat constructor; intros []|].
  intros k' [<-|[]]. split; [exact H|left; reflexivity].
Qed.

Lemma reserves_app d ks d1 ks' d2 : reserves d ks d1 -> reserves d1 ks' d2 -> reserves d (ks ++ ks') d2.
Proof.
  intros [Hi Hn Hk] [Hi' Hn' Hk']. split; [exact (incl_tran Hi Hi')| |].
  - apply NoDup_app_iff. split; [exact Hn|]. split; [exact Hn'|].
    (* the keys reserved first are in d1 by then, those reserved later are not *)
    intros k H H'. exact (proj1 (Hk' k H') (proj2 (Hk k H))).
  - intros k H. apply in_app_or in H as [H|H].
    + split; [apply Hk, H|apply Hi', Hk, H].
    + split; [|apply Hk', H]. intros Hd. exact (proj1 (Hk' k H) (Hi k Hd)).
Qed.

Lemma w_in_loop_spec c l gp ins : forall deleted a deleted' res,
  w_in_loop c l gp deleted a ins = (deleted', res) ->
  match res with
  | Err _ g => incl deleted deleted' /\ g = gp
  | Ok _ =>
      reserves deleted (map i_op ins) deleted'
      /\ Forall (fun i => exists u, get (i_op i) l = Some u /\ u_lock u <= c_height c) ins
  end.
Proof.
  induction ins as [|i r IH]; intros deleted a deleted' res H.
  - injection H as <- <-. split; [apply reserves_nil, incl_refl|constructor].
  - apply w_in_loop_cons in H as [(-> & e & ->)|(u & G & Hl & _ & _ & Hm & H)]; [split; [apply incl_refl|reflexivity]|].
    apply IH in H. destruct res as [a'|].
    + destruct H as (Hr & Hall). split; [exact (reserves_app _ _ _ _ _ (reserves_one _ _ Hm) Hr)|constructor; eauto].
    + destruct H as (Hincl & ->). split; [exact (fun k Hk => Hincl k (or_intror Hk))|reflexivity].
Qed.

(* what the pool (ValidateQiTxInputs) has established for every transaction handed to the worker *)
Definition pool_ok (c : ctx) (l : ledger) (t : tx) : Prop :=
  Forall (fun i => validate_in_step c l i = true) (t_ins t).
(* tx.Hash() is new to the database *)
Definition fresh (l : ledger) (t : tx) : Prop := forall i, get (outkey (t_hash t) i) l = None.
Definition sig_fine (t : tx) : Prop :=
  t_checksig t = false \/ (t_sigok t = true /\ Forall (fun i => i_pkparse i = true) (t_ins t)).

Lemma validate_in_step_spec c l i : validate_in_step c l i = true ->
  exists u, get (i_op i) l = Some u /\ u_owner u = i_pkaddr i /\ is_qi (i_pkaddr i) = true
            /\ u_lock u <= c_height c /\ u_den u <= max_denomination.
Proof.
  unfold validate_in_step. destruct (get (i_op i) l) as [u|]; [|discriminate]. intros H.
  apply andb_prop in H as (H & H4). apply andb_prop in H as (H & H3). apply andb_prop in H as (H1 & H2).
  exists u. apply keqb_eq in H3. apply negb_true_iff, N.ltb_ge in H1, H4. auto.
Qed.

Lemma validate_inputs_pool_ok c l t : validate_inputs c l t = true -> pool_ok c l t.
Proof.
  unfold validate_inputs, pool_ok. destruct (sanity t); [discriminate|]. intros H.
  apply andb_prop in H as (H & _). exact (forallb_Forall _ _ _ (fun i E => E) H).
Qed.

(* the processor's ledger holds every record of the database the worker has not reserved *)
Definition store_inv (l : ledger) (deleted : list key) (s : ledger) : Prop :=
  sorted s /\ forall k u, get k l = Some u -> ~ In k deleted -> get k s = Some u.

Lemma store_inv_incl l d d' s : store_inv l d s -> incl d d' -> store_inv l d' s.
Proof. intros (S & H) Hi. split; [exact S|]. intros k u G Hn. apply H; [exact G|]. intros Hd. exact (Hn (Hi _ Hd)). Qed.

Lemma store_inv_del l d s k : store_inv l d s -> store_inv l (k :: d) (del k s).
Proof.
  intros (S & H). split; [apply del_sorted; exact S|]. intros k' u G Hn.
  assert (k' <> k) as Hne by (intros ->; apply Hn; left; reflexivity).
  rewrite get_del_other by assumption. apply H; [exact G|]. intros Hd. apply Hn. right; exact Hd.
Qed.

Lemma store_inv_put l d s k u : store_inv l d s -> get k l = None -> store_inv l d (put k u s).
Proof.
  intros (S & H) Hnew. split; [apply put_sorted; exact S|]. intros k' u' G Hn.
  rewrite get_put_other; [exact (H _ _ G Hn)|]. intros ->. rewrite Hnew in G. discriminate.
Qed.

Lemma store_inv_put_all l d s cs : store_inv l d s -> (forall kv, In kv cs -> get (fst kv) l = None) ->
  store_inv l d (put_all ledger_store s cs).
Proof. intros H Hnew. exact (fold_left_inv (store_inv l d) _ cs (fun a kv Hin Ha => store_inv_put _ _ _ _ _ Ha (Hnew kv Hin)) s H). Qed.

Lemma put_all_get_other cs (s : ledger) k : (forall kv, In kv cs -> fst kv <> k) ->
  get k (put_all ledger_store s cs) = get k s.
Proof.
  intros H. apply (fold_left_inv (fun s' => get k s' = get k s)); [|reflexivity].
  intros a kv Hin Ha. cbn [st_put ledger_store]. rewrite get_put_other; [exact Ha|]. intros E. exact (H kv Hin (eq_sym E)).
Qed.

Definition wi_of (ia : iacc (S:=ledger)) : wiacc := mkWI (ia_addrs ia) (ia_total ia) (ia_dens ia) (ia_spent ia).

Lemma w_in_loop_proc c l gpw cs gp ins : forall deleted deleted' wa' (ia : iacc (S:=ledger)),
  w_in_loop c l gpw deleted (wi_of ia) ins = (deleted', Ok wa') ->
  store_inv l deleted (ia_store ia) ->
  Forall (fun i => validate_in_step c l i = true) ins ->
  (cs = true -> Forall (fun i => i_pkparse i = true) ins) ->
  exists ia', in_loop ledger_store c cs gp ia ins = Ok ia' /\ store_inv l deleted' (ia_store ia') /\ wi_of ia' = wa'.
Proof.
  induction ins as [|i r IH]; intros deleted deleted' wa' ia H Hinv Hpool Hparse.
  - injection H as <- <-. exists ia. auto.
  - apply w_in_loop_cons in H as [(_ & e & [=])|(u & G & _ & _ & _ & Hm & H)].
    inversion Hpool as [|? ? Hp Hpool']; subst.
    apply validate_in_step_spec in Hp as (u' & G' & Ho & Hq & Hl & Hd). rewrite G in G'. injection G' as <-.
    cbn [in_loop]. rewrite (in_step_ok ledger_store c cs gp ia i u).
    + apply (IH _ _ _ (in_acc ledger_store ia i u) H); clear IH H.
      * exact (store_inv_del _ _ _ _ Hinv).
      * exact Hpool'.
      * intros Hc. specialize (Hparse Hc). inversion Hparse; assumption.
    + cbn [st_get ledger_store]. apply (proj2 Hinv); assumption.
    + unfold in_ok. cbn [fst snd]. repeat split; auto. intros Hc. specialize (Hparse Hc). inversion Hparse; assumption.
Qed.

Inductive worker_ok (c : ctx) (l : ledger) (first : bool) (e : wenv) (t : tx) : wenv -> txres -> Prop :=
| worker_ok_intro deleted wa p :
    sanity t = None -> t_intrinsic t <= w_gp e ->
    w_in_loop c l (w_gp e - t_intrinsic t) (w_deleted e) (mkWI [] 0 [] []) (t_ins t) = (deleted, Ok wa) ->
    post_inputs true c (w_rlim e) (w_plim e) t (w_gp e - t_intrinsic t) (w_used e + t_intrinsic t)
                (wi_addrs wa) (wi_total wa) = Ok p ->
    p_used p <= c_gaslimit c ->
    (first = false -> check_denominations (wi_dens wa) (p_outdens p) = true) ->
    worker_ok c l first e t
              (mkW deleted (p_gp p) (p_used p) (w_rlim e - p_rgas p) (w_plim e - p_pgas p))
              (mkRes (p_fee p) (p_etxs p) (p_used p - p_used p) (wi_spent wa) (p_creates p)).

Lemma worker_qi_cases c l first e t :
  match worker_qi c l first e t with
  | (e', Err _ _) =>
      incl (w_deleted e) (w_deleted e') /\ w_gp e' <= w_gp e
      /\ w_used e' = w_used e /\ w_rlim e' = w_rlim e /\ w_plim e' = w_plim e
  | (e', Ok wr) => worker_ok c l first e t e' wr
  end.
Proof.
  unfold worker_qi. destruct (sanity t) eqn:Hsan; [auto using incl_refl, N.le_refl|].
  destruct (w_gp e <? t_intrinsic t) eqn:Eg; [auto using incl_refl, N.le_refl|]. apply N.ltb_ge in Eg. cbv zeta.
  destruct (w_in_loop c l _ _ _ _) as [deleted rr] eqn:Ei. pose proof (w_in_loop_spec _ _ _ _ _ _ _ _ Ei) as Hr.
  assert (incl (w_deleted e) deleted) as Hincl by (destruct rr; [exact (rs_grows (proj1 Hr))|exact (proj1 Hr)]).
  (* every later rejection leaves through [fail], with no more gas than the loop was given *)
  assert (forall g, g <= w_gp e - t_intrinsic t ->
            incl (w_deleted e) deleted /\ g <= w_gp e /\ w_used e = w_used e /\ w_rlim e = w_rlim e /\ w_plim e = w_plim e)
    as Hfail by (intros g Hg; repeat split; [exact Hincl|lia]).
  destruct rr as [wa|e1 g1]; [|apply Hfail; rewrite (proj2 Hr); apply N.le_refl].
  pose proof (post_inputs_cases true true c (w_rlim e) (w_plim e) t (w_gp e - t_intrinsic t) _ (w_used e + t_intrinsic t)
                (wi_addrs wa) (wi_total wa) (N.le_refl _)) as Cp.
  destruct (post_inputs true c _ _ t _ _ _ _) as [p|e2 g2] eqn:Ep; [|exact (Hfail _ Cp)].
  pose proof (pf_gp (proj1 Cp)) as Hg.
  destruct (c_gaslimit c <? p_used p) eqn:El; [exact (Hfail _ Hg)|]. apply N.ltb_ge in El.
  destruct (negb first && negb (check_denominations (wi_dens wa) (p_outdens p))) eqn:Ed; [exact (Hfail _ Hg)|].
  apply (worker_ok_intro _ _ _ _ _ deleted wa p Hsan Eg Ei Ep El).
  intros ->. destruct (check_denominations _ _); [reflexivity|discriminate].
Qed.

Set Implicit Arguments.
Record winv (l : ledger) (e : wenv) (b : bst (S:=ledger)) (first_w : bool) : Prop := {
  wv_gp : w_gp e <= b_gp b;
  wv_used : w_used e = b_used b;
  wv_rlim : w_rlim e = b_rlim b;
  wv_plim : w_plim e = b_plim b;
  wv_first : first_w = true -> b_first b = true;
  wv_store : store_inv l (w_deleted e) (b_store b)
}.
Unset Implicit Arguments.

Lemma init_winv c (l : ledger) : sorted l -> winv l (init_wenv c) (init_bst c l) true.
Proof. intros S. split; try reflexivity. split; [exact S|auto]. Qed.

Definition res_agree (wr r : txres) : Prop :=
  r_fee wr = r_fee r /\ r_etxs wr = r_etxs r /\ r_spent wr = r_spent r /\ r_created wr = r_created r.

Lemma worker_qi_accept c l first e t e' wr b :
  worker_qi c l first e t = (e', Ok wr) -> winv l e b first ->
  pool_ok c l t -> fresh l t -> sig_fine t ->
  exists b' r, process_qi ledger_store c b t = Ok (b', r) /\ res_agree wr r /\ winv l e' b' false.
Proof.
  intros H [Hgp Hused Hrl Hpl Hfirst Hstore] Hpool Hfresh Hsig.
  pose proof (worker_qi_cases c l first e t) as C. rewrite H in C. destruct C as [deleted wa p Hsan Hg Hin Hpost Hlim Hden].
  assert (t_checksig t = true -> Forall (fun i => i_pkparse i = true) (t_ins t)) as Hparse
      by (intros Hc; destruct Hsig as [Hs|(_ & Hs)]; [congruence|exact Hs]).
  destruct (w_in_loop_proc c l _ (t_checksig t) (b_gp b - t_intrinsic t) _ _ _ _
              (mkIA (b_store b) [] 0 [] []) Hin Hstore Hpool Hparse)
    as (ia & Hin' & Hstore' & <-).
  cbn [wi_of wi_addrs wi_total wi_dens wi_spent] in *.
  assert (w_gp e - t_intrinsic t <= b_gp b - t_intrinsic t) as Hle by lia.
  pose proof (post_inputs_cases true false c (w_rlim e) (w_plim e) t _ _ (w_used e + t_intrinsic t) (ia_addrs ia) (ia_total ia) Hle)
    as Cp.
  rewrite Hpost in Cp. destruct Cp as ([_ Hcb _ Hgl Hgu _] & g' & Hpost' & Hg').
  rewrite Hrl, Hpl, Hused in Hpost'.
  eexists; eexists. split; [|split].
  - (* the processor tests the block gas limit on the intrinsic part only *)
    apply process_qi_ok, (qi_accepted_intro _ _ _ _ ia (set_pgp p g') Hsan); [lia|lia|exact Hin'|exact Hpost'| |].
    + intros Hb. apply Hden. destruct first; [rewrite Hfirst in Hb by reflexivity; discriminate|reflexivity].
    + intros Hc. destruct Hsig as [Hs|(Hs & _)]; [congruence|exact Hs].
  - repeat split.
  - split; cbn [set_pgp p_gp p_used p_rgas p_pgas p_creates w_gp w_used w_rlim w_plim w_deleted b_gp b_used b_rlim b_plim b_first b_store];
      rewrite ?Hrl, ?Hpl; auto; try discriminate.
    apply store_inv_put_all; [exact Hstore'|]. intros kv Hinkv.
    rewrite Forall_forall in Hcb. destruct (Hcb kv Hinkv) as (i & _ & -> & _). apply Hfresh.
Qed.

Lemma worker_qi_reject c l first e t e' err g b first' :
  worker_qi c l first e t = (e', Err err g) -> winv l e b first ->
  (first' = true -> first = true) -> winv l e' b first'.
Proof.
  intros H [Hgp Hused Hrl Hpl Hfirst Hstore] Hf.
  pose proof (worker_qi_cases c l first e t) as C. rewrite H in C. destruct C as (Hincl & Hg & Hu & Hr & Hp).
  split; rewrite ?Hu, ?Hr, ?Hp; [lia|assumption|assumption|assumption|auto|exact (store_inv_incl _ _ _ _ Hstore Hincl)].
Qed.

Fixpoint somes {A} (l : list (option A)) : list A :=
  match l with
  | [] => []
  | Some x :: r => x :: somes r
  | None :: r => somes r
  end.

Lemma worker_txs_cons c l first e t r :
  fst (worker_txs c l first e (t :: r)) =
  match worker_qi c l first e t with
  | (e', Ok res) => Some res :: fst (worker_txs c l false e' r)
  | (e', Err err _) => None :: fst (worker_txs c l (if w_retry err then first else false) e' r)
  end.
Proof.
  cbn [worker_txs]. destruct (worker_qi c l first e t) as [e' [res|err g]];
    [destruct (worker_txs c l false e' r)|destruct (worker_txs c l _ e' r)]; reflexivity.
Qed.

Lemma worker_txs_proc c l txs : forall first e (b : bst (S:=ledger)),
  winv l e b first ->
  Forall (fun t => pool_ok c l t /\ fresh l t /\ sig_fine t) txs ->
  exists rs b', run_txs ledger_store c b (accepted_txs txs (fst (worker_txs c l first e txs))) = (rs, Some b')
    /\ Forall2 res_agree (somes (fst (worker_txs c l first e txs))) rs.
Proof.
  induction txs as [|t r IH]; intros first e b Hinv Hall.
  - exists [], b. split; [reflexivity|constructor].
  - inversion Hall as [|? ? (Hp & Hf & Hs) Hall']; subst. rewrite worker_txs_cons.
    destruct (worker_qi c l first e t) as [e' [wr|err g]] eqn:E; cbn [accepted_txs somes run_txs].
    + destruct (worker_qi_accept _ _ _ _ _ _ _ _ E Hinv Hp Hf Hs) as (b1 & r1 & -> & Hagree & Hinv1).
      destruct (IH false e' b1 Hinv1 Hall') as (rs & b' & -> & Hres).
      exists (r1 :: rs), b'. split; [reflexivity|constructor; assumption].
    + apply (IH _ e' b); [|exact Hall'].
      eapply worker_qi_reject; [exact E|exact Hinv|]. destruct (w_retry err); [auto|discriminate].
Qed.
