(* C17 — All storage backends are interchangeable.
   Property theorems, each followed by [Print Assumptions].
   Models: Model/C17.v, Model/C17_Table.v  Lemmas: Proofs/C17.v, Proofs/C17_Table.v *)
From Coq Require Import List NArith Bool.
From GQ Require Import Lib.Key Lib.SMap Model.C17 Proofs.C17 Model.C17_Table Proofs.C17_Table Model.C17_All.
Import ListNotations.
Local Open Scope N_scope.

(* Every reachable state (any history from the empty store) keeps the store and both
   pending views strictly sorted by key: the precondition of everything below. *)
Theorem kv_reachable_inv : forall h, Inv (run_state init h).
Proof. intros h. apply run_state_inv. repeat split. Qed.
Print Assumptions kv_reachable_inv.

(* Reads see the latest committed write: Put/Delete/Get/Has refine a total map. *)
Theorem kv_put_refines_map : forall s k v, Inv s ->
  let '(s', r) := step s (DbPut k v) in
  r = ONone /\ (forall k0, abs s' k0 = fupd (abs s) k (Some v) k0) /\ s_b0 s' = s_b0 s /\ s_b1 s' = s_b1 s.
Proof. intros s k v H. cbn. repeat split. exact (abs_step s (DbPut k v) (Inv_store s H)). Qed.
Print Assumptions kv_put_refines_map.

Theorem kv_del_refines_map : forall s k, Inv s ->
  let '(s', r) := step s (DbDel k) in
  r = ONone /\ (forall k0, abs s' k0 = fupd (abs s) k None k0) /\ s_b0 s' = s_b0 s /\ s_b1 s' = s_b1 s.
Proof. intros s k H. cbn. repeat split. exact (abs_step s (DbDel k) (Inv_store s H)). Qed.
Print Assumptions kv_del_refines_map.

Theorem kv_get_refines_map : forall s k, step s (DbGet k) = (s, OVal (abs s k)).
Proof. reflexivity. Qed.
Print Assumptions kv_get_refines_map.

Theorem kv_has_refines_map : forall s k,
  step s (DbHas k) = (s, OBool (match abs s k with Some _ => true | None => false end)).
Proof. reflexivity. Qed.
Print Assumptions kv_has_refines_map.

(* Iteration: ascending byte order over exactly the live keys with the prefix, from prefix++start. *)
Theorem iterate_sorted_exact : forall s p st, Inv s ->
  exists l, step s (DbIter p st) = (s, OList l) /\ sorted l /\
    forall k v, In (k, v) l <-> (abs s k = Some v /\ in_range p st k = true).
Proof.
  intros s p st Sd. apply Inv_store in Sd. exists (iterate p st (s_db s)). split; [reflexivity|]. split.
  - apply iterate_sorted, Sd.
  - intros k v. apply iterate_exact, Sd.
Qed.
Print Assumptions iterate_sorted_exact.

(* A batch applies all of its operations in issue order (Write, Replay into the database) or none
   (every other batch operation). *)
Theorem batch_atomic_in_order : forall s b, Inv s ->
  forall k, abs (fst (step s (BWrite b))) k = fold_left fapply (b_ops (getb s b)) (abs s) k.
Proof. intros s b H. exact (abs_step s (BWrite b) (Inv_store s H)). Qed.
Print Assumptions batch_atomic_in_order.

Theorem batch_isolated_until_write : forall s o, touches_db o = false -> s_db (fst (step s o)) = s_db s.
Proof.
  intros s o H. rewrite step_db.
  (* an operation that does not touch the store sends it no writes *)
  destruct o; (discriminate || reflexivity).
Qed.
Print Assumptions batch_isolated_until_write.

Theorem reads_are_pure : forall s o, is_read o = true -> fst (step s o) = s.
Proof. intros s o. destruct o; cbn; try discriminate; reflexivity. Qed.
Print Assumptions reads_are_pure.

(* A batch with pending tracking enabled reports its own uncommitted puts and deletes:
   after SetPending(true) and any sequence ws of puts/deletes, GetPending k is the last
   operation of ws on k. *)
Theorem pending_reads_own_writes : forall x ws k,
  let x1 := mkBatch (b_ops x) (b_size x) true [] in
  batch_get_pending (batch_run x1 ws) k =
  match last_on k ws None with
  | Some None => OPend true None
  | Some (Some v) => OPend false (Some v)
  | None => OPend false None
  end.
Proof.
  intros x ws k. cbn. unfold batch_get_pending. rewrite batch_run_pend by reflexivity. reflexivity.
Qed.
Print Assumptions pending_reads_own_writes.

(* A put/delete on a tracking batch is immediately visible in its pending view. *)
Theorem pending_sees_put : forall s b k v, b_tracking (getb s b) = true ->
  snd (step (fst (step s (BPut b k v))) (BGetPending b k)) = OPend false (Some v).
Proof.
  intros s b k v T. cbn -[batch_put]. rewrite getb_setb_same.
  exact (pending_after_apply (getb s b) (WPut k v) T).
Qed.
Print Assumptions pending_sees_put.

Theorem pending_sees_delete : forall s b k, b_tracking (getb s b) = true ->
  snd (step (fst (step s (BDel b k))) (BGetPending b k)) = OPend true None.
Proof.
  intros s b k T. cbn -[batch_del]. rewrite getb_setb_same.
  exact (pending_after_apply (getb s b) (WDel k) T).
Qed.
Print Assumptions pending_sees_delete.

(* The step function drives a batch only through batch_run / SetPending / Write / Reset. *)
Theorem batch_driven_only_by_its_ops : forall s o b,
  let x := getb s b in let x' := getb (fst (step s o)) b in
  x' = x \/ (exists ws, x' = batch_run x ws)
  \/ (exists f, x' = mkBatch (b_ops x) (b_size x) f []) \/ x' = empty_batch.
Proof. intros s o b. cbv zeta. rewrite step_getb. destruct (action s o b); cbn [act]; eauto. Qed.
Print Assumptions batch_driven_only_by_its_ops.

(* Reset and replay reproduce the same effects. *)
Theorem replay_equals_write : forall s b,
  s_db (fst (step s (BReplayDb b))) = s_db (fst (step s (BWrite b))).
Proof. reflexivity. Qed.
Print Assumptions replay_equals_write.

Theorem reset_forgets_everything : forall s b,
  let s1 := fst (step s (BReset b)) in s_db (fst (step s1 (BWrite b))) = s_db s.
Proof. intros s b. cbn. rewrite getb_setb_same. cbn. apply db_setb. Qed.
Print Assumptions reset_forgets_everything.

Theorem replay_into_batch_appends : forall s b,
  let s1 := fst (step s (BReplayB b)) in
  b_ops (getb s1 (negb b)) = b_ops (getb s (negb b)) ++ b_ops (getb s b)
  /\ getb s1 b = getb s b /\ s_db s1 = s_db s.
Proof.
  intros s b. cbn. rewrite getb_setb_same. split; [apply batch_run_ops|]. split.
  - destruct b; reflexivity.
  - apply db_setb.
Qed.
Print Assumptions replay_into_batch_appends.

(* An open iterator is a snapshot: it yields the store as it was at NewIterator, whatever is written
   meanwhile, and those writes take effect normally. Compaction is invisible. *)
Theorem iterator_snapshot : forall s p st ws,
  snd (step s (DbIterDuring p st ws)) = snd (step s (DbIter p st))
  /\ s_db (fst (step s (DbIterDuring p st ws))) = apply_ops ws (s_db s)
  /\ s_b0 (fst (step s (DbIterDuring p st ws))) = s_b0 s /\ s_b1 (fst (step s (DbIterDuring p st ws))) = s_b1 s.
Proof. intros s p st ws. cbn. repeat split. Qed.
Print Assumptions iterator_snapshot.

Theorem compaction_invisible : forall s, step s DbCompact = (s, ONone).
Proof. reflexivity. Qed.
Print Assumptions compaction_invisible.

(* Consequently: two backends whose observations match the model on a history match each other. *)
Theorem chain_state_backend_independent : forall h o1 o2,
  outs_eqb (run init h) o1 = true -> outs_eqb (run init h) o2 = true -> outs_eqb o1 o2 = true.
Proof. intros h o1 o2 H1 H2. apply outs_eqb_true in H1 as <-. exact H2. Qed.
Print Assumptions chain_state_backend_independent.

(* non-vacuity: a concrete history with a tracked delete, a shadowing put and an iteration *)
Example kv_nonvacuous :
  run init [DbPut [1;2] [9]; DbPut [1;3] [8]; BSetPending false true; BDel false [1;2];
            BPut false [1;4] [7]; BGetPending false [1;2]; BGetPending false [1;4]; BGetPending false [5];
            DbGet [1;2]; BWrite false; DbGet [1;2]; DbIter [1] [3]]
  = [ONone; ONone; ONone; ONone; ONone; OPend true None; OPend false (Some [7]); OPend false None;
     OVal (Some [9]); ONone; OVal None; OList [([1;3],[8]); ([1;4],[7])]].
Proof. vm_compute. reflexivity. Qed.

(* ------------------------------------------------------------------------------------------
   The rawdb table wrapper (core/rawdb/table.go) as a layer over the store model.
   tstep tp = what table / tableBatch / tableReplayer / tableIterator with prefix tp do to the INNER
   database and batches; tview tp m = the entries of m under the prefix, keys stripped. *)

(* For every history (without the sizing heuristic ValueSize) and every pre-existing content of the
   inner database, the table answers exactly like an independent store holding the view. *)
Theorem table_refines_store : forall tp db0 h, sorted db0 -> no_size h = true ->
  trun tp (fresh db0) h = run (fresh (tview tp db0)) h.
Proof. intros tp db0 h S. exact (ref_out (fresh_refines tp db0 h S)). Qed.
Print Assumptions table_refines_store.

(* Over a database that holds only foreign keys the table is a fresh store. *)
Theorem table_over_foreign_keys_is_fresh : forall tp db0 h, sorted db0 ->
  (forall k v, In (k, v) db0 -> has_prefix tp k = false) -> no_size h = true ->
  trun tp (fresh db0) h = run init h.
Proof.
  intros tp db0 h S F Hn. rewrite table_refines_store by assumption.
  rewrite (tview_all_foreign tp db0 F). reflexivity.
Qed.
Print Assumptions table_over_foreign_keys_is_fresh.

(* Frame: no history through the table (ValueSize included) reads or changes a key outside the prefix. *)
Theorem table_never_touches_foreign_keys : forall tp db0 h k0, sorted db0 -> has_prefix tp k0 = false ->
  get k0 (s_db (trun_state tp (fresh db0) h)) = get k0 db0.
Proof. intros tp db0 h k0 S. exact (ref_frame (fresh_refines tp db0 h S) k0). Qed.
Print Assumptions table_never_touches_foreign_keys.

(* The inner database always holds, under the prefix, exactly the content of the store the table pretends to be. *)
Theorem table_inner_content : forall tp db0 h, sorted db0 ->
  s_db (run_state (fresh (tview tp db0)) h) = tview tp (s_db (trun_state tp (fresh db0) h))
  /\ sorted (s_db (trun_state tp (fresh db0) h)).
Proof.
  intros tp db0 h S. pose proof (fresh_refines tp db0 h S) as H.
  split; [apply R_store, (ref_R H)|apply Inv_store, (ref_Inv H)].
Qed.
Print Assumptions table_inner_content.

(* One operation: same answer, relation kept, foreign keys untouched (the simulation step). *)
Theorem table_step_simulation : forall tp i t o, Inv i -> R tp i t ->
  (is_size o = false -> snd (tstep tp i o) = snd (step t o)) /\
  R tp (fst (tstep tp i o)) (fst (step t o)) /\
  (forall k0, has_prefix tp k0 = false -> get k0 (s_db (fst (tstep tp i o))) = get k0 (s_db i)).
Proof.
  intros tp i t o HI HR. split; [apply tstep_out; assumption|]. split; [apply tstep_R; assumption|].
  intros k0. apply (tstep_frame tp i t); assumption.
Qed.
Print Assumptions table_step_simulation.

(* Reads through the table: exactly the prefixed cell; iteration: exactly the view's iteration. *)
Theorem table_get_reads_prefixed_cell : forall tp k (m : smap val), sorted m ->
  get k (tview tp m) = get (tp ++ k) m.
Proof. intros tp k m. exact (get_tview tp k m). Qed.
Print Assumptions table_get_reads_prefixed_cell.

Theorem table_iterator_exact : forall tp p st (m : smap val),
  strip_kvs tp (iterate (tp ++ p) st m) = iterate p st (tview tp m).
Proof. intros tp p st m. exact (tview_iterate tp p st m). Qed.
Print Assumptions table_iterator_exact.

(* A table inside a table is a table with the concatenated prefix. *)
Theorem table_nested : forall p q (m : smap val), tview q (tview p m) = tview (p ++ q) m.
Proof. intros p q m. exact (tview_nested p q m). Qed.
Print Assumptions table_nested.

(* ValueSize is not transparent (a delete is sized with the prefixed key): it is outside the contract,
   which is why the refinement excludes it and the harness never compares it. *)
Theorem table_valuesize_not_transparent_refuted :
  trun [116; 98; 108] (fresh []) [BDel false [1]; BSize false] <> run init [BDel false [1]; BSize false].
Proof. vm_compute. intros H. discriminate. Qed.
Print Assumptions table_valuesize_not_transparent_refuted.

(* non-vacuity: a table "tbl" over a store holding foreign keys around the prefix *)
Example table_nonvacuous :
  let tp := [116; 98; 108] in
  let db0 := preload [([116], [1]); ([116; 98; 107], [2]); ([116; 98; 109], [3]); ([117], [4])] in
  sortedb db0 = true /\
  trun tp (fresh db0) [DbPut [1] [9]; BSetPending false true; BPut false [2] [8]; BGetPending false [2];
                       BWrite false; DbIter [] []; BReplayDb false; DbGet [2]]
  = [ONone; ONone; ONone; OPend false (Some [8]); ONone; OList [([1], [9]); ([2], [8])]; ONone; OVal (Some [8])]
  /\ map fst (s_db (trun_state tp (fresh db0) [DbPut [1] [9]; BPut false [2] [8]; BWrite false]))
  = [[116]; [116; 98; 107]; [116; 98; 108; 1]; [116; 98; 108; 2]; [116; 98; 109]; [117]].
Proof. vm_compute. repeat split; reflexivity. Qed.
