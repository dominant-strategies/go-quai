(* C05 -- the claim of a locked coinbase (core/vm/contracts.go:ClaimCoinbaseLockup under the lockup branch
   of core/vm/evm.go:Call): all-or-nothing at the origin.  Model: Model/C05.v claim_lockup / call_claim. *)
From Coq Require Import List NArith Bool String.
From GQ Require Import Generated.C05Params Model.C05 Proofs.C05.
Import ListNotations.
Local Open Scope N_scope.

Lemma lkey_eqb_eq : forall a b, lkey_eqb a b = true <-> a = b.
Proof.
  intros [[[o m] l] e] [[[o' m'] l'] e']. cbn. rewrite !andb_true_iff, !N.eqb_eq. split.
  - intros [[[-> ->] ->] ->]. reflexivity.
  - intros H. inversion H. auto.
Qed.
Lemma lkey_eqb_sym : forall a b, lkey_eqb a b = lkey_eqb b a.
Proof.
  intros [[[o m] l] e] [[[o' m'] l'] e']. cbn.
  rewrite (N.eqb_sym o), (N.eqb_sym m), (N.eqb_sym l), (N.eqb_sym e). reflexivity.
Qed.

Lemma lget_ldel_same : forall k l, lget k (ldel k l) = None.
Proof.
  intros k l. induction l as [|[k' r] l IH]; [reflexivity|]. cbn [ldel].
  destruct (lkey_eqb k' k) eqn:E; [exact IH|]. cbn [lget]. rewrite E. exact IH.
Qed.
Lemma lget_ldel_other : forall k k' l, k' <> k -> lget k' (ldel k l) = lget k' l.
Proof.
  intros k k' l Hne. induction l as [|[k0 r] l IH]; [reflexivity|]. cbn [ldel lget].
  destruct (lkey_eqb k0 k) eqn:E.
  - apply lkey_eqb_eq in E. subst k0. destruct (lkey_eqb k k') eqn:E'.
    + apply lkey_eqb_eq in E'. congruence.
    + exact IH.
  - cbn [lget]. destruct (lkey_eqb k0 k'); [reflexivity|exact IH].
Qed.

(* the property for one claim; [res] is a result of [call_claim] *)
Definition claim_aon (owner gas : N) (led : list (lkey * lrec)) (etxs : list etx) (miner to lb epoch gl : N)
  (res : bool * N * list (lkey * lrec) * list etx * list (lkey * lrec)) : Prop :=
  match res with
  | (ok, g, led', etxs', undo) =>
      (ok = true /\ g = gas - gl /\ gl <= gas /\
       exists r, lget (owner, miner, lb, epoch) led = Some r /\ led' = ldel (owner, miner, lb, epoch) led /\
                 undo = [((owner, miner, lb, epoch), r)] /\
       exists e, etxs' = etxs ++ [e] /\ e_value e = l_bal r /\ e_index e = lenN etxs /\ e_gas e = gl /\
                 e_to e = to /\ e_sender e = owner /\ e_type e = EtxCoinbaseLockupType)
      \/ (ok = false /\ led' = led /\ etxs' = etxs /\ undo = [])
  end.

(* the guards of ClaimCoinbaseLockup up to the deletion of the record *)
Definition claim_due (c : ctx) (height owner gas : N) (led : list (lkey * lrec)) (miner to lb epoch gl : N) : bool :=
  (gl <=? gas) && internal_quai (x_pfx c) owner && in_scope (x_pfx c) miner &&
  (epoch <? (height / CoinbaseEpochBlocks + 1) mod W32) && Bool.eqb (is_qi miner) (is_qi to) &&
  match lget (owner, miner, lb, epoch) led with
  | Some r => negb (l_unlock r =? 0) && (l_unlock r <=? height mod W32) && negb (l_elems r =? 0)
  | None => false
  end.

Lemma claim_due_lget : forall c height owner gas led miner to lb epoch gl,
  claim_due c height owner gas led miner to lb epoch gl = true ->
  lget (owner, miner, lb, epoch) led = Some (lread (owner, miner, lb, epoch) led).
Proof.
  intros c height owner gas led miner to lb epoch gl D. unfold claim_due, lread in *.
  destruct (lget (owner, miner, lb, epoch) led); [reflexivity|]. rewrite andb_false_r in D. discriminate D.
Qed.

(* [lread]: what ReadCoinbaseLockup answered; by [claim_due_lget] the record under the key *)
Lemma claim_lockup_spec : forall c height owner gas led idx miner to lb epoch gl,
  claim_lockup c height owner gas led idx miner to lb epoch gl =
  if claim_due c height owner gas led miner to lb epoch gl then
    if MaxUint16 <? idx then mkLRes false (gas - gl) (ldel (owner, miner, lb, epoch) led) None None
    else mkLRes true (gas - gl) (ldel (owner, miner, lb, epoch) led)
           (Some (mkEtx to owner (l_bal (lread (owner, miner, lb, epoch) led)) idx EtxCoinbaseLockupType gl))
           (Some ((owner, miner, lb, epoch), lread (owner, miner, lb, epoch) led))
  else mkLRes false (if gas <? gl then gas else gas - gl) led None None.
Proof.
  intros. unfold claim_due, claim_lockup, lread.
  rewrite (N.leb_antisym gas gl), (N.ltb_antisym _ epoch).
  destruct (gas <? gl); [reflexivity|].
  destruct (internal_quai (x_pfx c) owner); [|reflexivity].
  destruct (in_scope (x_pfx c) miner); [|reflexivity].
  destruct (_ <=? epoch); [reflexivity|].
  destruct (Bool.eqb (is_qi miner) (is_qi to)); [|reflexivity].
  destruct (lget (owner, miner, lb, epoch) led) as [r|]; [|reflexivity].
  rewrite (N.leb_antisym (height mod W32)).
  destruct (l_unlock r =? 0); [reflexivity|].
  destruct (height mod W32 <? l_unlock r); [reflexivity|].
  destruct (l_elems r =? 0); reflexivity.
Qed.

(* with a full cache the record is deleted in evm.Batch BEFORE the index check, and Call's revert (in every fork regime)
   does not restore the batch *)
Lemma call_claim_spec : forall c height owner gas led etxs miner to lb epoch gl,
  call_claim c height owner gas led etxs miner to lb epoch gl =
  if claim_due c height owner gas led miner to lb epoch gl then
    if MaxUint16 <? lenN etxs then (false, gas - gl, ldel (owner, miner, lb, epoch) led, etxs, [])
    else (true, gas - gl, ldel (owner, miner, lb, epoch) led,
          etxs ++ [mkEtx to owner (l_bal (lread (owner, miner, lb, epoch) led)) (lenN etxs) EtxCoinbaseLockupType gl],
          [((owner, miner, lb, epoch), lread (owner, miner, lb, epoch) led)])
  else (false, (if gas <? gl then gas else gas - gl), led, etxs, []).
Proof.
  intros. unfold call_claim. rewrite claim_lockup_spec.
  destruct (claim_due c height owner gas led miner to lb epoch gl); [destruct (MaxUint16 <? lenN etxs); [|reflexivity]|];
    cbn [lr_ok lr_gas lr_led lr_emit lr_undo opt_list]; rewrite app_nil_r;
    destruct (ShaEquivalentDifficultyForkBlock <=? x_ptn c); reflexivity.
Qed.

Lemma call_claim_overflow : forall c height owner gas led etxs miner to lb epoch gl,
  claim_due c height owner gas led miner to lb epoch gl = true -> MaxUint16 < lenN etxs ->
  call_claim c height owner gas led etxs miner to lb epoch gl = (false, gas - gl, ldel (owner, miner, lb, epoch) led, etxs, []).
Proof. intros c height owner gas led etxs miner to lb epoch gl D I. apply N.ltb_lt in I. rewrite call_claim_spec, D, I. reflexivity. Qed.

Definition wit_miner : N := 0x0003b2b2b2b2b2b2b2b2b2b2b2b2b2b2b2b2b2b2.
Definition wit_claim_to : N := 0x0104565656565656565656565656565656565656.
Definition wit_ledger : list (lkey * lrec) := [((wit_self, wit_miner, 1, 2), mkLRec 7000 100000 3)].

Lemma wit_miner_local : forall ptn elig codes, in_scope (x_pfx (wit_ctx ptn elig codes)) wit_miner = true.
Proof. intros. vm_compute. reflexivity. Qed.
Lemma wit_miner_ledger : Bool.eqb (is_qi wit_miner) (is_qi wit_claim_to) = true.
Proof. vm_compute. reflexivity. Qed.

(* the witnesses rewrite with this before they evaluate, for the reason given at [wit_self_quai] (Proofs/C05.v) *)
Lemma wit_claim_due : forall ptn height gas led lb epoch gl,
  claim_due (wit_ctx ptn 0 []) height wit_self gas led wit_miner wit_claim_to lb epoch gl =
  (gl <=? gas) && (epoch <? (height / CoinbaseEpochBlocks + 1) mod W32) &&
  match lget (wit_self, wit_miner, lb, epoch) led with
  | Some r => negb (l_unlock r =? 0) && (l_unlock r <=? height mod W32) && negb (l_elems r =? 0)
  | None => false
  end.
Proof. intros. unfold claim_due. rewrite wit_self_quai, wit_miner_local, wit_miner_ledger, !andb_true_r. reflexivity. Qed.

Lemma claim_overflow_witness :
  call_claim (wit_ctx (SelfDestructRefundForkBlock + 5) 0 []) 200000 wit_self 100000 wit_ledger (prefilled 65536) wit_miner wit_claim_to 1 2 30000
  = (false, 70000, [], prefilled 65536, []).
Proof. rewrite call_claim_overflow; [reflexivity|rewrite wit_claim_due; reflexivity|rewrite lenN_prefilled; reflexivity]. Qed.

Lemma claim_aon_refuted :
  exists c height owner gas led etxs miner to lb epoch gl,
    ~ claim_aon owner gas led etxs miner to lb epoch gl (call_claim c height owner gas led etxs miner to lb epoch gl).
Proof.
  exists (wit_ctx (SelfDestructRefundForkBlock + 5) 0 []), 200000, wit_self, 100000, wit_ledger, (prefilled 65536), wit_miner, wit_claim_to, 1, 2, 30000.
  rewrite claim_overflow_witness. intros [[H _]|[_ [H _]]]; discriminate H.
Qed.

Lemma claim_success_witness :
  let c := wit_ctx (SelfDestructRefundForkBlock + 5) 0 [] in
  call_claim c 200000 wit_self 100000 wit_ledger (prefilled 2) wit_miner wit_claim_to 1 2 30000 =
  (true, 70000, [], prefilled 2 ++ [mkEtx wit_claim_to wit_self 7000 2 EtxCoinbaseLockupType 30000], [((wit_self, wit_miner, 1, 2), mkLRec 7000 100000 3)]).
Proof. cbv zeta. rewrite call_claim_spec, wit_claim_due. reflexivity. Qed.

Fixpoint strs_eqb' (a b : list string) : bool :=
  match a, b with
  | [], [] => true
  | x :: a', y :: b' => String.eqb x y && strs_eqb' a' b'
  | _, _ => false
  end.
Local Open Scope string_scope.
(* RunLockupContract dispatches on the input length in this order; ClaimCoinbaseLockup: address checks, the read of the
   record, the DELETION, then the index check on the cache, the append, the undo entry *)
Definition lockup_as_modelled : bool :=
  strs_eqb' src_RunLockupContract ["UnwrapQi"; "ClaimQiDeposit"; "ClaimCoinbaseLockup"; "GetLockupData"; "GetLatestLockupData"] &&
  strs_eqb' src_ClaimCoinbaseLockup
    ["Uint32"; "Uint64"; "InternalAndQuaiAddress"; "InternalAddress"; "Uint64"; "IsInQiLedgerScope"; "IsInQuaiLedgerScope";
     "IsInQuaiLedgerScope"; "IsInQiLedgerScope"; "ReadCoinbaseLockup"; "Uint64"; "CoinbaseLockupHash"; "DeleteCoinbaseLockup";
     "lenETXCache"; "appendETXCache"; "NewTx"; "WriteCoinbaseLockupToMap"] &&
  (0 <? CoinbaseEpochBlocks)%N && negb (EtxCoinbaseLockupType =? EtxDefaultType)%N &&
  negb (EtxCoinbaseLockupType =? EtxConversionType)%N && negb (EtxCoinbaseLockupType =? EtxUnwrapQiType)%N.
