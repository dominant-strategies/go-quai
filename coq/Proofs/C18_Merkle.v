(* C18 -- Merkle proofs (trie/proof.go Prove / VerifyProof) over an arbitrary hash function H and an
   arbitrary embedding policy [small]: a verified proof yields exactly the stored value or absence,
   unless two different collapsed nodes with the same hash exist (a collision of H);
   the proof produced by Prove verifies. *)
From Coq Require Import List NArith Lia.
From GQ Require Import Model.C18 Proofs.C18_Base Proofs.C18_Insert.
Import ListNotations.

Lemma pchild_app_spec {A} (f : pnode -> A) d cs i :
  pchild_app f d cs i = match nth_error cs i with Some x => f x | None => d end.
Proof.
  revert i. induction cs as [|x r IH]; intros [|i]; cbn; auto.
Qed.

Lemma pnode_eq_dec : forall a b : pnode, {a = b} + {a <> b}.
Proof.
  fix IH 1. decide equality; try apply N.eq_dec; try (apply list_eq_dec, N.eq_dec).
  apply (list_eq_dec IH).
Qed.

Section Merkle.
  Variable H : pnode -> N.
  Variable small : pnode -> bool.

  Definition collision : Prop := exists a b : pnode, a <> b /\ H a = H b.

  Notation collapse := (collapse H small).
  Notation refer := (refer H small).
  Notation prove := (prove H small).
  Notation verify := (verify H).
  Notation root_hash := (root_hash H small).

  Lemma db_get_some db h q : db_get H db h = Some q -> H q = h.
  Proof. intros Hq. apply find_some in Hq as [_ Hh]. apply N.eqb_eq in Hh. exact Hh. Qed.

  Lemma db_get_genuine db p q : db_get H db (H p) = Some q -> q = p \/ collision.
  Proof.
    intros Hq%db_get_some. destruct (pnode_eq_dec q p) as [->|Hn]; [left; reflexivity|right; exists q, p; auto].
  Qed.

  Lemma db_get_hit db p : In p db -> db_get H db (H p) <> None.
  Proof.
    intros Hin Hq. pose proof (find_none _ _ Hq p Hin) as Hf. cbn in Hf. rewrite N.eqb_refl in Hf. discriminate.
  Qed.

  Lemma refer_cases p : refer p = p \/ refer p = PHash (H p).
  Proof. destruct p; cbn; auto; destruct (small _); auto. Qed.

  Lemma collapse_short k c : collapse (Short k c) = PShort k (refer (collapse c)).
  Proof. reflexivity. Qed.

  Lemma collapse_full cs : collapse (Full cs) = PFull (map (fun x => refer (collapse x)) cs).
  Proof. reflexivity. Qed.

  Lemma walk_full cs c rest :
    walk (PFull cs) (c :: rest) =
    match nth_error cs (N.to_nat c) with Some x => walk x rest | None => WPanic end.
  Proof. cbn [walk]. apply pchild_app_spec. Qed.

  Lemma prove_nil_key n top : prove n [] top = [].
  Proof. destruct n; reflexivity. Qed.

  Definition emit (n : node) (top : bool) : list pnode :=
    if top then [collapse n]
    else match refer (collapse n) with PHash _ => [collapse n] | _ => [] end.

  Lemma prove_short k child s r top :
    prove (Short k child) (s :: r) top =
    emit (Short k child) top ++
    match strip k (s :: r) with Some rest => prove child rest false | None => [] end.
  Proof. cbn [C18.prove]. destruct (strip k (s :: r)); [reflexivity|symmetry; apply app_nil_r]. Qed.

  Lemma prove_full cs s r top :
    prove (Full cs) (s :: r) top =
    emit (Full cs) top ++
    match nth_error cs (N.to_nat s) with Some x => prove x r false | None => [] end.
  Proof.
    cbn [C18.prove]. unfold emit. f_equal. rewrite child_app_spec. reflexivity.
  Qed.

  Lemma emit_top n rest : incl (collapse n :: emit n false ++ rest) (emit n true ++ rest).
  Proof.
    apply incl_cons; [left; reflexivity|]. apply incl_app; [apply incl_appl|apply incl_appr, incl_refl].
    unfold emit. destruct (refer (collapse n)); intros x Hx; auto; destruct Hx.
  Qed.

  Lemma emit_hash n : refer (collapse n) = PHash (H (collapse n)) -> In (collapse n) (emit n false).
  Proof. unfold emit. intros ->. left. reflexivity. Qed.

  Lemma prove_top t key : fits t key -> t <> Nil -> key <> [] ->
    incl (collapse t :: prove t key false) (prove t key true).
  Proof.
    intros Hf Ht Hk. destruct key as [|s r]; [congruence|].
    destruct t as [|v|k c|cs].
    - congruence.
    - discriminate (fits_val _ _ Hf).
    - rewrite !prove_short. apply emit_top.
    - rewrite !prove_full. apply emit_top.
  Qed.

  Lemma prove_self c rest : fits c rest -> refer (collapse c) = PHash (H (collapse c)) ->
    In (collapse c) (prove c rest false).
  Proof.
    intros ([->|Hw]%wf_cases & Hp & _) E; [discriminate|]. destruct rest as [|s r].
    - destruct (pf_nil_key_val _ Hw Hp) as [v ->]. discriminate.
    - destruct c as [|v|k c|cs]; try discriminate;
        rewrite ?prove_short, ?prove_full; apply in_or_app; left; apply emit_hash, E.
  Qed.

  (* what proof.go:get may return on the collapsed form of a stored node n; there is no case for WPanic *)
  Inductive good (n : node) (key : hkey) : walk_res -> Prop :=
  | good_absent : lookup n key = None -> good n key WAbsent
  | good_value v : lookup n key = Some v -> good n key (WValue v)
  | good_hash c rest :
      lookup n key = lookup c rest -> fits c rest -> length rest < length key ->
      incl (collapse c :: prove c rest false) (prove n key false) ->
      good n key (WHash (H (collapse c)) rest).

  (* the walk of the node above c goes on in [refer (collapse c)]: c embedded, or its hash *)
  Lemma good_refer c rest n key :
    fits c rest -> lookup n key = lookup c rest -> length rest < length key ->
    incl (prove c rest false) (prove n key false) ->
    good c rest (walk (collapse c) rest) -> good n key (walk (refer (collapse c)) rest).
  Proof.
    intros Hf Hl Hlen Hin Hg. destruct (refer_cases (collapse c)) as [E|E]; rewrite E.
    - destruct Hg as [Ha|v Hv|c0 r0 Hl0 Hf0 Hlen0 Hin0].
      + apply good_absent. congruence.
      + apply good_value. congruence.
      + apply good_hash; [congruence|exact Hf0|lia|exact (incl_tran Hin0 Hin)].
    - apply good_hash; [exact Hl|exact Hf|exact Hlen|].
      apply incl_cons; [apply Hin, prove_self; assumption|exact Hin].
  Qed.

  Lemma walk_spec n : forall key, fits n key -> good n key (walk (collapse n) key).
  Proof.
    induction n as [|v|k c IH|cs IH] using node_ind'; intros key Hf.
    - apply good_absent. reflexivity.
    - rewrite (fits_val _ _ Hf). apply good_value. reflexivity.
    - rewrite collapse_short. cbn [walk].
      destruct (strip k key) as [r|] eqn:Hs; [|apply good_absent; rewrite lookup_short, Hs; reflexivity].
      pose proof (proj1 (strip_some _ _ _) Hs) as ->. pose proof (fits_short _ _ _ Hf) as Hfc.
      destruct k as [|a k]; [destruct Hf as (Hw & _); apply wfn_short in Hw; tauto|].
      apply good_refer; [exact Hfc|apply lookup_short_app|cbn; rewrite app_length; lia| |exact (IH r Hfc)].
      cbn [app] in *. rewrite prove_short, Hs. apply incl_appr, incl_refl.
    - destruct (fits_full _ _ Hf) as (s & r & x & -> & Hx & Hfx).
      rewrite collapse_full, walk_full, nth_error_map, Hx. cbn [option_map].
      apply good_refer; [exact Hfx|rewrite lookup_full, Hx; reflexivity|cbn; lia| |].
      + rewrite prove_full, Hx. apply incl_appr, incl_refl.
      + exact (IH _ x Hx r Hfx).
  Qed.

  Lemma verify_sound fuel : forall n key db r, fits n key ->
    verify fuel (H (collapse n)) key db = Some r -> r = lookup n key \/ collision.
  Proof.
    induction fuel as [|f IH]; intros n key db r Hf; cbn [C18.verify]; [discriminate|].
    destruct (db_get H db (H (collapse n))) as [p|] eqn:Hg; [|discriminate].
    destruct (db_get_genuine _ _ _ Hg) as [->|Hcol]; [|right; exact Hcol].
    destruct (walk_spec n key Hf) as [Ha|v Hl|c rest Hl Hfc _ _].
    - intros [= <-]. left. congruence.
    - intros [= <-]. left. congruence.
    - rewrite Hl. exact (IH c rest db r Hfc).
  Qed.

  Lemma verify_complete fuel : forall n key db, fits n key -> length key < fuel ->
    incl (collapse n :: prove n key false) db ->
    verify fuel (H (collapse n)) key db = Some (lookup n key) \/ collision.
  Proof.
    induction fuel as [|f IH]; intros n key db Hf Hlen Hin; [lia|]. cbn [C18.verify].
    apply incl_cons_inv in Hin as [Hn Hin].
    destruct (db_get H db (H (collapse n))) as [p|] eqn:Hg; [|destruct (db_get_hit db _ Hn Hg)].
    destruct (db_get_genuine _ _ _ Hg) as [->|Hcol]; [|right; exact Hcol].
    destruct (walk_spec n key Hf) as [Ha|v Hl|c rest Hl Hfc Hlt Hinc].
    - left. congruence.
    - left. congruence.
    - rewrite Hl. apply IH; [exact Hfc|lia|exact (incl_tran Hinc Hin)].
  Qed.
End Merkle.
