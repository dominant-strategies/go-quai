(* Facts about the standard library's lists that the library of Coq 8.16 does not have, shared by the proofs
   of the properties. *)
From Coq Require Import List PeanoNat.
Import ListNotations.

Lemma last_cons {A} (x : A) l d : last (x :: l) d = last l x.
Proof.
  revert x d; induction l as [|y l IH]; intros x d; [reflexivity|].
  change (last (x :: y :: l) d) with (last (y :: l) d). rewrite !IH. reflexivity.
Qed.

Lemma fold_left_inv {A B} (P : A -> Prop) (f : A -> B -> A) (l : list B) :
  (forall a b, In b l -> P a -> P (f a b)) -> forall a, P a -> P (fold_left f l a).
Proof.
  induction l as [|b l IH]; intros Hstep a H; [exact H|].
  cbn [fold_left]. apply IH.
  - intros a' b' Hin. apply Hstep. right; exact Hin.
  - apply Hstep; [left; reflexivity|exact H].
Qed.

Lemma fold_left_preorder {S F} (Q : S -> S -> Prop) (f : S -> F -> S) (l : list F) :
  (forall s, Q s s) -> (forall a b c, Q a b -> Q b c -> Q a c) ->
  Forall (fun x => forall s, Q s (f s x)) l -> forall s, Q s (fold_left f l s).
Proof.
  intros R T H s. apply (fold_left_inv (Q s)); [|apply R].
  intros a b Hb Ha. apply (T _ _ _ Ha). exact (proj1 (Forall_forall _ _) H b Hb a).
Qed.

Lemma fold_left_sim {S T F} (R : S -> T -> Prop) (f : S -> F -> S) (g : T -> F -> T) (l : list F) :
  Forall (fun x => forall s t, R s t -> R (f s x) (g t x)) l ->
  forall s t, R s t -> R (fold_left f l s) (fold_left g l t).
Proof. induction 1 as [|x l Hx _ IH]; intros s t H; cbn [fold_left]; [exact H|]. apply IH, Hx, H. Qed.

Lemma fold_left_appends {S F T} (run : S -> F -> S) (obs : S -> list T) (tr : F -> list T) (l : list F) :
  (forall s f, In f l -> obs (run s f) = obs s ++ tr f) ->
  forall s, obs (fold_left run l s) = obs s ++ flat_map tr l.
Proof.
  induction l as [|f l IH]; intros H s; cbn [fold_left flat_map]; [symmetry; apply app_nil_r|].
  rewrite IH by (intros s' g Hg; apply H; right; exact Hg).
  rewrite H by (left; reflexivity). symmetry. apply app_assoc.
Qed.

Lemma existsb_eqb_In {A} (eqb : A -> A -> bool) (eqb_eq : forall a b, eqb a b = true <-> a = b) x l :
  existsb (eqb x) l = true <-> In x l.
Proof.
  rewrite existsb_exists. split.
  - intros (y & Hy & E). apply eqb_eq in E. subst y. exact Hy.
  - intros H. exists x. split; [exact H|apply eqb_eq; reflexivity].
Qed.

Lemma existsb_eqb_not_In {A} (eqb : A -> A -> bool) (eqb_eq : forall a b, eqb a b = true <-> a = b) x l :
  existsb (eqb x) l = false <-> ~ In x l.
Proof. rewrite <- (existsb_eqb_In eqb eqb_eq). symmetry. apply Bool.not_true_iff_false. Qed.

Lemma forallb_Forall {A} (f : A -> bool) (P : A -> Prop) l :
  (forall x, f x = true -> P x) -> forallb f l = true -> Forall P l.
Proof. intros HP H. rewrite forallb_forall in H. apply Forall_forall. intros x Hx. apply HP, H, Hx. Qed.

(* A transparent fixpoint, not a lemma closed with Qed: the hand-written induction principle of a type whose
   constructors carry lists of the type itself calls it on itself, and the guard condition has to see through it. *)
Definition Forall_all {A} (P : A -> Prop) (H : forall a, P a) : forall l, Forall P l :=
  fix go l := match l with [] => Forall_nil P | a :: l' => Forall_cons a (H a) (go l') end.

Lemma filter_all {A} (f : A -> bool) (l : list A) : (forall x, In x l -> f x = true) -> filter f l = l.
Proof.
  induction l as [|y r IH]; cbn; [reflexivity|]. intros G. rewrite (G y (or_introl eq_refl)). f_equal. apply IH.
  intros x Hx. apply G. right; exact Hx.
Qed.

Lemma filter_none {A} (f : A -> bool) (l : list A) : (forall x, In x l -> f x = false) -> filter f l = [].
Proof.
  induction l as [|y r IH]; cbn; [reflexivity|]. intros G. rewrite (G y (or_introl eq_refl)). apply IH.
  intros x Hx. apply G. right; exact Hx.
Qed.

Lemma filter_filter {A} (f g : A -> bool) (l : list A) : filter f (filter g l) = filter (fun x => (g x && f x)%bool) l.
Proof.
  induction l as [|a l IH]; cbn; [reflexivity|].
  destruct (g a); cbn; [destruct (f a)|]; rewrite IH; reflexivity.
Qed.

Lemma filter_map_swap {A B} (f : B -> bool) (g : A -> B) (l : list A) :
  filter f (map g l) = map g (filter (fun a => f (g a)) l).
Proof. induction l as [|a l IH]; cbn; [reflexivity|]. destruct (f (g a)); cbn; rewrite IH; reflexivity. Qed.

Lemma filter_nil_all {A} (f : A -> bool) (l : list A) : filter f l = [] -> filter (fun x => negb (f x)) l = l.
Proof.
  induction l as [|x r IH]; cbn; [reflexivity|]. destruct (f x); cbn; [discriminate|]. intros H. rewrite IH; auto.
Qed.

Lemma filter_len_le {A} (f : A -> bool) (l : list A) : (length (filter f l) <= length l)%nat.
Proof. induction l as [|x r IH]; cbn; [apply le_n|]. destruct (f x); cbn; [apply le_n_S, IH|apply le_S, IH]. Qed.

Lemma firstn_In {A} n (l : list A) x : In x (firstn n l) -> In x l.
Proof. intros H. rewrite <- (firstn_skipn n l). apply in_or_app. left. exact H. Qed.

Lemma in_flat_firstn {A B} (f : A -> list B) n l x : In x (flat_map f (firstn n l)) -> In x (flat_map f l).
Proof.
  intros H. apply in_flat_map in H as (y & Hy & Hx). apply in_flat_map. exists y.
  split; [eapply firstn_In|]; eassumption.
Qed.

Lemma firstn_app_length {A} (a b : list A) : firstn (length a) (a ++ b) = a.
Proof. rewrite firstn_app, Nat.sub_diag, firstn_all. apply app_nil_r. Qed.

Lemma firstn_app_le {A} n (a b : list A) : (n <= length a)%nat -> firstn n (a ++ b) = firstn n a.
Proof.
  intros Hle. rewrite firstn_app, (proj2 (Nat.sub_0_le n (length a)) Hle). cbn [firstn]. apply app_nil_r.
Qed.

Lemma skipn_app_length {A} (a b : list A) : skipn (length a) (a ++ b) = b.
Proof. rewrite skipn_app, Nat.sub_diag, skipn_all. reflexivity. Qed.

Lemma nth_error_app_mid {A} (p : list A) a r : nth_error (p ++ a :: r) (length p) = Some a.
Proof. induction p; cbn; auto. Qed.

Lemma skipn_S_app_mid {A} (p : list A) a r : skipn (S (length p)) (p ++ a :: r) = r.
Proof. induction p; cbn; auto. Qed.

Lemma app_inv_length {A} (a b c d : list A) : length a = length c -> a ++ b = c ++ d -> a = c /\ b = d.
Proof.
  intros L E. split.
  - rewrite <- (firstn_app_length a b), E, L. apply firstn_app_length.
  - rewrite <- (skipn_app_length a b), E, L. apply skipn_app_length.
Qed.

Lemma NoDup_app_iff {A} (l1 l2 : list A) :
  NoDup (l1 ++ l2) <-> NoDup l1 /\ NoDup l2 /\ (forall x, In x l1 -> In x l2 -> False).
Proof.
  induction l1 as [|a l1 IH]; cbn [app].
  - split; [|tauto]. intros H. repeat split; [constructor|exact H|intros x []].
  - rewrite !NoDup_cons_iff, IH, in_app_iff. split.
    + intros [Ha (N1 & N2 & D)]. repeat split; [tauto|exact N1|exact N2|].
      intros x [<-|Hx] H2; [tauto|exact (D x Hx H2)].
    + intros [[Ha N1] [N2 D]]. repeat split; [|exact N1|exact N2|].
      * intros [H|H]; [exact (Ha H)|exact (D a (or_introl eq_refl) H)].
      * intros x Hx. apply D. right; exact Hx.
Qed.

Lemma NoDup_firstn {A} n (l : list A) : NoDup l -> NoDup (firstn n l).
Proof.
  intros H. rewrite <- (firstn_skipn n l) in H. exact (proj1 (proj1 (NoDup_app_iff _ _) H)).
Qed.

Lemma NoDup_map_filter {A B} (f : A -> B) g l : NoDup (map f l) -> NoDup (map f (filter g l)).
Proof.
  induction l as [|a l IH]; cbn [map filter]; intros H; [constructor|].
  inversion H as [|x xl Hna Hnd]; subst. destruct (g a); [|exact (IH Hnd)].
  cbn [map]. constructor; [|exact (IH Hnd)]. intro Hx. apply Hna. apply in_map_iff in Hx as (s & <- & Hs).
  apply in_map. apply filter_In in Hs. tauto.
Qed.

Lemma NoDup_map_inj {A B} (f : A -> B) l x y : NoDup (map f l) -> In x l -> In y l -> f x = f y -> x = y.
Proof.
  induction l as [|a l IH]; intros Hn Hx Hy Hf; [destruct Hx|].
  inversion Hn as [|z zl Hna Hnd]; subst. destruct Hx as [<-|Hx]; destruct Hy as [<-|Hy].
  - reflexivity.
  - exfalso. apply Hna. rewrite Hf. apply in_map. exact Hy.
  - exfalso. apply Hna. rewrite <- Hf. apply in_map. exact Hx.
  - apply IH; assumption.
Qed.

Lemma NoDup_map_app {A B} (f : A -> B) l1 l2 : NoDup (map f l1) -> NoDup (map f l2) ->
  (forall x y, In x l1 -> In y l2 -> f x <> f y) -> NoDup (map f (l1 ++ l2)).
Proof.
  intros H1 H2 H. rewrite map_app. apply NoDup_app_iff. repeat split; [exact H1|exact H2|].
  intros h Hx Hy. apply in_map_iff in Hx as (x & <- & Hx). apply in_map_iff in Hy as (y & E & Hy).
  exact (H x y Hx Hy (eq_sym E)).
Qed.

Lemma NoDup_app_drop {A} (b a c : list A) : NoDup (a ++ b ++ c) -> NoDup (a ++ c).
Proof.
  revert a c. induction b as [|x b IH]; intros a c H; [exact H|]. apply IH. exact (NoDup_remove_1 _ _ _ H).
Qed.

Lemma rev_cons_inv {A} (l : list A) x r : rev l = x :: r -> l = rev r ++ [x].
Proof. intros E. rewrite <- (rev_involutive l), E. reflexivity. Qed.

Lemma tail_closed_app_r {A} (P : list A -> Prop) : (forall a l, P (a :: l) -> P l) -> forall l1 l2, P (l1 ++ l2) -> P l2.
Proof. intros T l1 l2. induction l1 as [|a l1 IH]; [auto|]. intros H. exact (IH (T a _ H)). Qed.

Lemma Forall2_left {A B} (R : A -> B -> Prop) (P : A -> Prop) l l' :
  (forall x y, R x y -> P x) -> Forall2 R l l' -> Forall P l.
Proof. intros HR. induction 1; constructor; eauto. Qed.

Lemma Forall2_nth_l {A B} (R : A -> B -> Prop) l1 l2 i a :
  Forall2 R l1 l2 -> nth_error l1 i = Some a -> exists b, nth_error l2 i = Some b /\ R a b.
Proof.
  intros Hf. revert i. induction Hf as [|x y r1 r2 Hxy Hr IH]; intros [|i] Hn; cbn in *; try discriminate.
  - injection Hn as <-. eauto.
  - apply IH. exact Hn.
Qed.

Lemma seq_shift_k : forall k n a, seq (a + k) n = map (fun x => (x + k)%nat) (seq a n).
Proof.
  induction n as [|n IH]; intros a; [reflexivity|].
  cbn [seq map]. f_equal. change (S (a + k)) with (S a + k)%nat. apply IH.
Qed.

Lemma concat_map_nil {A B} (f : A -> list B) l : (forall x, In x l -> f x = []) -> concat (map f l) = [].
Proof. intros H. apply concat_nil_Forall, Forall_map, Forall_forall. exact H. Qed.
