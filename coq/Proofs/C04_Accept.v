(* C04 (b): the acceptance discipline of Process over the queue refines a comparison of
   two lists; an accepted block consumed exactly the next items of (queue ++ parent inbound). *)
From Coq Require Import List NArith Lia.
From GQ Require Import Lib.C04_Expr Model.C04 Proofs.C04_Queue.
Import ListNotations.
Local Open Scope N_scope.

Lemma skipn_nonempty_ltb (A : Type) (l : list A) n :
  (match hd_error (skipn n l) with Some _ => true | None => false end) = Nat.ltb n (length l).
Proof.
  revert n; induction l as [|a l IH]; intros [|n]; cbn [skipn length hd_error]; try reflexivity.
  apply IH.
Qed.

Definition gas_sum (blk : list (etx * N)) : N := fold_right (fun x a => snd x + a) 0 blk.

Lemma count_rule_expr_sem num avail count gas gl :
  beval (rule_env num count gas gl) (rule_benv avail) count_rule_expr = count_rule_viol num avail count.
Proof. reflexivity. Qed.

Lemma gas_rule_expr_sem num avail count gas gl :
  beval (rule_env num count gas gl) (rule_benv avail) gas_rule_expr = gas_rule_viol num avail gas gl.
Proof. reflexivity. Qed.

Section Accept.
  Variable H : Type.
  Variable hash : etx -> H.
  Variable heqb : H -> H -> bool.
  (* the comparison used by Process is equality of hashes *)
  Hypothesis heqb_spec : forall a b, heqb a b = true <-> a = b.

  Definition collision : Prop := exists a b : etx, a <> b /\ hash a = hash b.

  (* list-level reading of the loop: verdict and number of items taken off the queue *)
  Fixpoint cmp_spec (q : list etx) (blk : list (etx * N)) {struct blk} : verdict * nat :=
    match blk with
    | [] => (VAccept, O)
    | (x, _) :: blk' =>
        match q with
        | [] => (VPopNil, O)
        | e :: q' =>
            if heqb (hash e) (hash x)
            then let '(v, k) := cmp_spec q' blk' in (v, S k)
            else (VHashMismatch, 1%nat)
        end
    end.

  Definition list_accept (q : list etx) (blk : list (etx * N)) (num gaslimit : N) : verdict :=
    match fst (cmp_spec q blk) with
    | VAccept =>
        let avail := Nat.ltb (length blk) (length q) in
        if count_rule_viol num avail (N.of_nat (length blk)) then VCountRule
        else if gas_rule_viol num avail (gas_sum blk) gaslimit then VGasRule
        else VAccept
    | v => v
    end.

  Lemma pop_compare_refines blk : forall t o q c g v t' c' g', rep t o q ->
    pop_compare H hash heqb t blk c g = (v, t', c', g') ->
    v = fst (cmp_spec q blk) /\
    (exists o', rep t' o' (skipn (snd (cmp_spec q blk)) q)) /\
    (v = VAccept -> c' = c + N.of_nat (length blk) /\ g' = g + gas_sum blk).
  Proof.
    induction blk as [|[x gx] blk IH]; intros t o q c g v t' c' g' R E; cbn [pop_compare cmp_spec] in *.
    - injection E as <- <- <- <-. cbn. rewrite !N.add_0_r. eauto.
    - destruct q as [|e q].
      + rewrite (pop_etx_nil t o R) in E. injection E as <- <- <- <-. cbn. split; [reflexivity|split; [eauto|discriminate]].
      + destruct (pop_etx_cons t o e q R) as (Ep & R' & _). rewrite Ep in E.
        destruct (heqb (hash e) (hash x)).
        * destruct (IH _ _ _ _ _ _ _ _ _ R' E) as (V & R1 & G).
          destruct (cmp_spec q blk) as [v0 k]. cbn [fst snd skipn] in *.
          split; [exact V|split; [exact R1|]]. intros Hv.
          destruct (G Hv) as [-> ->]. cbn [length gas_sum fold_right snd]. fold (gas_sum blk).
          rewrite Nat2N.inj_succ, <- N.add_1_l, !N.add_assoc. split; reflexivity.
        * injection E as <- <- <- <-. cbn [fst snd skipn]. split; [reflexivity|split; [eauto|discriminate]].
  Qed.

  Lemma cmp_spec_accept_iff blk : forall q, fst (cmp_spec q blk) = VAccept <->
    (length blk <= length q)%nat /\ map hash (map fst blk) = map hash (firstn (length blk) q).
  Proof.
    induction blk as [|[x gx] blk IH]; intros q.
    - cbn. split; [split; [lia|reflexivity]|reflexivity].
    - destruct q as [|e q]; cbn [cmp_spec length map firstn fst].
      + split; [discriminate|intros [L _]; lia].
      + specialize (IH q). destruct (cmp_spec q blk) as [v k]. cbn [fst] in *.
        destruct (heqb (hash e) (hash x)) eqn:Eh.
        * apply heqb_spec in Eh. rewrite IH, Eh. split; intros [L M]; (split; [lia|congruence]).
        * split; [discriminate|]. intros [_ M]. injection M as M _. symmetry in M. apply heqb_spec in M. congruence.
  Qed.

  Lemma cmp_spec_taken blk : forall q, fst (cmp_spec q blk) = VAccept -> snd (cmp_spec q blk) = length blk.
  Proof.
    induction blk as [|[x gx] blk IH]; intros q Hv; [reflexivity|].
    destruct q as [|e q]; cbn [cmp_spec] in *; [discriminate|].
    destruct (heqb (hash e) (hash x)); [|discriminate].
    specialize (IH q). destruct (cmp_spec q blk) as [v k]. cbn [fst snd length] in *.
    rewrite (IH Hv). reflexivity.
  Qed.

  Lemma cmp_spec_verdicts blk : forall q,
    fst (cmp_spec q blk) = VAccept \/ fst (cmp_spec q blk) = VPopNil \/ fst (cmp_spec q blk) = VHashMismatch.
  Proof.
    induction blk as [|[x gx] blk IH]; intros q; cbn [cmp_spec]; auto.
    destruct q as [|e q]; cbn; auto.
    destruct (heqb (hash e) (hash x)); cbn; auto.
    specialize (IH q). destruct (cmp_spec q blk) as [v k]. exact IH.
  Qed.

  (* a block longer than what is queued is refused (nil pop or an earlier mismatch) *)
  Lemma cmp_spec_too_long q blk : (length q < length blk)%nat -> fst (cmp_spec q blk) <> VAccept.
  Proof. intros L Hv. apply cmp_spec_accept_iff in Hv. lia. Qed.

  Lemma map_hash_eq_or_collision (l1 l2 : list etx) :
    map hash l1 = map hash l2 -> l1 = l2 \/ collision.
  Proof.
    revert l2; induction l1 as [|a l1 IH]; intros [|b l2] M; cbn in M; try discriminate; auto.
    inversion M as [[M1 M2]]. destruct (IH l2 M2) as [->|C]; auto.
    destruct (list_eq_dec N.eq_dec a b) as [->|Nab]; auto.
    right. exists a, b. auto.
  Qed.

  Lemma accept_block_refines t o q inbound blk num gl : rep t o q -> wf_etxs inbound ->
    let r := accept_block H hash heqb t inbound blk num gl in
    let Q := q ++ inbound in
    fst r = list_accept Q blk num gl /\ exists o', rep (snd r) o' (skipn (snd (cmp_spec Q blk)) Q).
  Proof.
    intros R W. cbn zeta. unfold accept_block.
    set (t0 := match inbound with [] => t | _ => push_etxs t inbound end).
    assert (R0 : rep t0 o (q ++ inbound)).
    { unfold t0. destruct inbound; [rewrite app_nil_r; exact R|apply push_etxs_rep; assumption]. }
    destruct (pop_compare H hash heqb t0 blk 0 0) as [[[v t1] c'] g'] eqn:P.
    destruct (pop_compare_refines blk _ _ _ _ _ _ _ _ _ R0 P) as (V & [o1 R1] & G). unfold list_accept. rewrite <- V.
    destruct v; cbn [fst snd]; try (split; [reflexivity|exists o1; exact R1]).
    destruct (G eq_refl) as [-> ->]. rewrite (cmp_spec_taken blk _ (eq_sym V)) in R1 |- *.
    rewrite !N.add_0_l, (read_oldest_rep t1 _ _ R1), skipn_nonempty_ltb.
    destruct (count_rule_viol _ _ _); try destruct (gas_rule_viol _ _ _ _); eauto.
  Qed.

  Lemma list_accept_iff q blk num gl :
    let avail := Nat.ltb (length blk) (length q) in
    list_accept q blk num gl = VAccept <->
    fst (cmp_spec q blk) = VAccept /\ count_rule_viol num avail (N.of_nat (length blk)) = false /\
    gas_rule_viol num avail (gas_sum blk) gl = false.
  Proof.
    unfold list_accept. cbn zeta. destruct (fst (cmp_spec q blk)); try (split; [discriminate|intros [? _]; discriminate]).
    destruct (count_rule_viol _ _ _); [split; [discriminate|intros (_ & ? & _); discriminate]|].
    destruct (gas_rule_viol _ _ _ _); [split; [discriminate|intros (_ & _ & ?); discriminate]|]. tauto.
  Qed.

  Lemma accept_iff t inbound blk num gl : Inv t -> wf_etxs inbound ->
    let Q := abs t ++ inbound in
    let avail := Nat.ltb (length blk) (length Q) in
    fst (accept_block H hash heqb t inbound blk num gl) = VAccept <->
    ((length blk <= length Q)%nat /\ map hash (map fst blk) = map hash (firstn (length blk) Q) /\
     count_rule_viol num avail (N.of_nat (length blk)) = false /\
     gas_rule_viol num avail (gas_sum blk) gl = false).
  Proof.
    intros I W. cbn zeta.
    rewrite (proj1 (accept_block_refines t _ _ inbound blk num gl (Inv_rep t I) W)), list_accept_iff,
      cmp_spec_accept_iff. tauto.
  Qed.

  Lemma accepted_state t inbound blk num gl t' : Inv t -> wf_etxs inbound ->
    accept_block H hash heqb t inbound blk num gl = (VAccept, t') ->
    let Q := abs t ++ inbound in
    (length blk <= length Q)%nat /\ map hash (map fst blk) = map hash (firstn (length blk) Q) /\
    abs t' = skipn (length blk) Q /\ Inv t'.
  Proof.
    intros I W E. cbn zeta.
    destruct (accept_block_refines t _ _ inbound blk num gl (Inv_rep t I) W) as (V & o' & R').
    rewrite E in V, R'. cbn [fst snd] in *. symmetry in V.
    apply list_accept_iff in V as [V _]. rewrite (cmp_spec_taken blk _ V) in R'.
    apply cmp_spec_accept_iff in V as [L M]. destruct (rep_Inv _ _ _ R') as (I' & _ & _ & A). auto.
  Qed.

  Lemma accepted_hashes t inbound blk num gl t' : Inv t -> wf_etxs inbound ->
    accept_block H hash heqb t inbound blk num gl = (VAccept, t') ->
    Inv t' /\ map hash (abs t ++ inbound) = map hash (map fst blk) ++ map hash (abs t').
  Proof.
    intros I W E. destruct (accepted_state t inbound blk num gl t' I W E) as (_ & M & A & I').
    rewrite M, A, <- map_app, firstn_skipn. auto.
  Qed.

  Fixpoint chain_executed (t : trie) (inb : list etx) (cs : list cand) : list etx :=
    match cs with
    | [] => []
    | (blk, num, gl, next) :: cs' =>
        let '(v, t') := accept_block H hash heqb t inb blk num gl in
        match v with
        | VAccept => map fst blk ++ chain_executed t' next cs'
        | _ => chain_executed t inb cs'
        end
    end.

  (* inbound sets attached to the accepted candidates (what the dominant chain delivered) *)
  Fixpoint chain_delivered (t : trie) (inb : list etx) (cs : list cand) : list etx :=
    match cs with
    | [] => []
    | (blk, num, gl, next) :: cs' =>
        let '(v, t') := accept_block H hash heqb t inb blk num gl in
        match v with
        | VAccept => next ++ chain_delivered t' next cs'
        | _ => chain_delivered t inb cs'
        end
    end.

  Definition wf_cands (cs : list cand) : Prop := Forall (fun c : cand => wf_etxs (snd c)) cs.

  Lemma wf_etxs_app l1 l2 : wf_etxs l1 -> wf_etxs l2 -> wf_etxs (l1 ++ l2).
  Proof. unfold wf_etxs. intros. apply Forall_app. auto. Qed.
End Accept.

(* non-vacuity material: a concrete queue *)
Definition ex_t : trie := push_etxs (init_at 254) [[1]; [2]; [3]].
