(* C16 — the sender cache of a transaction object (Model/C16.v: sender_step, sop_step, run_ops).
   Addresses handed out from stored / cached bytes are classified at the location of the
   signer that ASKS; nothing depends on which signer filled the cache. *)
From Coq Require Import List NArith.
From GQ Require Import Lib.Lists Model.C16 Proofs.C16.
Import ListNotations.
Local Open Scope N_scope.

(* Keccak256 digests are 32 bytes *)
Definition tx_wf (t : txobj) : Prop :=
  match tdigest t with Some d => length d = 32%nat | None => True end.

Definition ecache (s : sstate) : option (N * bytes) :=
  match st_cache s with Some (c, _, b) => Some (c, b) | None => None end.

(* a hit: sigCache.signer.Equal(signer) compares the chain ids only *)
Definition cache_hit (s : sstate) (c : N) : option bytes :=
  match ecache s with Some (c0, from) => if c0 =? c then Some from else None | None => None end.

Lemma cache_hit_inv s c from : cache_hit s c = Some from -> ecache s = Some (c, from).
Proof.
  unfold cache_hit. destruct (ecache s) as [[c0 b]|]; [|discriminate].
  destruct (N.eqb_spec c0 c) as [->|]; [|discriminate]. intros H. inversion H. reflexivity.
Qed.

(* SignerV1.Sender on a signed transaction up to its call of BytesToAddress: the signer's location plays no part *)
Definition recovered (t : txobj) (c : N) : option bytes :=
  if tchain t =? c then option_map (skipn 12) (tdigest t) else None.

Lemma signer_sender_quai t c l : tk t = TQuai ->
  signer_sender t c l = match recovered t c with Some a => bytes_to_address a l | None => Err end.
Proof.
  intros Hk. unfold signer_sender, recovered. rewrite Hk.
  destruct (tchain t =? c); [|reflexivity]. destruct (tdigest t); reflexivity.
Qed.

Lemma sender_step_spec t s c l :
  sender_step t s c l =
  match tk t with
  | TEtx => (etx_stored t, s)
  | TQi => (Err, s)
  | TQuai => match cache_hit s c with
             | Some from => (bytes_to_address from l, s)
             | None => match recovered t c with
                       | Some a => (bytes_to_address a l, set_cache s (Some (c, l, to20 a)))
                       | None => (Err, s)
                       end
             end
  end.
Proof.
  unfold sender_step, cache_hit, ecache. destruct (tk t) eqn:Hk; try reflexivity.
  rewrite (signer_sender_quai t c l Hk).
  (* a recovered address is Internal or External of its 20 stored bytes, never an error: a miss stores them *)
  destruct (recovered t c) as [a|]; [destruct (bta_cases a l) as [E|E]; rewrite E|].
  all: destruct (st_cache s) as [[[c0 fl] from]|]; [destruct (c0 =? c)|]; reflexivity.
Qed.

(* holds in every state: bytes of any length are wrapped as the class of their [to20] ([bta_spec], the repaired BytesToAddress) *)
Lemma sender_step_class t s c l : tk t = TQuai ->
  fst (sender_step t s c l) = Err
  \/ exists a, length a = 20%nat /\ fst (sender_step t s c l) = classify a l.
Proof.
  intros Hk. rewrite sender_step_spec, Hk.
  destruct (cache_hit s c) as [from|]; [|destruct (recovered t c) as [a|]; [|left; reflexivity]].
  all: right; eexists; split; [apply to20_length|apply bta_spec].
Qed.

(* [hash_step] and [sop_step] with the pair patterns on the result of types.Sender written as projections,
   so that facts about fst / snd of [sender_step] apply as they stand *)

Definition is_err (r : res) : bool := match r with Err => true | _ => false end.

Lemma hash_step_eq t s w : hash_step t s w =
  if st_hashed s then s
  else match tk t with
       | TQuai => if w then set_hashed s
                  else let x := sender_step t s (tchain t) [0; 0] in
                       if is_err (fst x) then snd x else set_hashed (snd x)
       | _ => set_hashed s
       end.
Proof.
  unfold hash_step. destruct (st_hashed s), (tk t), w; try reflexivity.
  destruct (sender_step t s (tchain t) [0; 0]) as [[a|a|] s1]; reflexivity.
Qed.

(* FromChain needs no case on the kind: for an ExternalTx types.Sender answers the stored sender it reads,
   and a stored sender is never an error *)
Lemma sop_step_eq t s o : sop_step t s o =
  match o with
  | SSender c l => let x := sender_step t s c l in (sobs_of_res (fst x), snd x)
  | SDirect c l => (sobs_of_res (signer_sender t c l), s)
  | SFrom l => (match ecache s with
                | Some (_, from) => sobs_of_res (bytes20_to_address from l)
                | None => SNil
                end, s)
  | SSetFrom a c l => (SUnit, set_cache s (Some (c, l, to20 a)))
  | SHash w => (SUnit, hash_step t s w)
  | SAsMsg c l => let x := sender_step t (hash_step t s false) c l in (asmsg_obs t l (fst x), snd x)
  | SFromChain l =>
      match st_fromchain s with
      | Some y => (SLoc y, s)
      | None =>
          let x := sender_step t s (tchain t) l in
          let y := location_of (res_bytes (fst x)) in
          if is_err (fst x) then (SErr, s) else (SLoc y, set_fromchain (snd x) y)
      end
  end.
Proof.
  destruct o as [c l|c l|l|a c l|w|c l|l]; try reflexivity; cbn [sop_step].
  - destruct (sender_step t s c l); reflexivity.
  - unfold ecache. destruct (st_cache s) as [[[c0 fl] from]|]; reflexivity.
  - destruct (sender_step t (hash_step t s false) c l); reflexivity.
  - destruct (st_fromchain s); [reflexivity|]. destruct (tk t) eqn:Hk.
    + destruct (sender_step t s (tchain t) l) as [[a|a|] s1]; reflexivity.
    + rewrite sender_step_spec, Hk. cbv zeta. cbn [fst snd]. unfold etx_stored, wire_to_address.
      destruct (bta_cases (tetx_raw t) (tetx_loc t)) as [E|E]; rewrite E; reflexivity.
    + destruct (sender_step t s (tchain t) l) as [[a|a|] s1]; reflexivity.
Qed.

Lemma run_ops_state t ops : forall s,
  snd (run_ops t s ops) = fold_left (fun s o => snd (sop_step t s o)) ops s.
Proof.
  induction ops as [|o ops IH]; intros s; cbn [run_ops fold_left]; [reflexivity|].
  rewrite <- IH. destruct (sop_step t s o) as [x s1]. cbn [snd]. destruct (run_ops t s1 ops); reflexivity.
Qed.

Definition is_setfrom (o : sop) : bool := match o with SSetFrom _ _ _ => true | _ => false end.

(* a miss of types.Sender stores what it recovered; only SetFrom can store anything else *)
Definition entry_true (t : txobj) (e : option (N * bytes)) : Prop :=
  match e with Some (c, b) => option_map to20 (recovered t c) = Some b | None => True end.

Lemma sender_step_true t s c l : entry_true t (ecache s) -> entry_true t (ecache (snd (sender_step t s c l))).
Proof.
  intros Hs. rewrite sender_step_spec. destruct (tk t); try exact Hs.
  destruct (cache_hit s c); [exact Hs|].
  destruct (recovered t c) as [a|] eqn:Er; [|exact Hs]. cbn. rewrite Er. reflexivity.
Qed.

Lemma hash_step_true t s w : entry_true t (ecache s) -> entry_true t (ecache (hash_step t s w)).
Proof.
  intros Hs. rewrite hash_step_eq. destruct (st_hashed s); [exact Hs|].
  destruct (tk t); try exact Hs. destruct w; [exact Hs|].
  cbv zeta. destruct (is_err _); apply sender_step_true, Hs.
Qed.

Lemma sop_step_true t s o : is_setfrom o = false ->
  entry_true t (ecache s) -> entry_true t (ecache (snd (sop_step t s o))).
Proof.
  intros Ho Hs. rewrite sop_step_eq. destruct o as [c l|c l|l|a c l|w|c l|l]; cbv zeta; cbn [snd].
  - apply sender_step_true, Hs.
  - exact Hs.
  - exact Hs.
  - discriminate Ho.
  - apply hash_step_true, Hs.
  - apply sender_step_true, hash_step_true, Hs.
  - destruct (st_fromchain s); [exact Hs|]. destruct (is_err _); [exact Hs|]. apply sender_step_true, Hs.
Qed.

Lemma run_ops_true t ops : existsb is_setfrom ops = false ->
  entry_true t (ecache (snd (run_ops t st_init ops))).
Proof.
  intros Hno. rewrite run_ops_state. apply (fold_left_inv (fun s => entry_true t (ecache s))); [|exact I].
  intros s o Ho. apply sop_step_true. destruct (is_setfrom o) eqn:E; [|reflexivity].
  rewrite <- Hno. symmetry. apply existsb_exists. eauto.
Qed.

Lemma warm_is_cold t s c l : tk t = TQuai -> entry_true t (ecache s) ->
  fst (sender_step t s c l) = signer_sender t c l.
Proof.
  intros Hk Hs. rewrite sender_step_spec, Hk, (signer_sender_quai t c l Hk).
  destruct (cache_hit s c) as [from|] eqn:Eh.
  - rewrite (cache_hit_inv s c from Eh) in Hs. cbn [entry_true] in Hs.
    destruct (recovered t c) as [a|]; [|discriminate Hs]. injection Hs as <-.
    rewrite !bta_spec, (to20_id _ (to20_length a)). reflexivity.
  - destruct (recovered t c); reflexivity.
Qed.

Inductive sop_sim : sop -> sop -> Prop :=
| sim_sender c l l' : sop_sim (SSender c l) (SSender c l')
| sim_direct c l l' : sop_sim (SDirect c l) (SDirect c l')
| sim_from l l' : sop_sim (SFrom l) (SFrom l')
| sim_setfrom a c l l' : sop_sim (SSetFrom a c l) (SSetFrom a c l')
| sim_hash w : sop_sim (SHash w) (SHash w)
| sim_asmsg c l l' : sop_sim (SAsMsg c l) (SAsMsg c l')
| sim_fromchain l l' : sop_sim (SFromChain l) (SFromChain l').

Lemma sop_sim_refl o : sop_sim o o.
Proof. destruct o; constructor. Qed.

Definition erase (s : sstate) : option (N * bytes) * bool * option location :=
  (ecache s, st_hashed s, st_fromchain s).

Lemma erase_inv s s' : erase s = erase s' ->
  ecache s = ecache s' /\ st_hashed s = st_hashed s' /\ st_fromchain s = st_fromchain s'.
Proof. unfold erase. intros H. inversion H. auto. Qed.

Lemma cache_hit_erase s s' c : erase s = erase s' -> cache_hit s c = cache_hit s' c.
Proof. intros He. unfold cache_hit. rewrite (proj1 (erase_inv s s' He)). reflexivity. Qed.

Lemma erase_set_cache s s' c l l' b : erase s = erase s' ->
  erase (set_cache s (Some (c, l, b))) = erase (set_cache s' (Some (c, l', b))).
Proof. unfold erase, ecache. cbn. intros H. inversion H. congruence. Qed.

Lemma erase_set_hashed s s' : erase s = erase s' -> erase (set_hashed s) = erase (set_hashed s').
Proof. unfold erase, ecache. cbn. intros H. inversion H. congruence. Qed.

Lemma erase_set_fromchain s s' x : erase s = erase s' -> erase (set_fromchain s x) = erase (set_fromchain s' x).
Proof. unfold erase, ecache. cbn. intros H. inversion H. congruence. Qed.

Definition res_sim (r r' : res) : Prop := is_err r = is_err r' /\ res_bytes r = res_bytes r'.

Lemma bta_sim b l l' : res_sim (bytes_to_address b l) (bytes_to_address b l').
Proof.
  destruct (bta_cases b l) as [E|E], (bta_cases b l') as [E'|E']; rewrite E, E'; split; reflexivity.
Qed.

Lemma sender_step_sim t s s' c l l' : erase s = erase s' ->
  res_sim (fst (sender_step t s c l)) (fst (sender_step t s' c l'))
  /\ erase (snd (sender_step t s c l)) = erase (snd (sender_step t s' c l'))
  /\ (l = l' -> fst (sender_step t s c l) = fst (sender_step t s' c l')).
Proof.
  intros He. rewrite !sender_step_spec.
  destruct (tk t); try (split; [split; reflexivity|split; [exact He|reflexivity]]).
  rewrite (cache_hit_erase s s' c He). destruct (cache_hit s' c) as [from|].
  - split; [apply bta_sim|split; [exact He|intros ->; reflexivity]].
  - destruct (recovered t c) as [a|]; cbn [fst snd].
    + split; [apply bta_sim|]. split; [apply erase_set_cache, He|intros ->; reflexivity].
    + split; [split; reflexivity|split; [exact He|reflexivity]].
Qed.

Lemma hash_step_sim t s s' w : erase s = erase s' -> erase (hash_step t s w) = erase (hash_step t s' w).
Proof.
  intros He. destruct (erase_inv s s' He) as (_ & Hh & _).
  rewrite !hash_step_eq, <- Hh. destruct (st_hashed s); [exact He|].
  destruct (tk t); try (apply erase_set_hashed, He). destruct w; [apply erase_set_hashed, He|].
  destruct (sender_step_sim t s s' (tchain t) [0; 0] [0; 0] He) as ([Hr _] & Hs & _).
  cbv zeta. rewrite <- Hr. destruct (is_err _); [exact Hs|apply erase_set_hashed, Hs].
Qed.

Lemma sop_step_sim t s s' o o' : erase s = erase s' -> sop_sim o o' ->
  erase (snd (sop_step t s o)) = erase (snd (sop_step t s' o'))
  /\ (o = o' -> fst (sop_step t s o) = fst (sop_step t s' o')).
Proof.
  intros He Ho. destruct (erase_inv s s' He) as (Hc & _ & Hf).
  rewrite (sop_step_eq t s o), (sop_step_eq t s' o').
  destruct Ho as [c l l'|c l l'|l l'|a c l l'|w|c l l'|l l']; cbv zeta; cbn [fst snd].
  - destruct (sender_step_sim t s s' c l l' He) as (_ & Hs & Hq).
    split; [exact Hs|]. intros [= <-]. rewrite (Hq eq_refl). reflexivity.
  - split; [exact He|]. intros [= <-]. reflexivity.
  - split; [exact He|]. intros [= <-]. rewrite Hc. reflexivity.
  - split; [apply erase_set_cache, He|reflexivity].
  - split; [|reflexivity]. apply hash_step_sim, He.
  - destruct (sender_step_sim t _ _ c l l' (hash_step_sim t s s' false He)) as (_ & Hs & Hq).
    split; [exact Hs|]. intros [= <-]. rewrite (Hq eq_refl). reflexivity.
  - rewrite <- Hf. destruct (st_fromchain s); [split; [exact He|reflexivity]|].
    destruct (sender_step_sim t s s' (tchain t) l l' He) as ([He1 Hb] & Hs & _).
    rewrite <- He1, <- Hb. destruct (is_err _); [split; [exact He|reflexivity]|].
    split; [apply erase_set_fromchain, Hs|reflexivity].
Qed.

Lemma run_ops_sim t ops ops' : Forall2 sop_sim ops ops' ->
  forall s s', erase s = erase s' -> erase (snd (run_ops t s ops)) = erase (snd (run_ops t s' ops')).
Proof.
  intros H s s'. rewrite !run_ops_state. revert s s'.
  induction H as [|o o' ops ops' Ho _ IH]; intros s s' He; cbn [fold_left]; [exact He|].
  apply IH. exact (proj1 (sop_step_sim t s s' o o' He Ho)).
Qed.

(* the seeded defect seeded/C16_3 as a model variant: on a cache hit the bytes are re-wrapped at the location
   of the signer that FILLED the cache; a query after a plain tx.Hash() shows the difference *)
Definition sender_step_filler_variant (t : txobj) (s : sstate) (chain : N) (l : location) : res :=
  match st_cache s with
  | Some (c, fl, from) => if c =? chain then bytes20_to_address from fl else signer_sender t chain l
  | None => signer_sender t chain l
  end.

Definition witness_tx : txobj :=
  mk_tx TQuai 9 (Some (repeat 0 12 ++ 1 :: 5 :: repeat 7 18)) [] [].   (* sender 01 05 07..: zone (0,1), Quai *)
