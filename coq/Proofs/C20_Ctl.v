(* C20 -- the exchange-rate controller (CalculateKQuai, CalculateBetaFromMiningChoiceAndConversions);
   and [qi_amounts_in_range], the range hypothesis of [conversion_end_to_end] in Props/C20.v. *)
From Coq Require Import List ZArith Bool Lia.
From Coq Require String.
From GQ Require Import Generated.C20Params Model.C20 Lib.Lists Proofs.C20.
Import ListNotations.
Local Open Scope Z_scope.

(* obligations on the controller constants regenerated from params on every run *)
Definition ctl_params_ok : bool :=
  (1 <=? one_over_alpha) && (1 <=? token_choice_set_size) && (0 <=? exchange_rate0)
  && (0 <=? exchange_rate_reset_after_kawpow) && (0 <=? exchange_rate_after_sha_fork)
  && forallb (fun p => (0 <=? snd p) && (snd p <=? 100)) kquai_change_table
  && (controller_kick_in_block + token_choice_set_size <=? kquai_change_block)
  && (kquai_change_block <? kawpow_fork_block) && (kawpow_fork_block <? sha_equivalent_fork_block)
  && (kquai_reset_after_kawpow_fork_block =? kawpow_fork_block)
  && (0 <? exchange_rate_hold_interval) && (0 <? exchange_rate_hold_interval_after_sha)
  && (0 <? kquai_change_hold_interval).
Lemma ctl_params_ok_true : ctl_params_ok = true.
Proof. vm_compute. reflexivity. Qed.

Lemma ctl_params_facts :
  1 <= one_over_alpha /\ 1 <= token_choice_set_size /\ 0 <= exchange_rate0 /\
  0 <= exchange_rate_reset_after_kawpow /\ 0 <= exchange_rate_after_sha_fork /\
  Forall (fun p : Z * Z => 0 <= snd p) kquai_change_table /\
  kawpow_fork_block < sha_equivalent_fork_block /\
  kquai_reset_after_kawpow_fork_block = kawpow_fork_block.
Proof.
  pose proof ctl_params_ok_true as H. unfold ctl_params_ok in H.
  repeat (apply andb_prop in H; destruct H as [H ?]).
  assert (Ht : forallb _ kquai_change_table = true) by eassumption.
  rewrite ?Z.ltb_lt, ?Z.leb_le, ?Z.eqb_eq in *. repeat split; try assumption.
  eapply forallb_Forall; [|exact Ht]. intros p Hp. apply andb_prop in Hp. apply Z.leb_le, Hp.
Qed.

Module CtlDigest.
  Import String.
  (* CalculateKQuai / CalculateBetaFromMiningChoiceAndConversions as reviewed when the model was
     written (statement shapes, see Generated/C20Params.v) *)
  Definition reviewed_kquai_shape_sha256 : string :=
    "25eabcbd7ba97433abc06c92dcde9fd48ae79a98be8b866640f879187d0ad986"%string.
  Definition reviewed_beta_shape_sha256 : string :=
    "f1c76e3b7a23dc98fb485febc27513577adfdd8dfd1b1217698fd546830f6cad"%string.
End CtlDigest.

Lemma kquai_core : forall A k d1 num1 q,
  1 <= A -> 0 <= k -> 0 < d1 -> - d1 <= num1 ->
  q = Z.quot (num1 * k + k * (d1 * A)) (d1 * A) ->
  0 <= q /\ k * (A - 1) - A < q * A /\ (0 <= num1 -> k <= q) /\ (num1 <= 0 -> q <= k).
Proof.
  intros A k d1 num1 q HA Hk Hd Hn Hq.
  assert (Hden : 0 < d1 * A) by nia.
  set (den := d1 * A) in *.
  set (N := num1 * k + k * den) in *.
  assert (HN : N = k * (num1 + den)) by (unfold N; ring).
  assert (Hlow : k * (d1 * (A - 1)) <= N).
  { rewrite HN. apply Z.mul_le_mono_nonneg_l; [assumption|]. unfold den. nia. }
  assert (HN0 : 0 <= N) by nia.
  rewrite Z.quot_div_nonneg in Hq by assumption.
  pose proof (Z.div_mod N den ltac:(lia)) as Hdm.
  pose proof (Z.mod_pos_bound N den Hden) as Hr.
  rewrite <- Hq in Hdm.
  split; [subst q; apply Z.div_pos; assumption|].
  split.
  - (* d1 * (q*A) = den*q = N - r > N - den >= k*d1*(A-1) - d1*A *)
    assert (H1 : d1 * (k * (A - 1) - A) < d1 * (q * A)).
    { replace (d1 * (q * A)) with (den * q) by (unfold den; ring).
      replace (d1 * (k * (A - 1) - A)) with (k * (d1 * (A - 1)) - den) by (unfold den; ring). lia. }
    apply Z.mul_lt_mono_pos_l in H1; assumption.
  - split; intro Hs.
    + subst q. apply Z.div_le_lower_bound; [assumption|]. rewrite HN. nia.
    + subst q. apply Z.div_le_upper_bound; [assumption|]. rewrite HN. nia.
Qed.

Lemma calc_kquai_spec : forall k d d2 bn xb r,
  0 <= k -> 0 <= d -> 0 <= d2 -> 0 <= xb ->
  calc_kquai k d d2 bn xb = Some r ->
  1 <= d /\ 0 <= r /\ k * (one_over_alpha - 1) - one_over_alpha < r * one_over_alpha /\
  (0 < xb * d2 - two64 * d -> k <= r) /\ (xb * d2 - two64 * d <= 0 -> r <= k) /\
  (xb * d2 = two64 * d -> r = k).
Proof.
  intros k d d2 bn xb r Hk Hd Hd2 Hxb H.
  destruct ctl_params_facts as (HA & _). pose proof two64_pos as H64.
  unfold calc_kquai in H.
  set (d1 := two64 * d) in *.
  set (num0 := xb * d2 - d1) in *.
  destruct (Z.eqb_spec (d1 * one_over_alpha) 0) as [E|E]; [discriminate|].
  assert (Hd1 : 0 < d1).
  { assert (0 <= d1) by (unfold d1; nia). assert (d1 <> 0) by (intro Z0; apply E; rewrite Z0; ring). lia. }
  assert (Hdge : 1 <= d) by (unfold d1 in Hd1; nia).
  assert (Hn0 : - d1 <= num0) by (unfold num0; nia).
  set (num1 := if (kquai_change_block <? bn) && (0 <? num0)
               then (if bn <? kawpow_fork_block then num0 / 3 else num0) else num0) in *.
  assert (Hn1 : - d1 <= num1 /\ (0 < num0 -> 0 <= num1) /\ (num0 <= 0 -> num1 = num0)).
  { unfold num1. destruct (kquai_change_block <? bn); cbn [andb]; [|lia].
    destruct (Z.ltb_spec 0 num0); [|lia].
    destruct (bn <? kawpow_fork_block); [|lia].
    assert (0 <= num0 / 3) by (apply Z.div_pos; lia). lia. }
  destruct Hn1 as (Ha & Hb & Hc).
  injection H as H. symmetry in H.
  destruct (kquai_core one_over_alpha k d1 num1 r HA Hk Hd1 Ha H) as (R0 & R1 & R2 & R3).
  fold d1. fold num0.
  repeat split; try assumption; intros Hs.
  - apply R2, Hb, Hs.
  - apply R3. rewrite (Hc Hs). exact Hs.
  - assert (Hz : num0 = 0) by (unfold num0; lia).
    assert (num1 = 0) by (rewrite Hc; lia).
    assert (k <= r) by (apply R2; lia). assert (r <= k) by (apply R3; lia). lia.
Qed.

Definition ctl_ok (c : ctl_in) : Prop :=
  0 <= c_md c /\ 0 <= c_logmd c /\ 0 <= c_logbest c /\
  Forall (fun p => 0 <= fst p /\ 0 <= snd p) (c_runs c).

(* xbStar: the window average of the difficulty, scaled by 2^64 over its logarithm *)
Definition xb_star (c : ctl_in) : Z :=
  total_diff (c_runs c) / token_choice_set_size * two64 / c_logbest c.

Lemma total_diff_nonneg : forall runs,
  Forall (fun p => 0 <= fst p /\ 0 <= snd p) runs -> 0 <= total_diff runs.
Proof.
  induction 1 as [|p l (A & B) _ IH]; cbn [total_diff fold_right]; [lia|].
  unfold total_diff in IH. nia.
Qed.

Lemma xb_star_nonneg : forall c, ctl_ok c -> 0 <= xb_star c.
Proof.
  intros c (_ & _ & Hlb & Hruns). destruct ctl_params_facts as (_ & Hs & _).
  pose proof (total_diff_nonneg _ Hruns). pose proof two64_pos.
  apply Z_div_nonneg_nonneg; [|assumption].
  apply Z.mul_nonneg_nonneg; [apply Z.div_pos|]; lia.
Qed.

Lemma beta_rate_past_window : forall parent c,
  controller_kick_in_block + token_choice_set_size <= c_bn c ->
  beta_rate parent c =
  match fork_override (c_bn c) parent with
  | Some r => Some r
  | None => if c_logbest c =? 0 then None
            else calc_kquai parent (c_md c) (c_logmd c) (c_bn c) (xb_star c)
  end.
Proof.
  intros parent c H. unfold beta_rate.
  destruct (Z.ltb_spec (c_bn c) (controller_kick_in_block + token_choice_set_size)); [lia|reflexivity].
Qed.

Definition regime (f c hold bn parent : Z) : option Z :=
  if bn =? f then Some c else if (f <? bn) && (bn <? f + hold) then Some parent else None.

Lemma regime_reset : forall f c hold parent, regime f c hold f parent = Some c.
Proof. intros. unfold regime. rewrite Z.eqb_refl. reflexivity. Qed.

Lemma regime_hold : forall f c hold bn parent,
  f < bn < f + hold -> regime f c hold bn parent = Some parent.
Proof.
  intros f c hold bn parent H. unfold regime.
  rewrite (proj2 (Z.eqb_neq bn f)), (proj2 (Z.ltb_lt f bn)), (proj2 (Z.ltb_lt bn (f + hold))) by lia. reflexivity.
Qed.

Lemma regime_nonneg : forall f c hold bn parent r,
  0 <= c -> 0 <= parent -> regime f c hold bn parent = Some r -> 0 <= r.
Proof.
  intros f c hold bn parent r Hc Hp H. unfold regime in H.
  destruct (bn =? f); [injection H as <-; exact Hc|].
  destruct (_ && _); [injection H as <-; exact Hp|discriminate H].
Qed.

Lemma fork_override_regimes : forall bn parent,
  fork_override bn parent =
  if bn <? kawpow_fork_block then change_table_scan kquai_change_table bn parent
  else if (kawpow_fork_block <=? bn) && (bn <? sha_equivalent_fork_block)
  then regime kquai_reset_after_kawpow_fork_block exchange_rate_reset_after_kawpow
              exchange_rate_hold_interval bn parent
  else regime sha_equivalent_fork_block exchange_rate_after_sha_fork
              exchange_rate_hold_interval_after_sha bn parent.
Proof. reflexivity. Qed.

Lemma fork_override_kawpow : forall bn parent,
  kawpow_fork_block <= bn < sha_equivalent_fork_block ->
  fork_override bn parent =
  regime kawpow_fork_block exchange_rate_reset_after_kawpow exchange_rate_hold_interval bn parent.
Proof.
  intros bn parent (H1 & H2).
  assert (Hreset : kquai_reset_after_kawpow_fork_block = kawpow_fork_block) by apply ctl_params_facts.
  rewrite fork_override_regimes, Hreset.
  rewrite (proj2 (Z.ltb_ge bn _) H1), (proj2 (Z.leb_le _ bn) H1), (proj2 (Z.ltb_lt bn _) H2). reflexivity.
Qed.

Lemma fork_override_sha : forall bn parent,
  sha_equivalent_fork_block <= bn ->
  fork_override bn parent =
  regime sha_equivalent_fork_block exchange_rate_after_sha_fork exchange_rate_hold_interval_after_sha bn parent.
Proof.
  intros bn parent H1. assert (Horder : kawpow_fork_block < sha_equivalent_fork_block) by apply ctl_params_facts.
  rewrite fork_override_regimes.
  rewrite (proj2 (Z.ltb_ge bn kawpow_fork_block)), (proj2 (Z.ltb_ge bn sha_equivalent_fork_block)) by lia.
  rewrite andb_false_r. reflexivity.
Qed.

Lemma change_table_scan_nonneg : forall tab bn parent r,
  Forall (fun p => 0 <= snd p) tab -> 0 <= exchange_rate0 -> 0 <= parent ->
  change_table_scan tab bn parent = Some r -> 0 <= r.
Proof.
  induction tab as [|[b pct] tab IH]; intros bn parent r Hf H0 Hp H; cbn [change_table_scan] in H.
  - discriminate.
  - inversion Hf as [|x l Hpct Hrest]; subst. cbn [snd] in Hpct.
    destruct (bn =? b).
    + destruct (bn =? kquai_change_block); injection H as H; subst r; [assumption|].
      apply Z.div_pos; nia.
    + destruct ((b <? bn) && (bn <? b + kquai_change_hold_interval)).
      * injection H as H; subst r; assumption.
      * exact (IH bn parent r Hrest H0 Hp H).
Qed.

Lemma fork_override_nonneg : forall bn parent r,
  0 <= parent -> fork_override bn parent = Some r -> 0 <= r.
Proof.
  intros bn parent r Hp H. rewrite fork_override_regimes in H.
  destruct (bn <? kawpow_fork_block).
  - eapply change_table_scan_nonneg; [apply ctl_params_facts|apply ctl_params_facts|exact Hp|exact H].
  - destruct (_ && _); apply regime_nonneg in H; try assumption; apply ctl_params_facts.
Qed.

Lemma beta_rate_nonneg : forall parent c r,
  0 <= parent -> ctl_ok c -> beta_rate parent c = Some r -> 0 <= r.
Proof.
  intros parent c r Hp Hc H.
  destruct (Z.lt_ge_cases (c_bn c) (controller_kick_in_block + token_choice_set_size)) as [Hw|Hw].
  - unfold beta_rate in H. rewrite (proj2 (Z.ltb_lt _ _) Hw) in H. injection H as <-.
    apply ctl_params_facts.
  - rewrite (beta_rate_past_window _ _ Hw) in H.
    destruct (fork_override (c_bn c) parent) as [r'|] eqn:Ef.
    + injection H as <-. exact (fork_override_nonneg _ _ _ Hp Ef).
    + destruct (c_logbest c =? 0); [discriminate|]. pose proof (xb_star_nonneg c Hc) as Hxb.
      destruct Hc as (Hmd & Hlmd & _). apply (calc_kquai_spec _ _ _ _ _ _ Hp Hmd Hlmd Hxb H).
Qed.

Lemma rate_trajectory_nonneg : forall cs k0 k,
  0 <= k0 -> Forall ctl_ok cs -> rate_trajectory k0 cs = Some k -> 0 <= k.
Proof.
  intros cs k0 k H0 Hf. rewrite Forall_forall in Hf.
  apply (fold_left_inv (fun o => forall k, o = Some k -> 0 <= k) ctl_step cs).
  - intros [k1|] c Hc H1 k2 E; [|discriminate E]. exact (beta_rate_nonneg k1 c k2 (H1 k1 eq_refl) (Hf c Hc) E).
  - intros k1 E. injection E as <-. exact H0.
Qed.

Lemma ctl_fold_none : forall cs, fold_left ctl_step cs None = None.
Proof. induction cs; [reflexivity|assumption]. Qed.

(* every intermediate rate of a trajectory is non-negative too *)
Lemma rate_trajectory_prefix_nonneg : forall cs1 cs2 k0 k,
  0 <= k0 -> Forall ctl_ok (cs1 ++ cs2) -> rate_trajectory k0 (cs1 ++ cs2) = Some k ->
  exists k1, rate_trajectory k0 cs1 = Some k1 /\ 0 <= k1 /\ rate_trajectory k1 cs2 = Some k.
Proof.
  intros cs1 cs2 k0 k H0 Hf H. unfold rate_trajectory in *. rewrite fold_left_app in H.
  destruct (fold_left ctl_step cs1 (Some k0)) as [k1|] eqn:E.
  - exists k1. split; [reflexivity|]. split; [|assumption].
    apply Forall_app in Hf. destruct Hf as (Hf1 & _).
    eapply rate_trajectory_nonneg; [exact H0|exact Hf1|exact E].
  - rewrite ctl_fold_none in H. discriminate.
Qed.

(* what [settle] may split into Qi denominations (Quai->Qi: the credit, at most the rate amount of
   the original; Qi->Quai: the refunded original) is below the bound up to which
   FindMinDenominations loses nothing *)
Definition qi_amounts_in_range (h : hdr) (knew : Z) (e : etx) : Prop :=
  if e_toqi e then rate_amount h knew e (e_value e) < two64 * top_den
  else e_value e < two64 * top_den.

(* "the rate stays positive" is FALSE of the code: from 1 a falling step reaches 0, and 0 is
   absorbing for the controller proper (only a fork reset leaves it).  Replayed on the real
   CalculateKQuai by the harness corpus (k = 1 / k = 0). *)
Lemma rate_positive_refuted :
  calc_kquai 1 5000000000000 778177102095775710118 2000000 0 = Some 0 /\
  (forall d d2 bn xb, 1 <= d -> 0 <= d2 -> 0 <= xb -> calc_kquai 0 d d2 bn xb = Some 0).
Proof.
  split; [vm_compute; reflexivity|].
  intros d d2 bn xb Hd Hd2 Hxb. unfold calc_kquai.
  destruct (Z.eqb_spec (two64 * d * one_over_alpha) 0) as [E|E].
  - destruct ctl_params_facts as (HA & _). pose proof two64_pos. nia.
  - f_equal. rewrite Z.mul_0_r, Z.mul_0_l, Z.add_0_l. apply Z.quot_0_l. assumption.
Qed.
