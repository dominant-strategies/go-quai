(* C06 — lemmas about the storage bookkeeping of a state object (Model/C06.v, second part):
   one block's worth of GetState / SetState / CreateAccount followed by the single updateTrie of
   IntermediateRoot gives the same storage content, the same Size and the same words read whether the
   parent state is read through a snapshot layer or through the tries. *)
From Coq Require Import List NArith Bool.
From GQ Require Import Lib.Lists Model.C06.
Import ListNotations.
Local Open Scope N_scope.

Lemma memN_cons : forall k x l, memN k (x :: l) = N.eqb k x || memN k l.
Proof. reflexivity. Qed.

Lemma aget_cons : forall k v m k', aget ((k, v) :: m) k' = if N.eqb k' k then Some v else aget m k'.
Proof. reflexivity. Qed.

Definition has_layer (src : source) : bool := match src with NoSnap => false | _ => true end.

Lemma get_committed_frame : forall src snapv o k,
  so_trie (snd (get_committed src snapv o k)) = so_trie o /\
  so_destructed (snd (get_committed src snapv o k)) = so_destructed o.
Proof.
  intros src snapv o k. unfold get_committed.
  destruct (db_get (so_pending o) k); [auto|]. destruct (aget (so_origin o) k); [auto|].
  destruct src, (so_destructed o); auto.
Qed.

(* [so_trie o = snapv]: an object that was not re-created in this block still has the parent's storage as its trie,
   which is what the layer holds for the account *)
Lemma get_committed_live : forall src snapv o k, so_destructed o = false -> so_trie o = snapv ->
  get_committed src snapv o k = get_committed NoSnap snapv o k.
Proof. intros src snapv o k Hd Ht. unfold get_committed. rewrite Hd, Ht. destruct src; reflexivity. Qed.

(* Left the run without a layer, right the run with one.  A re-created object has an empty trie, so every committed
   word is zero.  The left run caches these zero words, each for a slot it has recorded as unique-new; the right run
   takes the early return of GetCommittedState, caches nothing, and on a second read probes and records the slot
   once more. *)
Inductive srel (snapv : smap) : sobj -> sobj -> Prop :=
| srel_same : forall o, so_destructed o = false -> so_trie o = snapv -> srel snapv o o
| srel_recreated : forall og1 pd uq1 uq2 sz,
    (forall k v, aget og1 k = Some v -> v = 0 /\ memN k uq1 = true) ->
    (forall k, memN k uq1 = memN k uq2) ->
    srel snapv (mkObj [] og1 pd uq1 sz true) (mkObj [] [] pd uq2 sz true).

Lemma get_committed_sim : forall src snapv o1 o2 k, has_layer src = true -> srel snapv o1 o2 ->
  fst (get_committed NoSnap snapv o1 k) = fst (get_committed src snapv o2 k) /\
  srel snapv (snd (get_committed NoSnap snapv o1 k)) (snd (get_committed src snapv o2 k)).
Proof.
  intros src snapv o1 o2 k Hl [o Hd Ht|og1 pd uq1 uq2 sz Hz Hu].
  - rewrite (get_committed_live src snapv o k Hd Ht). split; [reflexivity|].
    destruct (get_committed_frame NoSnap snapv o k) as [Ft Fd]. apply srel_same; congruence.
  - unfold get_committed; cbn [so_trie so_origin so_pending so_uniq so_size so_destructed aget db_get wopt].
    destruct (db_get pd k) as [pv|]; [split; [reflexivity|apply srel_recreated; assumption]|].
    destruct (aget og1 k) as [v|] eqn:E1.
    + (* a cached zero word: the slot is recorded as unique-new already *)
      destruct (Hz k v E1) as [-> Hm].
      assert (Hu2 : forall k', memN k' uq1 = memN k' (k :: uq2)).
      { intros k'. rewrite memN_cons, <- Hu. destruct (N.eqb_spec k' k) as [->|]; [rewrite Hm|]; reflexivity. }
      destruct src; [discriminate Hl| |]; cbn [fst snd]; (split; [reflexivity|apply srel_recreated; assumption]).
    + assert (Hz2 : forall k' v', aget ((k, 0) :: og1) k' = Some v' -> v' = 0 /\ memN k' (k :: uq1) = true).
      { intros k' v'. rewrite aget_cons, memN_cons. destruct (N.eqb k' k); [intros [= <-]; auto|].
        intros H. destruct (Hz k' v' H) as [-> ->]. auto. }
      assert (Hu2 : forall k', memN k' (k :: uq1) = memN k' (k :: uq2)).
      { intros k'. rewrite !memN_cons, Hu. reflexivity. }
      destruct src; [discriminate Hl| |]; cbn [fst snd]; (split; [reflexivity|apply srel_recreated; assumption]).
Qed.

Lemma set_state_sim : forall src snapv o1 o2 k v, has_layer src = true -> srel snapv o1 o2 ->
  srel snapv (set_state NoSnap snapv o1 k v) (set_state src snapv o2 k v).
Proof.
  intros src snapv o1 o2 k v Hl R.
  destruct (get_committed_sim src snapv o1 o2 k Hl R) as (Hv & Hr).
  unfold set_state.
  destruct (get_committed NoSnap snapv o1 k) as [p1 a1].
  destruct (get_committed src snapv o2 k) as [p2 a2].
  cbn [fst snd] in Hv, Hr. subst p2.
  destruct (N.eqb p1 v); [exact Hr|].
  destruct Hr as [o Hd Ht|og1 pd uq1 uq2 sz Hz Hu]; [apply srel_same|apply srel_recreated]; assumption.
Qed.

Lemma recreate_sim : forall snapv c o1 o2, srel snapv o1 o2 -> srel snapv (recreate c o1) (recreate c o2).
Proof.
  intros snapv c o1 o2 R.
  assert (Hs : so_size o1 = so_size o2) by (destruct R; reflexivity).
  unfold recreate. rewrite Hs. apply srel_recreated; [intros k v [=]|reflexivity].
Qed.

(* updateTrie: content and Size depend on the origin cache only through the looked-up word and on the
   unique-new-keys set only through membership *)
Inductive urel : smap * amap * Z -> smap * amap * Z -> Prop :=
| urel_intro : forall tr og1 og2 sz, (forall k, wopt (aget og1 k) = wopt (aget og2 k)) ->
    urel (tr, og1, sz) (tr, og2, sz).

Lemma upd_step_sim : forall uq1 uq2 a1 a2 kv,
  (forall k, memN k uq1 = memN k uq2) -> urel a1 a2 -> urel (upd_step uq1 a1 kv) (upd_step uq2 a2 kv).
Proof.
  intros uq1 uq2 a1 a2 [k v] Hu [tr og1 og2 sz Hw].
  unfold upd_step. rewrite (Hw k), (Hu k).
  assert (Hw' : forall k', wopt (aget ((k, v) :: og1) k') = wopt (aget ((k, v) :: og2) k')).
  { intro k'. rewrite !aget_cons. destruct (N.eqb k' k); auto. }
  destruct (N.eqb v (wopt (aget og2 k))); [exact (urel_intro _ _ _ _ Hw)|].
  destruct (N.eqb v 0); exact (urel_intro _ _ _ _ Hw').
Qed.

Lemma update_trie_sim : forall snapv o1 o2, srel snapv o1 o2 ->
  so_trie (update_trie o1) = so_trie (update_trie o2) /\ so_size (update_trie o1) = so_size (update_trie o2).
Proof.
  intros snapv o1 o2 [o _ _|og1 pd uq1 uq2 sz Hz Hu]; [auto|].
  unfold update_trie; cbn [so_trie so_origin so_pending so_uniq so_size so_destructed].
  destruct pd as [|kv t]; [auto|].
  set (r1 := fold_left (upd_step uq1) (kv :: t) _). set (r2 := fold_left (upd_step uq2) (kv :: t) _).
  assert (U : urel r1 r2).
  { apply (fold_left_sim urel); [apply Forall_forall; intros x _ a1 a2; apply upd_step_sim, Hu|].
    apply urel_intro. intro k. cbn [aget wopt].
    destruct (aget og1 k) as [v|] eqn:E; [destruct (Hz k v E) as [-> _]|]; reflexivity. }
  clearbody r1 r2. destruct U. auto.
Qed.

Definition not_root (o : sop) : bool := match o with SRoot => false | _ => true end.

Lemma run_sto_sim : forall src snapv pre o1 o2, has_layer src = true ->
  forallb not_root pre = true -> srel snapv o1 o2 ->
  sto_obs (run_sto NoSnap snapv o1 (pre ++ [SRoot])) = sto_obs (run_sto src snapv o2 (pre ++ [SRoot])).
Proof.
  intros src snapv pre o1 o2 Hl. revert o1 o2. induction pre as [|op t IH]; intros o1 o2 Hn R.
  - cbn. unfold sto_obs. cbn. destruct (update_trie_sim snapv o1 o2 R) as (A & B). rewrite A, B. reflexivity.
  - cbn in Hn. apply andb_true_iff in Hn. destruct Hn as (Hop & Hn).
    destruct op as [k|k v|c|]; cbn [app run_sto].
    + destruct (get_committed_sim src snapv o1 o2 k Hl R) as (Hv & Hr).
      destruct (get_committed NoSnap snapv o1 k) as [v1 a1].
      destruct (get_committed src snapv o2 k) as [v2 a2].
      cbn in Hv, Hr. subst v2.
      specialize (IH a1 a2 Hn Hr).
      destruct (run_sto NoSnap snapv a1 (t ++ [SRoot])) as [x1 r1].
      destruct (run_sto src snapv a2 (t ++ [SRoot])) as [x2 r2].
      unfold sto_obs in *. cbn in *. inversion IH. reflexivity.
    + apply IH; [exact Hn|apply set_state_sim; assumption].
    + apply IH; [exact Hn|apply recreate_sim, R].
    + cbn in Hop. discriminate.
Qed.
