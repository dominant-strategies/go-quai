(* Minimal big-endian byte encoding of naturals = Go big.Int Bytes() for x >= 0,
   and its inverse = big.Int SetBytes.  0 encodes to the empty string; the
   encoding of n > 0 starts with a non-zero byte.  be_min is be_enc of Lib/C14_BigEndian.v
   (be_min_enc) and of_be is its be_dec, where the facts are proved. *)
From Coq Require Import List NArith.
From GQ Require Import Lib.C14_BigEndian.
Import ListNotations.
Local Open Scope N_scope.

(* big.Int.SetBytes: big-endian, leading zeros ignored *)
Definition of_be_acc (a : N) (l : list N) : N := fold_left (fun x b => x * 256 + b) l a.
Definition of_be (l : list N) : N := of_be_acc 0 l.

(* division by 256 with bit operations (fast under vm_compute) *)
Definition div256 (n : N) : N := N.shiftr n 8.
Definition mod256 (n : N) : N := N.land n 255.

Lemma div256_eq n : div256 n = n / 256.
Proof. unfold div256. rewrite N.shiftr_div_pow2. reflexivity. Qed.
Lemma mod256_eq n : mod256 n = n mod 256.
Proof. unfold mod256. change 255 with (N.ones 8). rewrite N.land_ones. reflexivity. Qed.

(* big.Int.Bytes: digits pushed in front of an accumulator; fuel = bit size *)
Fixpoint be_acc (fuel : nat) (n : N) (acc : list N) : list N :=
  match fuel with
  | O => acc
  | S f => if n =? 0 then acc else be_acc f (div256 n) (mod256 n :: acc)
  end.

Definition be_min (n : N) : list N := be_acc (N.to_nat (N.size n)) n [].

Definition bytes_ok (l : list N) : Prop := Forall (fun b => b < 256) l.

Lemma be_acc_fuel f : forall n acc, be_acc f n acc = be_fuel f n acc.
Proof.
  induction f as [|f IH]; intros n acc; [reflexivity|].
  cbn [be_acc be_fuel]. rewrite IH, div256_eq, mod256_eq. reflexivity.
Qed.

Lemma be_min_enc n : be_min n = be_enc n.
Proof. apply be_acc_fuel. Qed.

Lemma of_be_be_min n : of_be (be_min n) = n.
Proof. rewrite be_min_enc. apply be_dec_enc. Qed.

Lemma be_min_inj a b : be_min a = be_min b -> a = b.
Proof. rewrite !be_min_enc. apply be_enc_inj. Qed.

Lemma be_min_lead n : no_lead0 (be_min n).
Proof. rewrite be_min_enc. apply be_enc_lead. Qed.

Lemma be_min_0 : be_min 0 = [].
Proof. reflexivity. Qed.

Lemma be_min_nil n : be_min n = [] -> n = 0.
Proof. intros H. rewrite <- (of_be_be_min n), H. reflexivity. Qed.

(* no index key equals a key that starts with a zero byte (the 32-byte control cells) *)
Lemma be_min_not_zero_led n k : be_min n <> 0 :: k.
Proof. intros H. pose proof (be_min_lead n) as L. rewrite H in L. exact (L eq_refl). Qed.

Lemma be_min_bytes n : bytes_ok (be_min n).
Proof. rewrite be_min_enc. apply be_enc_wf. Qed.

(* SetBytes ignores leading zero bytes: the control-cell reader is insensitive to padding *)
Lemma of_be_lead0 l : of_be (0 :: l) = of_be l.
Proof. reflexivity. Qed.

Example be_min_examples :
  be_min 0 = [] /\ be_min 1 = [1] /\ be_min 255 = [255] /\ be_min 256 = [1; 0] /\
  be_min 65535 = [255; 255] /\ be_min 65536 = [1; 0; 0] /\ of_be [0; 0; 1; 0] = 256.
Proof. vm_compute. repeat split. Qed.
