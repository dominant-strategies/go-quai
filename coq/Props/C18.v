(* C18 -- A trie's root depends only on its contents, and proofs prove exactly them.
   Property theorems, each followed by [Print Assumptions].
   Model: Model/C18.v   Lemmas: Proofs/C18_*.v

   Vocabulary.  Keys inside the trie are HEX keys (encoding.go:keybytesToHex): nibbles and the
   terminator 16.  [pf t key]: key is neither a strict prefix nor a strict extension of a key stored
   in t; [tk key]: symbols are nibbles except possibly a final terminator; [okdom t]: every stored
   key satisfies tk.  All three hold for keybytesToHex images ([Inv]).  [wf]: canonical form (no
   empty short key, no short node or nil under a short node, full nodes have 17 slots with >= 2
   occupied, no empty value).  None = Go panic. *)
From Coq Require Import List NArith Bool Arith Lia.
From GQ Require Import Lib.Key Model.C18 Proofs.C18_Base Proofs.C18_Ext Proofs.C18_Insert
  Proofs.C18_Delete Proofs.C18_History Proofs.C18_Merkle Proofs.C18_Derive Proofs.C18_Main
  Proofs.C18_Copy Proofs.C18_Db Proofs.C18_Stack Proofs.C18_StackMain.
Import ListNotations.

(* (1) trie.go:insert never panics, keeps the canonical form, stores the value and leaves every
   other key (of the whole HEX key space) untouched. *)
Theorem lookup_insert : forall t key v,
  wf t = true -> okdom t -> pf t key -> tk key -> v <> [] ->
  exists t', insert t key (Val v) = Some t' /\ wf t' = true /\
    forall q, lookup t' q = if keqb q key then Some v else lookup t q.
Proof.
  intros t key v Hw Ho Hp Hk Hv.
  destruct (insert_correct v Hv t key (conj Hw (conj Hp Hk)) Ho) as (t' & Hi & Hw' & Hl).
  exists t'. split; [exact Hi|]. split; [apply wfn_wf, Hw'|exact Hl].
Qed.
Print Assumptions lookup_insert.

(* (2) trie.go:delete never panics, re-establishes the canonical form (node collapse), removes the
   key and nothing else; "not dirty" means the very same tree. *)
Theorem lookup_delete : forall t key,
  wf t = true -> okdom t -> pf t key -> tk key ->
  exists d t', delete t key = Some (d, t') /\ wf t' = true /\
    (forall q, lookup t' q = if keqb q key then None else lookup t q) /\
    (d = false -> t' = t).
Proof.
  intros t key Hw Ho Hp Hk.
  destruct (delete_correct t key (conj Hw (conj Hp Hk)) Ho) as (d & t' & Hd & Hw' & Hl).
  exists d, t'. split; [exact Hd|]. split; [exact Hw'|]. split; [exact Hl|].
  intros ->. exact (delete_clean _ _ _ Hd).
Qed.
Print Assumptions lookup_delete.

(* TryUpdate / TryDelete / TryGet on byte keys: the invariant is kept, the trie is a total map,
   an empty value deletes. *)
Theorem update_refines_map : forall t k v, Inv t -> wf_bytes k ->
  exists t', update t k v = Some t' /\ Inv t' /\ forall k', get t' k' = if keqb k' k then v else get t k'.
Proof. exact update_correct. Qed.
Print Assumptions update_refines_map.

(* every history from the empty trie runs without panic, ends in a canonical trie whose content is
   "last write wins, empty value = absent" *)
Theorem history_refines_map : forall h, wf_hist h ->
  exists t, run Nil h = Some t /\ Inv t /\ forall k, get t k = apply_hist (fun _ => []) h k.
Proof. intros h Hh. exact (run_correct h Nil Inv_nil Hh). Qed.
Print Assumptions history_refines_map.

Theorem reachable_tries_are_canonical : forall t, Inv t ->
  wf t = true /\ (forall q v, lookup t q = Some v -> v <> [] /\ exists k, wf_bytes k /\ q = hex k).
Proof.
  intros t [Hw Hd]. split; [exact Hw|]. intros q v Hq. split.
  - apply (wf_values t Hw q v Hq).
  - apply Hd. congruence.
Qed.
Print Assumptions reachable_tries_are_canonical.

(* (3) the heart: canonical tries are determined by their lookup function ... *)
Theorem wf_extensional : forall a b,
  wf a = true -> wf b = true -> (forall q, lookup a q = lookup b q) -> a = b.
Proof. exact C18_Ext.wf_extensional. Qed.
Print Assumptions wf_extensional.

Theorem content_determines_tree : forall t1 t2, Inv t1 -> Inv t2 ->
  (forall k, wf_bytes k -> get t1 k = get t2 k) -> t1 = t2.
Proof. exact C18_History.content_determines_tree. Qed.
Print Assumptions content_determines_tree.

(* ... hence two histories (inserts, updates, deletes, empty values) with the same final content
   build the same node tree, so the same root for ANY function of the tree, in particular for the
   Merkle root under any hash function and any embedding rule. *)
Theorem root_history_independent : forall h1 h2, wf_hist h1 -> wf_hist h2 ->
  (forall k, wf_bytes k -> apply_hist (fun _ => []) h1 k = apply_hist (fun _ => []) h2 k) ->
  exists t1 t2, run Nil h1 = Some t1 /\ run Nil h2 = Some t2 /\ t1 = t2 /\
    forall (A : Type) (root : node -> A), root t1 = root t2.
Proof.
  intros h1 h2 H1 H2 He. destruct (history_independent h1 h2 H1 H2 He) as (t & R1 & R2).
  exists t, t. repeat split; auto.
Qed.
Print Assumptions root_history_independent.

Theorem merkle_root_history_independent : forall (H : pnode -> N) (small : pnode -> bool) h1 h2,
  wf_hist h1 -> wf_hist h2 ->
  (forall k, wf_bytes k -> apply_hist (fun _ => []) h1 k = apply_hist (fun _ => []) h2 k) ->
  exists t1 t2, run Nil h1 = Some t1 /\ run Nil h2 = Some t2 /\
    root_hash H small t1 = root_hash H small t2.
Proof.
  intros H small h1 h2 H1 H2 He. destruct (history_independent h1 h2 H1 H2 He) as (t & R1 & R2).
  exists t, t. repeat split; auto.
Qed.
Print Assumptions merkle_root_history_independent.

(* (4) VerifyProof against the root: whatever the proof database, a successful verification returns
   exactly the trie's answer for the key (the value, or None = proven absent), or H collides. *)
Theorem proof_sound : forall (H : pnode -> N) (small : pnode -> bool) t k db fuel r,
  Inv t -> wf_bytes k ->
  verify H fuel (root_hash H small t) (hex k) db = Some r ->
  r = lookup t (hex k) \/ collision H.
Proof.
  intros H small t k db fuel r Hi Hk. exact (verify_sound H small fuel t (hex k) db r (Inv_fits t k Hi Hk)).
Qed.
Print Assumptions proof_sound.

(* the proof produced by Prove verifies (presence and absence), for every non-empty trie.
   Full statement without [t <> Nil] is refuted by the model and by the code (next theorem). *)
Theorem proof_complete_partial : forall (H : pnode -> N) (small : pnode -> bool) t k fuel,
  Inv t -> t <> Nil -> wf_bytes k -> length (hex k) < fuel ->
  verify H fuel (root_hash H small t) (hex k) (prove H small t (hex k) true) = Some (lookup t (hex k))
  \/ collision H.
Proof.
  intros H small t k fuel Hi Hn Hk Hf. pose proof (Inv_fits t k Hi Hk) as Hfit.
  apply verify_complete; [exact Hfit|exact Hf|exact (prove_top H small t (hex k) Hfit Hn (hex_not_nil k))].
Qed.
Print Assumptions proof_complete_partial.

(* F-C18-1: on the empty trie Prove emits nothing and VerifyProof rejects the (empty) proof
   instead of proving absence; replayed on the real code by the corpus case "empty". *)
Theorem proof_complete_empty_trie_refuted : forall (H : pnode -> N) (small : pnode -> bool) k fuel,
  prove H small Nil (hex k) true = [] /\
  verify H fuel (root_hash H small Nil) (hex k) (prove H small Nil (hex k) true) = None.
Proof. exact proof_empty_trie_refuted. Qed.
Print Assumptions proof_complete_empty_trie_refuted.

(* (5) DeriveSha feeds every index exactly once; the keys rlp(i) are pairwise distinct for all
   uint64 indices; and they come in strictly ascending byte order (what StackTrie needs).
   The last one is stated for n <= asc_bound; C18_Derive.derive_keys_ascending has it for all
   n <= 2^64 (beyond that rlp.AppendUint64's eight bytes wrap around). *)
Theorem derive_sha_order_each_index_once : forall n,
  NoDup (derive_order n) /\ forall i, In i (derive_order n) <-> (i < n)%N.
Proof. intros n. split; [apply derive_order_nodup|apply derive_order_in]. Qed.
Print Assumptions derive_sha_order_each_index_once.

Theorem derive_sha_keys_distinct : forall n, (n <= 256 ^ 8)%N -> NoDup (map rlp_uint (derive_order n)).
Proof.
  intros n Hn. apply strict_inc_nodup, chain_div_strict_inc, derive_keys_diverge, Hn.
Qed.
Print Assumptions derive_sha_keys_distinct.

Theorem derive_sha_keys_ascending_partial : forall n, (n <= asc_bound)%N ->
  ascb (map rlp_uint (derive_order n)) = true.
Proof. intros n Hn. apply derive_keys_ascending. exact (N.le_trans _ _ _ Hn asc_bound_le). Qed.
Print Assumptions derive_sha_keys_ascending_partial.

(* the correspondence check compares trees with node_eqb: passing means equal *)
Theorem dump_check_is_equality : forall a b, node_eqb a b = true <-> a = b.
Proof. exact node_eqb_eq. Qed.
Print Assumptions dump_check_is_equality.

(* (6) copies (SecureTrie.Copy / CopyTrie / StateDB.Copy): several handles on one trie.  [mrun]
   runs a history whose operations each address one handle; [MCopy h] adds a handle.
   Operations that do not address handle h leave it exactly as it was ... *)
Theorem copy_untouched_is_unchanged : forall ops hs hs' h,
  mrun hs ops = Some hs' -> forallb (fun o => negb (addresses h o)) ops = true -> h < length hs ->
  nth_error hs' h = nth_error hs h.
Proof.
  induction ops as [|o ops IH]; intros hs hs' h Hr Ha Hl; cbn [mrun] in Hr.
  - injection Hr as <-. reflexivity.
  - cbn [forallb] in Ha. apply andb_true_iff in Ha as [Ho Ha].
    destruct o as [h' k v|h']; (destruct (nth_error hs h') as [t|] eqn:Et; [|discriminate]).
    + destruct (update t k v) as [t'|] eqn:Eu; [|discriminate].
      cbn [addresses] in Ho. apply negb_true_iff in Ho. apply Nat.eqb_neq in Ho.
      rewrite (IH _ _ h Hr Ha) by (rewrite set_nth_length; exact Hl).
      apply nth_error_set_nth_neq. congruence.
    + rewrite (IH _ _ h Hr Ha) by (rewrite app_length; cbn; lia).
      apply nth_error_app1. exact Hl.
Qed.
Print Assumptions copy_untouched_is_unchanged.

(* ... no operation on any handle panics and every handle stays a reachable canonical trie ... *)
Theorem copies_never_panic : forall ops hs,
  Forall Inv hs -> wf_mops ops -> in_range (length hs) ops = true ->
  exists hs', mrun hs ops = Some hs' /\ Forall Inv hs'.
Proof.
  induction ops as [|o ops IH]; intros hs Hi Hw Hr.
  - exists hs. auto.
  - inversion Hw as [|? ? Ho Hw']; subst. cbn [in_range] in Hr. cbn [mrun].
    assert (Hget : forall h, h <? length hs = true -> exists t, nth_error hs h = Some t /\ Inv t).
    { intros h Hh%Nat.ltb_lt. destruct (nth_error hs h) as [t|] eqn:Et; [|apply nth_error_None in Et; lia].
      exists t. split; [reflexivity|]. rewrite Forall_forall in Hi. apply Hi. exact (nth_error_In _ _ Et). }
    destruct o as [h k v|h]; apply andb_true_iff in Hr as [Hh Hr]; destruct (Hget h Hh) as (t & -> & Ht).
    + destruct (update_correct t k v Ht Ho) as (t' & -> & Hi' & _).
      apply IH; [apply Forall_set_nth; auto|exact Hw'|rewrite set_nth_length; exact Hr].
    + apply IH; [apply Forall_app; auto|exact Hw'|].
      rewrite app_length. cbn. rewrite Nat.add_1_r. exact Hr.
Qed.
Print Assumptions copies_never_panic.

(* ... each handle (the original and every copy) is the result of its own linear history [mhist]:
   the writes made through it and, up to the copy, through its source; its content is that
   history's "last write wins" and nothing written through another handle shows ... *)
Theorem handle_refines_its_own_history : forall ops ts h t,
  wf_mops ops -> mrun [Nil] ops = Some ts -> nth_error ts h = Some t ->
  exists x, nth_error (mhist [[]] ops) h = Some x /\ wf_hist x /\ run Nil x = Some t /\ Inv t /\
    forall k, get t k = apply_hist (fun _ => []) x k.
Proof.
  intros ops ts h t Hw Hr Hn.
  assert (H0 : Forall2 tracks [Nil] [[]]) by (repeat constructor).
  destruct (Lists.Forall2_nth_l _ _ _ _ _ (mrun_linear ops [Nil] [[]] ts Hw H0 Hr) Hn) as (x & Ex & Hx & Hwx).
  exists x. split; [exact Ex|]. split; [exact Hwx|]. split; [exact Hx|].
  destruct (run_correct x Nil Inv_nil Hwx) as (t' & Hr' & Hi & Hg).
  rewrite Hx in Hr'. injection Hr' as <-. split; [exact Hi|exact Hg].
Qed.
Print Assumptions handle_refines_its_own_history.

(* ... and its node tree -- hence its root under any hash -- is that of a fresh trie built by ANY
   history with the same content (what the harness compares Hash() of every handle with). *)
Theorem handle_is_fresh_trie_of_its_content : forall ops ts h t y,
  wf_mops ops -> mrun [Nil] ops = Some ts -> nth_error ts h = Some t -> wf_hist y ->
  (forall k, wf_bytes k -> get t k = apply_hist (fun _ => []) y k) ->
  run Nil y = Some t.
Proof.
  intros ops ts h t y Hw Hr Hn Hy He.
  destruct (handle_refines_its_own_history ops ts h t Hw Hr Hn) as (x & _ & Hx & Hrx & _ & Hg).
  destruct (history_independent x y Hx Hy) as (t' & R1 & R2).
  - intros k Hk. rewrite <- Hg. apply He, Hk.
  - rewrite Hrx in R1. injection R1 as <-. exact R2.
Qed.
Print Assumptions handle_is_fresh_trie_of_its_content.

(* (7) range proofs (proof.go:VerifyRangeProof).  [strict_inc] is the verifier's monotonicity guard,
   [range_ok t ps]: the list passed the guard and replaying it onto the trie changes nothing (the
   root still matches).  Then every listed pair is held by the trie -- "no proof verifies for a
   different value" for lists.  The correspondence check evaluates range_ok on every list the real
   verifier accepted. *)
Theorem range_guard_is_strict_order : forall ks,
  strict_inc ks = true <-> Sorted.StronglySorted (fun a b => kltb a b = true) ks.
Proof. exact strict_inc_StronglySorted. Qed.
Print Assumptions range_guard_is_strict_order.

Theorem range_guard_excludes_repeated_keys : forall ks, strict_inc ks = true -> NoDup ks.
Proof. exact strict_inc_nodup. Qed.
Print Assumptions range_guard_excludes_repeated_keys.

Theorem range_strict_pairs_are_stored : forall t ps, Inv t -> wf_hist ps -> range_ok t ps = true ->
  forall k v, In (k, v) ps -> get t k = v.
Proof.
  intros t ps Hi Hw Hok k v Hin. apply andb_true_iff in Hok as [Hs Hr].
  destruct (run_correct ps t Hi Hw) as (t' & Hrun & _ & Hg).
  rewrite Hrun in Hr. apply node_eqb_eq in Hr. subst t'.
  rewrite Hg. apply apply_hist_nodup; [apply strict_inc_nodup; exact Hs|exact Hin].
Qed.
Print Assumptions range_strict_pairs_are_stored.

(* the same statement with a NON-strict guard (sorted, equal neighbours allowed) is false: a foreign
   pair (k, bogus) right before the honest (k, stored) is overwritten during the replay.  The
   witness is replayed on the real verifier by the harness corpus (shape dup-adjacent-bogus-before),
   which must reject it. *)
Theorem range_nonstrict_refuted :
  exists t ps, Inv t /\ wf_hist ps /\
    Sorted.Sorted (fun a b => kleb a b = true) (map fst ps) /\
    (match run t ps with Some t' => node_eqb t' t | None => false end) = true /\
    exists k v, In (k, v) ps /\ get t k <> v.
Proof.
  destruct (run_correct [([18;52], [1]); ([18;53], [2]); ([19;0], [3])]%N Nil Inv_nil) as (t & Hr & Hi & _).
  { repeat constructor; vm_compute; reflexivity. }
  exists t, [([18;52], [1]); ([18;53], [238;238]); ([18;53], [2]); ([19;0], [3])]%N.
  split; [exact Hi|]. split; [repeat constructor; vm_compute; reflexivity|].
  vm_compute in Hr. inversion Hr; subst t. clear Hr Hi.
  split; [repeat constructor; vm_compute; reflexivity|].
  split; [vm_compute; reflexivity|].
  exists [18;53]%N, [238;238]%N. split; [right; left; reflexivity|vm_compute; discriminate].
Qed.
Print Assumptions range_nonstrict_refuted.

(* (8) trie.Database (database.go) at the granularity of roots held from the meta root: a root
   stays openable (memory layer or disk) while its number of holders is positive, for every history
   of Trie.Commit / Reference(root, {}) / Dereference(root) / Database.Commit(root) / Cap(0) /
   reopening the database -- in particular when different histories commit the SAME root and each
   of them holds it. *)
Theorem held_root_stays_openable : forall ops r,
  0 < hold (db_run true ops db0) r -> db_openable (db_run true ops db0) r = true.
Proof.
  intros ops r Hh. destruct (db_run_inv ops db0 db_inv0 r) as [D|I]; unfold db_openable.
  - rewrite D. apply orb_true_r.
  - destruct (pres (db_run true ops db0) r); [reflexivity|lia].
Qed.
Print Assumptions held_root_stays_openable.

Theorem persisted_root_stays_openable : forall rd ops s r,
  disk s r = true -> db_openable (db_run rd ops s) r = true.
Proof.
  intros rd ops s r D. unfold db_openable. rewrite (db_run_disk rd ops s r D). apply orb_true_r.
Qed.
Print Assumptions persisted_root_stays_openable.

(* [hold] is the callers' count: +1 per Reference of an openable root, -1 per Dereference *)
Theorem holders_are_references_minus_dereferences : forall rd s r,
  (db_openable s r = true -> hold (db_ref rd s r) r = S (hold s r)) /\
  hold (db_deref s r) r = hold s r - 1.
Proof.
  intros rd s r. unfold db_openable, db_ref, db_deref. split.
  - intros O. destruct (pres s r); cbn [negb orb] in *.
    + destruct (Nat.ltb 0 (mkids s r) && negb rd); fu; rewrite Nat.eqb_refl; reflexivity.
    + rewrite O. fu. rewrite Nat.eqb_refl. reflexivity.
  - destruct (negb (pres s r)); [fu; rewrite Nat.eqb_refl; reflexivity|].
    destruct (Nat.eqb (parents s r - 1) 0); fu; rewrite Nat.eqb_refl; reflexivity.
Qed.
Print Assumptions holders_are_references_minus_dereferences.

(* the exemption that lets the meta root reference one root several times is what the theorem rests
   on: without it, two holders of the same root and one release lose the root *)
Theorem meta_root_exemption_is_needed :
  let ops := [DIns 0; DRef 0; DIns 0; DRef 0; DDeref 0] in
  hold (db_run false ops db0) 0 = 1 /\ db_openable (db_run false ops db0) 0 = false /\
  hold (db_run true ops db0) 0 = 1 /\ db_openable (db_run true ops db0) 0 = true.
Proof. vm_compute. repeat split; reflexivity. Qed.
Print Assumptions meta_root_exemption_is_needed.

Example range_nonvacuous :
  let t := match run Nil [([18;52], [1]); ([18;53], [2]); ([19;0], [3])]%N with Some t => t | None => Nil end in
  range_ok t [([18;52], [1]); ([18;53], [2])]%N = true /\
  range_ok t [([18;52], [1]); ([18;53], [9]); ([18;53], [2])]%N = false /\
  range_ok t [([18;53], [2]); ([18;52], [1])]%N = false /\
  range_ok t [([18;52], [1]); ([18;53], [7])]%N = false.
Proof. vm_compute. repeat split; reflexivity. Qed.

Example db_nonvacuous :
  let s := db_run true [DIns 0; DRef 0; DIns 1; DRef 1; DDeref 0; DIns 1; DRef 1; DDeref 1; DFlush 1; DDeref 1; DReopen] db0 in
  db_openable s 0 = false /\ db_openable s 1 = true /\ hold s 1 = 0 /\
  db_crun db0 [DIns 0; DRef 0; DIns 0; DRef 0; DDeref 0; DObs 0 true; DDeref 0; DObs 0 false] = true /\
  db_crun db0 [DIns 0; DRef 0; DIns 0; DRef 0; DDeref 0; DObs 0 true; DDeref 0; DObs 0 false] = true /\
  db_crun db0 [DIns 0; DRef 0; DIns 0; DRef 0; DDeref 0; DObs 0 false] = false.
Proof. vm_compute. repeat split; reflexivity. Qed.

(* the shape of the seeded change C18_1: two keys under an extension, a copy, the original deletes
   one of them (branch collapses, extension and leaf merge): the copy still is the two-key trie *)
Example copy_nonvacuous :
  let ops := [MUpd 0 [18;52] [1]; MUpd 0 [21;103] [2]; MCopy 0; MUpd 0 [21;103] []; MUpd 1 [18;52] []]%N in
  wf_mops ops /\ in_range 1 ops = true /\
  mrun [Nil] ops = Some [Short [1;2;3;4;16]%N (Val [1%N]); Short [1;5;6;7;16]%N (Val [2%N])] /\
  mhist [[]] ops = [[([18;52], [1]); ([21;103], [2]); ([21;103], [])];
                    [([18;52], [1]); ([21;103], [2]); ([18;52], [])]]%N /\
  mrun [Nil] (firstn 4 ops) = Some [Short [1;2;3;4;16]%N (Val [1%N]);
     Short [1%N] (Full [Nil; Nil; Short [3;4;16]%N (Val [1%N]); Nil; Nil; Short [6;7;16]%N (Val [2%N]);
                        Nil; Nil; Nil; Nil; Nil; Nil; Nil; Nil; Nil; Nil; Nil])].
Proof.
  split; [repeat constructor; vm_compute; reflexivity|].
  vm_compute. repeat split; reflexivity.
Qed.

(* keys that are prefixes of each other ([1] and [1;2]): the value slot of a full node is used, and
   deleting [1;2] collapses the full node back into a single leaf *)
Example trie_nonvacuous :
  run Nil [([1], [7]); ([1;2], [8]); ([1;3], [9])]%N
  = Some (Short [0;1]%N
      (Full [Full [Nil; Nil; Short [16%N] (Val [8%N]); Short [16%N] (Val [9%N]); Nil; Nil; Nil; Nil;
                   Nil; Nil; Nil; Nil; Nil; Nil; Nil; Nil; Nil];
             Nil; Nil; Nil; Nil; Nil; Nil; Nil; Nil; Nil; Nil; Nil; Nil; Nil; Nil; Nil; Val [7%N]])).
Proof. vm_compute. reflexivity. Qed.

Example collapse_nonvacuous :
  run Nil [([1], [7]); ([1;2], [8]); ([1;2], [])]%N = Some (Short [0;1;16]%N (Val [7%N]))
  /\ run Nil [([1;2], [8]); ([1], [7]); ([1;2], [])]%N = run Nil [([1], [7])]%N.
Proof. vm_compute. split; reflexivity. Qed.

Example history_nonvacuous :
  wf_hist [([18;52], [1]); ([18;53], [2]); ([19;0], [3]); ([19;0], [])]%N /\
  run Nil [([18;52], [1]); ([18;53], [2]); ([19;0], [3]); ([19;0], [])]%N
  = run Nil [([18;53], [2]); ([18;52], [1])]%N.
Proof.
  split; [repeat constructor; vm_compute; reflexivity|vm_compute; reflexivity].
Qed.

(* a proof through a hashed child: with H = a toy injective-looking function and nothing embedded *)
Example proof_nonvacuous :
  let H := fun p : pnode => match p with PShort k _ => 1 + N.of_nat (length k) | PFull _ => 100 | _ => 0 end%N in
  let t := match run Nil [([18;52], [1]); ([35;0], [2])]%N with Some t => t | None => Nil end in
  verify H 10 (root_hash H (fun _ => false) t) (hex [18;52]%N) (prove H (fun _ => false) t (hex [18;52]%N) true)
  = Some (Some [1%N]) /\
  length (prove H (fun _ => false) t (hex [18;52]%N) true) = 2.
Proof. vm_compute. split; reflexivity. Qed.

Example derive_order_nonvacuous :
  derive_order 130 = (nrange 1 127 ++ [0] ++ [128; 129])%N /\
  map rlp_uint [127; 0; 128; 256]%N = [[127]; [128]; [129; 128]; [130; 1; 0]]%N.
Proof. vm_compute. split; reflexivity. Qed.

(* ================= extension round: StackTrie (trie/stacktrie.go) =================
   [snode]/[st_insert]/[st_run] model the streaming hasher behind DeriveSha; [to_node s] is the trie a
   StackTrie s stands for (hashed subtrees are kept as ghosts); [on_spine s last]: the key inserted
   last runs along the rightmost path of s, nothing on it is hashed and no branch on it has a child
   right of it; [div_lt a b]: a < b in bytes.Compare order and neither is a prefix of the other;
   [chain_div ks]: consecutive keys of ks satisfy div_lt; [nib k]: k consists of nibbles;
   [okkv]: the key is a byte string and the value is not empty. *)

(* (29) one StackTrie insertion that does not panic is exactly one trie.go:insert on the trie it stands
   for -- for every StackTrie state and every key, in whatever order the keys come. *)
Theorem stacktrie_insert_refines_trie_insert : forall v s key s',
  st_insert s key v = Some s' ->
  insert (to_node s) (key ++ [16%N]) (Val v) = Some (to_node s').
Proof. exact st_insert_sim. Qed.
Print Assumptions stacktrie_insert_refines_trie_insert.

(* (30) a key that diverges upwards from the key inserted last never panics (never reaches a hashed
   node, an existing key or an index out of range) and re-establishes the spine invariant. *)
Theorem stacktrie_ascending_insert_never_panics : forall v s last, on_spine s last ->
  forall key, div_lt last key = true -> nib last -> nib key ->
  exists s', st_insert s key v = Some s' /\ on_spine s' key.
Proof. exact st_insert_ascending. Qed.
Print Assumptions stacktrie_ascending_insert_never_panics.

(* (31) for EVERY ascending prefix-free list of any length: the StackTrie runs without panic and stands
   for exactly the tree trie.Trie builds from the same list. *)
Theorem stacktrie_equals_trie_on_ascending_lists : forall l,
  Forall okkv l -> chain_div (map fst l) = true ->
  exists s, st_run SE l = Some s /\ run Nil l = Some (to_node s).
Proof. exact stack_equals_trie. Qed.
Print Assumptions stacktrie_equals_trie_on_ascending_lists.

(* (32) ... and for the tree ANY history with the same final content builds (inserts in another order,
   overwrites, deletes): same tree, same root under every hash function. *)
Theorem stacktrie_agrees_with_any_history : forall l h,
  Forall okkv l -> chain_div (map fst l) = true -> wf_hist h ->
  (forall k, wf_bytes k -> apply_hist (fun _ => []) l k = apply_hist (fun _ => []) h k) ->
  exists s t, st_run SE l = Some s /\ run Nil h = Some t /\ to_node s = t /\
    forall (A : Type) (root : node -> A), root (to_node s) = root t.
Proof.
  intros l h Hok Hch Hh Hsame.
  destruct (stack_equals_trie l Hok Hch) as (s & Hs & Hl).
  destruct (history_independent l h (Forall_impl _ (fun kv => @proj1 _ _) Hok) Hh Hsame) as (t & H1 & H2).
  rewrite Hl in H1. injection H1 as <-.
  exists s, (to_node s). repeat split; auto.
Qed.
Print Assumptions stacktrie_agrees_with_any_history.

(* (33) the order matters: returning to a subtree that was left, a repeated key and a key that extends
   another one panic (replayed on the real StackTrie by the corpus cases return-to-hashed,
   repeated-key, extension-of-key). *)
Theorem stacktrie_unordered_refuted :
  st_run SE [([16], [1]); ([32], [1]); ([17], [2])]%N = None /\
  st_run SE [([1], [1]); ([1], [2])]%N = None /\
  st_run SE [([1], [1]); ([1; 0], [2])]%N = None.
Proof. vm_compute. repeat split; reflexivity. Qed.
Print Assumptions stacktrie_unordered_refuted.

(* (34) DeriveSha through the StackTrie = DeriveSha through the full trie, for every list of non-empty
   items.  Stated for n <= asc_bound like derive_sha_keys_ascending_partial; C18_StackMain.derive_stack
   has it for all n <= 2^64. *)
Theorem derive_sha_stacktrie_equals_trie_partial : forall (item : N -> list N) n,
  (n <= asc_bound)%N -> (forall i, (i < n)%N -> item i <> []) ->
  exists s, st_run SE (derive_list item n) = Some s /\
            run Nil (derive_list item n) = Some (to_node s).
Proof. intros item n Hn. apply derive_stack. exact (N.le_trans _ _ _ Hn asc_bound_le). Qed.
Print Assumptions derive_sha_stacktrie_equals_trie_partial.

(* three ascending keys: leaf split under a common nibble, then a new branch child; the first two
   subtrees are hashed by then *)
Example stacktrie_nonvacuous :
  Forall okkv [([18], [1]); ([19], [2]); ([32], [3])]%N /\
  chain_div [[18]; [19]; [32]]%N = true /\
  st_run SE [([18], [1]); ([19], [2]); ([32], [3])]%N
  = Some (SB [SE; SH (Full [Nil; Nil; Short [16%N] (Val [1%N]); Short [16%N] (Val [2%N]);
                            Nil; Nil; Nil; Nil; Nil; Nil; Nil; Nil; Nil; Nil; Nil; Nil; Nil]);
              SL [0%N] [3%N]; SE; SE; SE; SE; SE; SE; SE; SE; SE; SE; SE; SE; SE]).
Proof.
  split; [|split; vm_compute; reflexivity].
  repeat constructor; cbn; try discriminate; vm_compute; reflexivity.
Qed.
