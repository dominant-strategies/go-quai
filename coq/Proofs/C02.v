(* C02 — a whole transaction ([apply_tx], or [apply_etx] for an inbound ETX) from the fresh
   per-transaction state [init b] (no account marked self-destructed, empty ETX cache) that every
   transaction starts from after the previous one's Finalize; the booleans of the correspondence
   check decoded; the witness refuting the failed-transaction clause. *)
From Coq Require Import List ZArith NArith Bool Lia.
From GQ Require Import Lib.C02_BMap Model.C02 Proofs.C02_Exec Proofs.C02_Trans.
Import ListNotations.
Local Open Scope Z_scope.

Definition rent_credit (e : env) (s : st) : Z := e_rent e * Z.of_nat (length (rent s)).

Lemma ledger_expand e s : bsum (bal s) = ledger e s - etx_total (etx s) - burn s + rent_credit e s.
Proof. unfold ledger, rent_credit. lia. Qed.

Lemma ledger_init e b : ledger e (init b) = bsum b.
Proof. unfold ledger, init. cbn. lia. Qed.

Lemma rent_inv_init b : rent_inv (init b).
Proof. split; cbn; [constructor|intros a []]. Qed.

Definition wf_tx (e : env) (m : msg) (o : opaque) (top : action) : Prop :=
  0 <= e_rent e /\ wf top = true /\ 0 <= m_price m /\ 0 <= m_value m /\ 0 <= m_gas m /\ wf_opq m o.

Lemma tx_grows (ib : bool) {e m o top s s' r} :
  wf_tx e m o top -> (if ib then apply_etx else apply_tx) e m o top s = (s', r) -> grows s s'.
Proof.
  intros (Hr & W & HP & HV & _ & WO) A NN. destruct (tx_cases ib A) as (s1 & T & ->).
  pose proof (transition_grows Hr W HP HV WO T) as G.
  pose proof (finalised_grows r s1) as F.
  destruct ib.
  - (* what the zero address held before the staging goes back: non-negative because [s] is *)
    exact (grows_trans (grows_stage _ _ s HV) (grows_trans G (grows_trans F (grows_unstage _ _ _ (NN _)))) NN).
  - exact (grows_trans G F NN).
Qed.

Theorem tx_step (ib : bool) {e m o top b s' used failed} :
  wf_tx e m o top -> wf_msg m -> nonneg b ->
  (if ib then apply_etx else apply_tx) e m o top (init b) = (s', RDone used failed) ->
  nonneg (bal s')
  /\ bsum (bal s') = bsum b - charge m (RDone used failed) + (if ib then m_value m else 0)
                     - etx_total (etx s') - burn s' + rent_credit e s'
  /\ 0 <= charge m (RDone used failed) /\ 0 <= etx_total (etx s') /\ 0 <= burn s'.
Proof.
  intros WT WM NN A.
  destruct (tx_grows ib WT A NN) as (N1 & B & _ & _ & _ & XT). cbn in B, XT.
  destruct (tx_cases ib A) as (s1 & T & _).
  destruct WT as (_ & W & HP & _ & _ & WO). pose proof (charge_nonneg HP WO T) as C.
  rewrite (ledger_expand e s'), (tx_ledger ib W WM A), ledger_init. repeat split; try lia. exact N1.
Qed.

Definition wf_txn (t : txn) : Prop :=
  wf_tx (t_env t) (t_msg t) (t_opq t) (t_top t) /\ wf_msg (t_msg t) /\ m_isETX (t_msg t) = t_inbound t.

Lemma txn_hyps_ok_sound t : txn_hyps_ok t = true -> wf_txn t.
Proof.
  unfold txn_hyps_ok. rewrite !andb_true_iff, !Z.leb_le.
  intros (((((((((Hr & W) & HP) & HV) & HG) & G0) & G1) & HR) & HX) & HI).
  unfold wf_txn, wf_tx, wf_opq, wf_msg. repeat split; try assumption.
  - intros X. rewrite X in HX. now apply Z.eqb_eq.
  - now apply eqb_prop.
Qed.

(* the clause "a failed transaction touches only the payer" is FALSE for the faithful model: a top-level
   creation that runs out of gas while storing its code fails, is not reverted, and has moved the endowment *)
Definition w_env : env := mkEnv 1 25000 false 6000000 30000000 0%N.
Definition w_msg : msg := mkMsg 1%N 5 200000 1 false KNormal true 3 0 0 0.
Definition w_opq : opaque := mkOpq true 0 0 false.
Definition w_top : action := ACreate 1%N 2%N 5 2%N [] 2%N.
Definition w_pre : bmap := [(1%N, 1000000)].

Theorem failed_only_payer_refuted :
  exists e m o top s s' used a,
    is_top top = true /\ wf top = true /\
    transition e m o top s = (s', RDone used true) /\ a <> m_from m /\ bget a (bal s') <> bget a (bal s).
Proof.
  exists w_env, w_msg, w_opq, w_top, (init w_pre).
  eexists. eexists. exists 2%N.
  split; [reflexivity|]. split; [reflexivity|]. split; [vm_compute; reflexivity|].
  split; [discriminate|]. vm_compute. discriminate.
Qed.
