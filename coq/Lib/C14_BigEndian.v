(* C14_BigEndian — minimal big-endian byte strings of naturals: Go's big.Int.Bytes()
   / new(big.Int).SetBytes(b), and the length prefix of RLP.

   INTERFACE
     be_enc n : bytes            minimal big-endian bytes, be_enc 0 = []
     be_dec b : N                value of any byte string (leading zeros allowed)
     be_enc_eq      : be_enc n = if n =? 0 then [] else be_enc (n / 256) ++ [n mod 256]
     be_dec_enc     : be_dec (be_enc n) = n
     be_enc_wf      : wf_bytes (be_enc n)
     no_lead0 b, no_lead0b b : b does not start with 0 (no_lead0b_iff)
     be_enc_lead    : no_lead0 (be_enc n)
     be_enc_dec     : wf_bytes b -> no_lead0 b -> be_enc (be_dec b) = b      (canonical strings are fixed points)
     be_enc_inj     : be_enc a = be_enc b -> a = b
     be_enc_length  : n < 256 ^ k -> length (be_enc n) <= k      (be_enc_short: the converse)
     be_dec_bound   : wf_bytes b -> be_dec b < 256 ^ length b
     be_enc_nonzero : n <> 0 -> be_enc n <> []
     be_fuel_enc    : x < 256 ^ f -> be_fuel f x [] = be_enc x      (the loop with f digits as fuel; rlp.AppendUint64 is f = 8)
     be_dec_cons    : be_dec (x :: b) = x * 256 ^ length b + be_dec b
     be_dec_zeros   : be_dec (repeat 0 k ++ b) = be_dec b
   No axioms. *)
From Coq Require Import List NArith Lia Bool.
From GQ Require Import Lib.Key Lib.C14_Varint.
Import ListNotations.
Local Open Scope N_scope.

Fixpoint be_fuel (fuel : nat) (n : N) (acc : bytes) : bytes :=
  match fuel with
  | O => acc
  | S f => if n =? 0 then acc else be_fuel f (n / 256) (n mod 256 :: acc)
  end.
Definition be_enc (n : N) : bytes := be_fuel (N.to_nat (N.size n)) n [].
Definition be_dec (b : bytes) : N := fold_left (fun acc x => acc * 256 + x) b 0.
Definition no_lead0 (b : bytes) : Prop := match b with [] => True | x :: _ => x <> 0 end.
Definition no_lead0b (b : bytes) : bool := match b with [] => true | x :: _ => negb (x =? 0) end.

Lemma no_lead0b_iff b : no_lead0b b = true <-> no_lead0 b.
Proof. destruct b as [|x b]; cbn; [tauto|]. rewrite negb_true_iff. apply N.eqb_neq. Qed.

Lemma be_fuel_acc f : forall n acc, be_fuel f n acc = be_fuel f n [] ++ acc.
Proof.
  induction f as [|f IH]; intros n acc; [reflexivity|]. cbn [be_fuel].
  destruct (n =? 0); [reflexivity|]. rewrite (IH _ (n mod 256 :: acc)), (IH _ [n mod 256]).
  rewrite <- app_assoc. reflexivity.
Qed.

Lemma be_fuel_step f n : be_fuel (S f) n [] = if n =? 0 then [] else be_fuel f (n / 256) [] ++ [n mod 256].
Proof. cbn [be_fuel]. destruct (n =? 0); [reflexivity|apply be_fuel_acc]. Qed.

Lemma be_enc_eq n : be_enc n = if n =? 0 then [] else be_enc (n / 256) ++ [n mod 256].
Proof.
  apply (fuel_eq 256 (fun n rest => if n =? 0 then [] else rest ++ [n mod 256]) (fun f n => be_fuel f n []));
    [discriminate|intros []; reflexivity|exact be_fuel_step].
Qed.

Lemma be_fuel_enc f x : x < 256 ^ N.of_nat f -> be_fuel f x [] = be_enc x.
Proof.
  intros Hx.
  apply (fuel_enough 256 (fun n rest => if n =? 0 then [] else rest ++ [n mod 256]) (fun f n => be_fuel f n []));
    [discriminate|intros []; reflexivity|exact be_fuel_step|exact Hx|apply size_enough; discriminate].
Qed.

Lemma be_enc_0 : be_enc 0 = [].
Proof. reflexivity. Qed.

Lemma be_enc_step n : n <> 0 -> be_enc n = be_enc (n / 256) ++ [n mod 256].
Proof. intros H. rewrite be_enc_eq. apply N.eqb_neq in H. rewrite H. reflexivity. Qed.

Lemma N_ind256 (P : N -> Prop) : P 0 -> (forall n, n <> 0 -> P (n / 256) -> P n) -> forall n, P n.
Proof.
  intros H0 Hs n. induction n as [n IH] using (well_founded_induction N.lt_wf_0).
  destruct (N.eq_dec n 0) as [->|Hn]; [exact H0|]. apply Hs; [exact Hn|]. apply IH. apply N.div_lt; lia.
Qed.

Lemma be_dec_app a x : be_dec (a ++ [x]) = be_dec a * 256 + x.
Proof. unfold be_dec. rewrite fold_left_app. reflexivity. Qed.

Lemma be_dec_cons x b : be_dec (x :: b) = x * 256 ^ N.of_nat (length b) + be_dec b.
Proof.
  induction b as [|y b IH] using rev_ind; [cbn; lia|].
  rewrite app_comm_cons, !be_dec_app, IH, app_length, PeanoNat.Nat.add_1_r, Nat2N.inj_succ, N.pow_succ_r'. ring.
Qed.

Lemma be_dec_zeros k b : be_dec (repeat 0 k ++ b) = be_dec b.
Proof.
  unfold be_dec. rewrite fold_left_app. f_equal.
  induction k as [|k IH]; [reflexivity|]. cbn [repeat fold_left]. exact IH.
Qed.

Theorem be_dec_enc n : be_dec (be_enc n) = n.
Proof.
  induction n as [|n Hn IH] using N_ind256; [reflexivity|].
  rewrite be_enc_step by assumption. rewrite be_dec_app, IH, N.mul_comm.
  symmetry. apply N.div_mod. discriminate.
Qed.

Theorem be_enc_inj a b : be_enc a = be_enc b -> a = b.
Proof. intros H. rewrite <- (be_dec_enc a), <- (be_dec_enc b), H. reflexivity. Qed.

Theorem be_enc_wf n : wf_bytes (be_enc n).
Proof.
  unfold wf_bytes. induction n as [|n Hn IH] using N_ind256; [constructor|].
  rewrite be_enc_step by assumption. apply Forall_app. split; [exact IH|].
  constructor; [|constructor]. apply N.mod_upper_bound. lia.
Qed.

Theorem be_enc_lead n : no_lead0 (be_enc n).
Proof.
  induction n as [|n Hn IH] using N_ind256; [exact I|].
  rewrite be_enc_step by assumption.
  destruct (be_enc (n / 256)) as [|y l] eqn:E; [|exact IH]. cbn [app no_lead0].
  assert (Hq : n / 256 = 0) by (apply be_enc_inj; exact E).
  apply N.div_small_iff in Hq; [|discriminate]. rewrite N.mod_small by exact Hq. exact Hn.
Qed.

Lemma be_enc_snoc v x : x < 256 -> v <> 0 -> be_enc (v * 256 + x) = be_enc v ++ [x].
Proof.
  intros Hx Hv. rewrite be_enc_step by lia.
  replace ((v * 256 + x) / 256) with v by (apply N.div_unique with x; lia).
  replace ((v * 256 + x) mod 256) with x by (apply N.mod_unique with v; lia).
  reflexivity.
Qed.

Lemma be_dec_lead b x : x <> 0 -> be_dec (x :: b) <> 0.
Proof. intros Hx. rewrite be_dec_cons. pose proof (N.pow_nonzero 256 (N.of_nat (length b))). nia. Qed.

Theorem be_enc_dec b : wf_bytes b -> no_lead0 b -> be_enc (be_dec b) = b.
Proof.
  induction b as [|y b IH] using rev_ind; intros W L; [reflexivity|].
  apply Forall_app in W as [Wb Wy]. inversion Wy as [|? ? Hy _]; subst.
  rewrite be_dec_app. destruct b as [|x b].
  - cbn in L. cbn [be_dec fold_left app]. replace (0 * 256 + y) with y by lia.
    rewrite be_enc_step by assumption. rewrite N.div_small, N.mod_small by assumption. reflexivity.
  - cbn in L. rewrite be_enc_snoc; [|assumption|apply be_dec_lead; assumption].
    rewrite IH; [reflexivity|assumption|exact L].
Qed.

Theorem be_dec_bound b : wf_bytes b -> be_dec b < 256 ^ N.of_nat (length b).
Proof.
  induction b as [|y b IH] using rev_ind; intros W; [cbn; lia|].
  apply Forall_app in W as [Wb Wy]. inversion Wy as [|? ? Hy _]; subst.
  rewrite be_dec_app, app_length. cbn [length].
  replace (N.of_nat (length b + 1)) with (N.succ (N.of_nat (length b))) by lia.
  rewrite N.pow_succ_r'. specialize (IH Wb). lia.
Qed.

Theorem be_enc_length n : forall k, n < 256 ^ N.of_nat k -> (length (be_enc n) <= k)%nat.
Proof.
  intros k H. pose proof (be_enc_lead n) as L. pose proof (be_dec_enc n) as D.
  destruct (be_enc n) as [|x b]; [cbn; lia|]. cbn [no_lead0 length] in *. rewrite be_dec_cons in D.
  (* the leading byte is not 0, so n is worth 256^|b| at least *)
  assert (P : 256 ^ N.of_nat (length b) < 256 ^ N.of_nat k) by nia.
  apply N.pow_lt_mono_r_iff in P; lia.
Qed.

Theorem be_enc_short n k : (length (be_enc n) <= k)%nat -> n < 256 ^ N.of_nat k.
Proof.
  intros L. pose proof (be_dec_bound (be_enc n) (be_enc_wf n)) as B. rewrite be_dec_enc in B.
  eapply N.lt_le_trans; [exact B|]. apply N.pow_le_mono_r; lia.
Qed.

Lemma be_enc_nonzero n : n <> 0 -> be_enc n <> [].
Proof. intros H E. apply H. apply be_enc_inj. rewrite E. reflexivity. Qed.
