(* C01 -- ProcessQiTx is parametric in the store: a map between two stores that commutes with delete / create and,
   under an invariant these keep, with lookup, carries verdicts and results across.
   Instance: a tracking (db, batch) view and the flat ledger it would commit. *)
From Coq Require Import List NArith Bool.
From GQ Require Import Lib.Key Lib.SMap Lib.Lists Generated.C01Params Model.C01 Proofs.C01_View.
Import ListNotations.
Local Open Scope N_scope.

Section Sim.
Context {S1 S2 : Type} (st1 : store S1) (st2 : store S2) (ok : S1 -> Prop) (h : S1 -> S2).
Hypothesis h_get : forall s k, ok s -> st_get st1 s k = st_get st2 (h s) k.
Hypothesis ok_del : forall s k, ok s -> ok (st_del st1 s k).
Hypothesis h_del : forall s k, h (st_del st1 s k) = st_del st2 (h s) k.
Hypothesis ok_put : forall s k u, ok s -> ok (st_put st1 s k u).
Hypothesis h_put : forall s k u, h (st_put st1 s k u) = st_put st2 (h s) k u.

Definition ia_map (a : iacc (S:=S1)) : iacc (S:=S2) :=
  mkIA (h (ia_store a)) (ia_addrs a) (ia_total a) (ia_dens a) (ia_spent a).
Definition b_map (b : bst (S:=S1)) : bst (S:=S2) :=
  mkB (h (b_store b)) (b_gp b) (b_used b) (b_rlim b) (b_plim b) (b_first b).

Lemma in_step_sim c cs gp a i : ok (ia_store a) ->
  match in_step st1 c cs gp a i with
  | Ok a' => ok (ia_store a') /\ in_step st2 c cs gp (ia_map a) i = Ok (ia_map a')
  | Err e g => in_step st2 c cs gp (ia_map a) i = Err e g
  end.
Proof.
  intros H. unfold in_step. cbn [ia_map ia_store ia_addrs ia_total ia_dens ia_spent].
  rewrite (h_get _ (i_op i) H).
  destruct (st_get st2 (h (ia_store a)) (i_op i)) as [u|]; [|reflexivity].
  destruct (c_height c <? u_lock u); [reflexivity|].
  destruct (negb (is_qi (i_pkaddr i))); [reflexivity|].
  destruct (negb (keqb (i_pkaddr i) (u_owner u))); [reflexivity|].
  destruct (cs && negb (i_pkparse i)); [reflexivity|].
  destruct (max_denomination <? u_den u); [reflexivity|].
  split; [apply ok_del; exact H|]. unfold ia_map. cbn [ia_store ia_addrs ia_total ia_dens ia_spent]. rewrite h_del. reflexivity.
Qed.

Lemma in_loop_sim c cs gp ins : forall a, ok (ia_store a) ->
  match in_loop st1 c cs gp a ins with
  | Ok a' => ok (ia_store a') /\ in_loop st2 c cs gp (ia_map a) ins = Ok (ia_map a')
  | Err e g => in_loop st2 c cs gp (ia_map a) ins = Err e g
  end.
Proof.
  induction ins as [|i r IH]; intros a H; cbn [in_loop]; [auto|].
  pose proof (in_step_sim c cs gp a i H) as Hs.
  destruct (in_step st1 c cs gp a i) as [a'|e g]; [|rewrite Hs; reflexivity].
  destruct Hs as (H' & ->). apply IH. exact H'.
Qed.

Lemma put_all_sim cs : forall s, ok s -> ok (put_all st1 s cs) /\ h (put_all st1 s cs) = put_all st2 (h s) cs.
Proof.
  intros s H. apply (fold_left_sim (fun s t => ok s /\ h s = t)); [|auto].
  apply Forall_forall. intros kv _ s1 s2 (H1 & <-). auto.
Qed.

Lemma process_qi_sim c t b : ok (b_store b) ->
  match process_qi st1 c b t with
  | Ok (b', r) => ok (b_store b') /\ process_qi st2 c (b_map b) t = Ok (b_map b', r)
  | Err e g => process_qi st2 c (b_map b) t = Err e g
  end.
Proof.
  intros H. unfold process_qi. cbn [b_map b_store b_gp b_used b_rlim b_plim b_first].
  destruct (sanity t); [reflexivity|].
  destruct (b_gp b <? t_intrinsic t); [reflexivity|].
  destruct (c_gaslimit c <? b_used b + t_intrinsic t); [reflexivity|].
  pose proof (in_loop_sim c (t_checksig t) (b_gp b - t_intrinsic t) (t_ins t) (mkIA (b_store b) [] 0 [] []) H) as HL.
  unfold ia_map in HL. cbn [ia_store ia_addrs ia_total ia_dens ia_spent] in HL.
  destruct (in_loop st1 _ _ _ _ _) as [ia|e1 g1]; [|rewrite HL; reflexivity].
  destruct HL as (H' & ->). cbn [ia_store ia_addrs ia_total ia_dens ia_spent].
  destruct (post_inputs false c _ _ t _ _ _ _) as [p|e g]; [|reflexivity].
  destruct (negb (b_first b) && _); [reflexivity|].
  destruct (t_checksig t && negb (t_sigok t)); [reflexivity|].
  destruct (put_all_sim (p_creates p) _ H') as (Hok & E). split; [exact Hok|].
  unfold b_map. cbn [b_store b_gp b_used b_rlim b_plim b_first]. rewrite E. reflexivity.
Qed.

Lemma run_txs_sim c txs : forall b, ok (b_store b) ->
  run_txs st2 c (b_map b) txs = (fst (run_txs st1 c b txs), option_map b_map (snd (run_txs st1 c b txs))).
Proof.
  induction txs as [|t r IH]; intros b H; cbn [run_txs]; [reflexivity|].
  pose proof (process_qi_sim c t b H) as Hs.
  destruct (process_qi st1 c b t) as [[b1 x]|]; [|rewrite Hs; reflexivity].
  destruct Hs as (H1 & ->). rewrite (IH b1 H1). destruct (run_txs st1 c b1 r) as [rs o]. reflexivity.
Qed.

End Sim.

Definition flat (b : bst (S:=view)) : bst (S:=ledger) := b_map commit b.

Lemma process_qi_view c (b b' : bst (S:=view)) t r :
  view_ok (b_store b) -> process_qi view_store c b t = Ok (b', r) ->
  process_qi ledger_store c (flat b) t = Ok (flat b', r) /\ view_ok (b_store b').
Proof.
  intros Hv H.
  pose proof (process_qi_sim view_store ledger_store view_ok commit v_get_commit v_del_ok commit_del v_put_ok commit_put c t b Hv) as Hs.
  rewrite H in Hs. exact (conj (proj2 Hs) (proj1 Hs)).
Qed.

Lemma run_txs_view_ref c txs v : view_ok v ->
  run_txs ledger_store c (init_bst c (commit v)) txs
  = (fst (run_txs view_store c (init_bst c v) txs), option_map flat (snd (run_txs view_store c (init_bst c v) txs))).
Proof. exact (run_txs_sim view_store ledger_store view_ok commit v_get_commit v_del_ok commit_del v_put_ok commit_put c txs (init_bst c v)). Qed.

Lemma run_block_tracked_ref (l : ledger) c txs : sorted l -> run_block true l c txs = run_block_ref l c txs.
Proof.
  intros S. pose proof (run_txs_view_ref c txs (view_of true l) (view_of_ok l S)) as E. rewrite commit_view_of in E.
  unfold run_block, run_block_ref. rewrite E.
  destruct (run_txs view_store c (init_bst c (view_of true l)) txs) as [rs [b|]]; reflexivity.
Qed.
