(* C01 -- the pool's senders cache in the Qi authorisation path.
   StateProcessor.Process calls ProcessQiTx with checkSig = (tx.Hash() not in pool.senders); an entry of
   that cache therefore stands for "signature verified".  Model/C01.v: pool_admit / pool_gossip (addQiTxs,
   addQiTxsWithoutValidationLocked), via_cache / run_block_via_pool (Process). *)
From Coq Require Import List NArith.
From GQ Require Import Lib.Lists Model.C01 Proofs.C01_Steps Proofs.C01_Ledger Proofs.C01.
Import ListNotations.
Local Open Scope N_scope.

Definition cache_sound (seen : list tx) (cache : list (list N)) : Prop :=
  forall h, In h cache -> exists t, In t seen /\ t_hash t = h /\ t_sigok t = true.

Lemma pool_admit_facts outs_ok c l t : pool_admit outs_ok c l t = true ->
  validate_inputs c l t = true /\ t_sigok t = true.
Proof. unfold pool_admit. intros H. apply andb_prop in H as (H1 & H2). apply andb_prop in H1 as (H1 & _). auto. Qed.

Lemma pool_gossip_sound outs_ok c l seen cache txs :
  cache_sound seen cache -> cache_sound (seen ++ txs) (pool_gossip outs_ok c l cache txs).
Proof.
  intros Hs h Hin. unfold pool_gossip in Hin. apply in_app_or in Hin as [Hin|Hin].
  - destruct (Hs h Hin) as (t & Ht & Hh & Hok). exists t. split; [apply in_or_app; left; exact Ht|auto].
  - apply in_map_iff in Hin as (t & Hh & Hf). apply filter_In in Hf as (Ht & Ha).
    apply pool_admit_facts in Ha as (_ & Hok). exists t. split; [apply in_or_app; right; exact Ht|auto].
Qed.

Fixpoint gossip_history (outs_ok : tx -> bool) (cache : list (list N)) (hs : list (ctx * ledger * list tx))
  : list (list N) :=
  match hs with
  | [] => cache
  | (c, l, txs) :: r => gossip_history outs_ok (pool_gossip outs_ok c l cache txs) r
  end.

Lemma gossip_history_sound outs_ok : forall hs seen cache,
  cache_sound seen cache ->
  cache_sound (seen ++ concat (map snd hs)) (gossip_history outs_ok cache hs).
Proof.
  induction hs as [|[[c l] txs] r IH]; intros seen cache Hs; cbn [gossip_history map concat snd].
  - rewrite app_nil_r. exact Hs.
  - rewrite app_assoc. apply IH. apply pool_gossip_sound. exact Hs.
Qed.

Lemma cache_only_verified outs_ok hs :
  cache_sound (concat (map snd hs)) (gossip_history outs_ok [] hs).
Proof. apply (gossip_history_sound outs_ok hs [] []). intros h []. Qed.

Definition signed_or_collision (seen : list tx) (t : tx) : Prop :=
  t_sigok t = true
  \/ exists t', In t' seen /\ t_hash t' = t_hash t /\ t_sigok t' = true /\ t_sigok t = false.

Lemma via_pool_authorised seen cache (l : ledger) c txs rs l' :
  cache_sound seen cache ->
  run_block_via_pool cache l c txs = (rs, true, l') ->
  Forall (fun t => t_ins t <> [] /\ signed_or_collision seen t) txs.
Proof.
  intros Hs H.
  apply run_block_facts, (Forall2_left _ (fun t => (t_checksig t = true -> t_sigok t = true) /\ t_ins t <> [])) in H;
    [|intros t r F; exact (conj (tf_signed F) (tf_has_inputs F))].
  apply Forall_map in H. eapply Forall_impl; [|exact H]. intros t (Hsig & Hins).
  unfold via_cache, set_checksig in Hsig, Hins. cbn [t_checksig t_sigok t_ins] in Hsig, Hins.
  split; [exact Hins|]. unfold signed_or_collision.
  destruct (amem (t_hash t) cache) eqn:Em; cbn [negb] in Hsig.
  - apply amem_In in Em. destruct (Hs _ Em) as (t' & Ht' & Hh & Hok).
    destruct (t_sigok t) eqn:Eo; [left; reflexivity|]. right. exists t'. auto.
  - left. apply Hsig. reflexivity.
Qed.

(* the spend x_tx1 carrying the owner's key but NOT signed by it (another signature, hence another hash) *)
Definition p_forged : tx :=
  mkTx (repeat 13 32) true (t_ins x_tx1) (t_outs x_tx1) [] (t_intrinsic x_tx1) true false.
