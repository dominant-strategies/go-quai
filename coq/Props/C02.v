(* C02 — Quai ledger: executing a transaction never creates value.
   Property theorems, each followed by [Print Assumptions], and non-vacuity examples.
   Model: Model/C02.v   Lemmas: Proofs/C02_Exec.v (effect tree), Proofs/C02_Trans.v (message), Proofs/C02_Out.v
   (outbound set), Proofs/C02.v (transaction from a fresh state), Proofs/C02_Fees.v (hypotheses of 33-35)
   Reading guide: [init b] is the per-transaction state over balances [b]; [apply_tx] = core.ApplyMessage
   followed by StateDB.Finalize (an ordinary Quai transaction), [apply_etx] = the same wrapped in the
   staging of an inbound ETX's value on the zone's zero address; [top] is the balance-relevant effect tree
   of ARBITRARY bytecode (unbounded depth and width); [charge] is what the fee payer loses to gas;
   [etx_total] sums value+fee debited for the emitted ETXs; [burn] is value destroyed; [rent_credit] is
   (base fee x CallNewAccountGas) x number of rent refunds granted. *)
From Coq Require Import List ZArith NArith Bool Lia.
From GQ Require Import Lib.Lists Lib.C02_BMap Generated.C02Sites Model.C02 Proofs.C02_Exec Proofs.C02_Trans Proofs.C02_Out Proofs.C02 Proofs.C02_Fees.
Import ListNotations.
Local Open Scope Z_scope.

(* 1. Conservation, exact, for every message and every effect tree. *)
Theorem transition_conserves : forall e m o top b s' used failed,
  wf top = true -> wf_msg m ->
  apply_tx e m o top (init b) = (s', RDone used failed) ->
  bsum (bal s') = bsum b - charge m (RDone used failed) - etx_total (etx s') - burn s' + rent_credit e s'.
Proof.
  intros e m o top b s' used failed W WM A.
  rewrite (ledger_expand e s'), (tx_ledger false W WM A), ledger_init. lia.
Qed.
Print Assumptions transition_conserves.

(* 1b. The same between two arbitrary intermediate states of ApplyMessage (no fresh-state assumption). *)
Theorem transition_conserves_any_state : forall e m o top s s' used failed,
  wf top = true -> wf_msg m ->
  transition e m o top s = (s', RDone used failed) ->
  bsum (bal s') = bsum (bal s) - charge m (RDone used failed)
                  - (etx_total (etx s') - etx_total (etx s)) - (burn s' - burn s)
                  + (rent_credit e s' - rent_credit e s).
Proof.
  intros e m o top s s' used failed W WM T.
  rewrite (ledger_expand e s'), (ledger_expand e s), (transition_ledger W WM T). lia.
Qed.
Print Assumptions transition_conserves_any_state.

(* 2. Never creates: the only upward term is the rent refund; ETX debits and destroyed value are >= 0. *)
Theorem never_creates_value : forall e m o top b s' used failed,
  wf_tx e m o top -> wf_msg m -> nonneg b ->
  apply_tx e m o top (init b) = (s', RDone used failed) ->
  bsum (bal s') <= bsum b - charge m (RDone used failed) + rent_credit e s'
  /\ 0 <= etx_total (etx s') /\ 0 <= burn s'.
Proof.
  intros e m o top b s' used failed WT WM NN A.
  destruct (tx_step false WT WM NN A) as (_ & E & _ & X & B).
  cbv iota in E. lia.
Qed.
Print Assumptions never_creates_value.

(* 3. The rent refund is granted at most once per account and transaction after the fork,
      and only to accounts that end the transaction self-destructed. *)
Theorem rent_refund_at_most_once : forall e m o top b s' r,
  e_prefork e = false -> wf top = true ->
  apply_tx e m o top (init b) = (s', r) ->
  NoDup (rent s') /\ (forall a, In a (rent s') -> mem a (sui s') = true)
  /\ Z.of_nat (length (rent s')) <= Z.of_nat (length (nodup N.eq_dec (sui s'))).
Proof.
  intros e m o top b s' r PF W A. destruct (tx_cases false A) as (s1 & T & ->).
  destruct (finalised_fields r s1) as (-> & _ & ->).
  destruct (transition_rent_once PF W T (rent_inv_init b)) as [ND IN].
  repeat split; auto. apply Nat2Z.inj_le, NoDup_incl_length; [exact ND|].
  intros a Ha. apply nodup_In, mem_true, IN, Ha.
Qed.
Print Assumptions rent_refund_at_most_once.

(* 4. No balance ever becomes negative (ordinary transaction / inbound ETX; any outcome). *)
Theorem no_negative_balance : forall e m o top b s' r,
  wf_tx e m o top -> nonneg b -> apply_tx e m o top (init b) = (s', r) -> nonneg (bal s').
Proof. intros e m o top b s' r WT NN A. exact (proj1 (tx_grows false WT A NN)). Qed.
Print Assumptions no_negative_balance.

Theorem no_negative_balance_inbound_etx : forall e m o top b s' r,
  wf_tx e m o top -> nonneg b -> apply_etx e m o top (init b) = (s', r) -> nonneg (bal s').
Proof. intros e m o top b s' r WT NN A. exact (proj1 (tx_grows true WT A NN)). Qed.
Print Assumptions no_negative_balance_inbound_etx.

(* 4b. ... and inside the execution: every action keeps balances non-negative, only lets the ETX
       debits, the destroyed value, the refund list and the self-destructed set grow. *)
Theorem action_keeps_nonneg : forall e a, 0 <= e_rent e -> wf a = true -> forall s, grows s (exec e a s).
Proof. exact exec_grows. Qed.
Print Assumptions action_keeps_nonneg.

(* 5. Gas: 0 <= used <= limit, used x price <= charged <= limit x price, equality on the executed path;
      the payer could afford limit x price + value. *)
Theorem gas_charge_bounds : forall e m o top s s' used failed,
  m_isETX m = false -> 0 <= m_price m -> wf_opq m o -> wf_shape m ->
  transition e m o top s = (s', RDone used failed) ->
  0 <= used <= m_gas m
  /\ used * m_price m <= charge m (RDone used failed) <= m_gas m * m_price m
  /\ (m_kind m = KNormal -> charge m (RDone used failed) = used * m_price m)
  /\ bget (m_from m) (bal s) >= m_gas m * m_price m + m_value m.
Proof.
  intros e m o top s s' used failed X HP WO WS T. apply transition_cases in T. unfold charge. rewrite X.
  destruct (intrinsic_ge m WS) as [IG0 IG1]. pose proof (gas_back_bounds m o WO) as GB.
  inversion T as [|X'| |err A I K|ben A I K|A I K]; subst; [congruence|..];
    specialize (A X); rewrite K; repeat split; try nia; discriminate.
Qed.
Print Assumptions gas_charge_bounds.

(* 6. A failed transaction touches only the fee payer.
   FULL statement (as in the property): for every top-level action, failed = true implies that every
   balance except the payer's is unchanged.  It is FALSE for the faithful model and for the code:
   EVM.create does not revert on ErrCodeStoreOutOfGas (core/vm/evm.go: `if err != nil && err !=
   ErrCodeStoreOutOfGas { revertToSnapshot }`, the Homestead condition of go-ethereum is gone), so a
   top-level creation that cannot pay for storing its code fails with the endowment moved and every
   effect of the init code kept.  Refuted by the witness below (replayed on the real code by the
   harness corpus case "top-level creation: code storage out of gas"); proved for everything else. *)
Theorem failed_tx_touches_only_payer_refuted :
  exists e m o top s s' used a,
    is_top top = true /\ wf top = true /\
    transition e m o top s = (s', RDone used true) /\ a <> m_from m /\ bget a (bal s') <> bget a (bal s).
Proof. exact failed_only_payer_refuted. Qed.
Print Assumptions failed_tx_touches_only_payer_refuted.

Theorem failed_tx_touches_only_payer_partial : forall e m o top s s' used,
  is_top top = true -> store_oog top = false ->
  transition e m o top s = (s', RDone used true) ->
  (forall a, a <> m_from m -> bget a (bal s') = bget a (bal s))
  /\ sui s' = sui s /\ etx s' = etx s /\ burn s' = burn s /\ rent s' = rent s.
Proof.
  intros e m o top s s' used TT SO T. apply transition_cases in T.
  pose proof (buy_only_payer m s) as B.
  inversion T as [|X| |err A I K|ben A I K|A I K Es [Eu F]]; subst; [repeat split; reflexivity|exact B|].
  destruct (core_inj _ _ (top_failed_neutral e top (buy m s) o TT SO F)) as (Cb & Cs & Ce & Cu & Cr).
  destruct B as (Bb & Bs & Be & Bu & Br). cbn [bal sui etx burn rent p_add].
  rewrite Cb, Cs, Ce, Cu, Cr. repeat split; try assumption.
  intros a Ha. now rewrite bget_bset_other, Bb.
Qed.
Print Assumptions failed_tx_touches_only_payer_partial.

(* 6b. A message refused with a consensus error changed nothing, or only debited the payer's gas
       purchase (intrinsic-gas / clause-6 refusals come after buyGas; the caller discards the state). *)
Theorem invalid_tx_touches_only_payer : forall e m o top s s',
  transition e m o top s = (s', RInvalid) ->
  s' = s \/ (m_isETX m = false /\ s' = p_sub (m_from m) (m_gas m * m_price m) s).
Proof.
  intros e m o top s s' T. apply transition_cases in T.
  inversion T as [| |A| | |]; subst; [now left|]. unfold buy. destruct (m_isETX m); [now left|now right].
Qed.
Print Assumptions invalid_tx_touches_only_payer.

(* 7. A reverted frame is balance-neutral: balances, self-destruct marks, ETX cache and the ghosts
      are exactly those at frame entry, whatever ran inside. *)
Theorem reverted_frame_balance_neutral : forall e a s,
  reverted_frame a = true -> core (exec e a s) = core s.
Proof. exact reverted_frame_neutral. Qed.
Print Assumptions reverted_frame_balance_neutral.

(* 7b. The outbound set.  [live_sends a] lists, from the tree alone, the sends recorded by operations that
       are not inside a frame that failed and was rolled back (any frame kind: CALL, CALLCODE, DELEGATECALL,
       STATICCALL, CREATE/CREATE2, out-of-zone CALL).  Whatever runs, from whatever state, the ETX cache
       grows by a subsequence of that list, in order: an ETX recorded inside a frame that later fails - at
       any depth below it - never stays in the outbound set. *)
Theorem outbound_only_from_surviving_sends : forall e a s,
  exists d, etx (exec e a s) = etx s ++ d /\ sublist d (live_sends a).
Proof. exact exec_outbound. Qed.
Print Assumptions outbound_only_from_surviving_sends.

Theorem failed_frame_emits_no_etx : forall e a s,
  reverted_frame a = true -> etx (exec e a s) = etx s.
Proof. intros e a s H. now destruct (core_inj _ _ (reverted_frame_neutral e a s H)) as (_ & _ & E & _). Qed.
Print Assumptions failed_frame_emits_no_etx.

(* 7c. ... and for the whole transaction (any message kind, any outcome, Finalize included): the ETXs of
       the result are a subsequence of the surviving sends of the top-level action.  With theorem 1 (the
       balances dropped by the debits of exactly the ETXs of the result) no ETX leaves that nobody paid. *)
Theorem result_etxs_only_from_surviving_sends : forall e m o top b s' r,
  apply_tx e m o top (init b) = (s', r) ->
  sublist (etx s') (live_sends top)
  /\ (forall x, In x (etx s') -> In x (live_sends top))
  /\ (length (etx s') <= length (live_sends top))%nat.
Proof.
  intros e m o top b s' r A. destruct (tx_cases false A) as (s1 & T & ->).
  destruct (finalised_fields r s1) as (_ & -> & _).
  destruct (transition_outbound T) as (d & -> & S). cbn [etx init app].
  split; [exact S|]. split; [intros x; now apply sublist_in|now apply sublist_length].
Qed.
Print Assumptions result_etxs_only_from_surviving_sends.

(* 8. Every action conserves the ledger (balances + ETX debits + destroyed - minted refunds). *)
Theorem action_conserves : forall e a, wf a = true -> forall s, ledger e (exec e a s) = ledger e s.
Proof. exact exec_ledger. Qed.
Print Assumptions action_conserves.

(* 9. Inbound ETX: the only credit is the transfer's own value; the zero address is restored. *)
Theorem inbound_etx_conserves : forall e m o top b s' used failed,
  wf top = true -> m_isETX m = true -> m_price m = 0 ->
  apply_etx e m o top (init b) = (s', RDone used failed) ->
  bsum (bal s') = bsum b + m_value m - etx_total (etx s') - burn s' + rent_credit e s'.
Proof.
  intros e m o top b s' used failed W X P A.
  rewrite (ledger_expand e s'), (tx_ledger true W (fun _ => P) A), ledger_init, (charge_etx m _ X). lia.
Qed.
Print Assumptions inbound_etx_conserves.

Theorem inbound_etx_never_creates : forall e m o top b s' used failed,
  wf_tx e m o top -> m_isETX m = true -> m_price m = 0 -> nonneg b ->
  apply_etx e m o top (init b) = (s', RDone used failed) ->
  bsum (bal s') <= bsum b + m_value m + rent_credit e s'.
Proof.
  intros e m o top b s' used failed WT X P NN A.
  destruct (tx_step true WT (fun _ => P) NN A) as (_ & E & _ & XT & B).
  rewrite (charge_etx m _ X) in E. lia.
Qed.
Print Assumptions inbound_etx_never_creates.

Theorem etx_zero_address_restored : forall e m o top s s' r,
  apply_etx e m o top s = (s', r) -> bget (e_zero e) (bal s') = bget (e_zero e) (bal s).
Proof.
  intros e m o top s s' r A. destruct (tx_cases true A) as (s1 & _ & ->). apply bget_bset_same.
Qed.
Print Assumptions etx_zero_address_restored.

(* 10. Finalize only deletes: self-destructed accounts end at 0, nobody else moves, the sum cannot grow. *)
Theorem finalize_only_burns : forall s, nonneg (bal s) ->
  nonneg (bal (finalise s)) /\ burn s <= burn (finalise s) /\ bsum (bal (finalise s)) <= bsum (bal s).
Proof.
  intros s NN. destruct (finalise_grows s NN) as (N1 & B & _). pose proof (finalise_burns s).
  repeat split; [exact N1|exact B|lia].
Qed.
Print Assumptions finalize_only_burns.

Theorem finalize_deletes_exactly_selfdestructed : forall s a,
  (mem a (sui s) = true -> bget a (bal (finalise s)) = 0)
  /\ (mem a (sui s) = false -> bget a (bal (finalise s)) = bget a (bal s)).
Proof. intros s a. rewrite finalise_bal. split; intros ->; reflexivity. Qed.
Print Assumptions finalize_deletes_exactly_selfdestructed.

(* 11. "Sum of all balances" is the sum over the distinct accounts: the key set stays duplicate-free. *)
Theorem balance_map_keys_distinct : forall e a, wf a = true ->
  forall s, NoDup (bkeys (bal s)) -> NoDup (bkeys (bal (exec e a s))).
Proof. intros e. exact (exec_bal_closed e _ bset_nodup). Qed.
Print Assumptions balance_map_keys_distinct.

(* 12. Obligations on data generated from the source tree (re-established on every run):
   every syntactic balance-touching call site outside core/state is in the reviewed table of
   Model/C02.v, every balance writer inside core/state likewise, the vm.StateDB interface is exactly
   the reviewed method set (its balance-mutating methods are the ones the harness wrapper logs),
   and the protocol constants have the shape the model assumes. *)
Theorem callsites_covered_ok : callsites_covered = true.
Proof. vm_compute. reflexivity. Qed.
Print Assumptions callsites_covered_ok.

Theorem state_writers_covered_ok : state_writers_covered = true.
Proof. vm_compute. reflexivity. Qed.
Print Assumptions state_writers_covered_ok.

Theorem statedb_interface_covered_ok : iface_covered = true.
Proof. vm_compute. reflexivity. Qed.
Print Assumptions statedb_interface_covered_ok.

Theorem params_ok_holds : params_ok = true.
Proof. exact params_ok_true. Qed.
Print Assumptions params_ok_holds.

(* 12b. Any sequence of transactions and inbound ETXs (the Quai part of a block; messages refused with a
   consensus error are not included): balances stay non-negative and the sum moves by exactly the totals of
   gas charges, ETX debits, destroyed value, rent refunds and inbound values; all totals only grow. *)
Theorem block_never_creates_value : forall l b acc b' acc',
  Forall wf_txn l -> nonneg b -> run_block l b acc = (b', acc') ->
  nonneg b'
  /\ bsum b' = bsum b - (tot_charge acc' - tot_charge acc) - (tot_etx acc' - tot_etx acc) - (tot_burn acc' - tot_burn acc)
               + (tot_rent acc' - tot_rent acc) + (tot_inbound acc' - tot_inbound acc)
  /\ tot_charge acc <= tot_charge acc' /\ tot_etx acc <= tot_etx acc' /\ tot_burn acc <= tot_burn acc'
  /\ tot_inbound acc <= tot_inbound acc'.
Proof.
  induction l as [|t l IH]; intros b acc b' acc' WF NN; cbn [run_block].
  - intros [= <- <-]. repeat split; try lia. exact NN.
  - inversion WF as [|? ? (WT & WM & _) Wl]; subst. unfold run_tx.
    destruct (_ (t_env t) (t_msg t) (t_opq t) (t_top t) (init b)) as [s1 [|used failed]] eqn:A;
      cbn [is_invalid]; [exact (IH _ _ _ _ Wl NN)|].
    destruct (tx_step _ WT WM NN A) as (N1 & E & C & X & B).
    intros R. destruct (IH _ _ _ _ Wl N1 R) as (N2 & E2 & C2 & X2 & B2 & I2).
    cbn [tot_charge tot_etx tot_burn tot_rent tot_inbound] in *. fold (rent_credit (t_env t) s1) in *.
    rewrite charge_of_eq in *. destruct WT as (_ & _ & _ & HV & _).
    repeat split; try (destruct (t_inbound t); lia). exact N2.
Qed.
Print Assumptions block_never_creates_value.

(* 12c. Block-shaped cases of the correspondence check (several messages on one StateDB, only Finalize in
   between): the boolean evaluated on every observed case implies the hypotheses of 12b for the messages that
   were applied before it in the same block ... *)
Theorem block_case_hypotheses_checked : forall c, blk_hyps_ok c = true ->
  Forall wf_txn (c_blk c) /\ nonneg (c_blkpre c).
Proof.
  intros c H. apply andb_true_iff in H. destruct H as [HT HB].
  split; [exact (forallb_Forall _ _ _ txn_hyps_ok_sound HT)|exact (nonneg_of_forallb _ HB)].
Qed.
Print Assumptions block_case_hypotheses_checked.

(* ... so for every observed block the model's run (which [blk_ok] compares with the balances the real
   StateDB shows in front of the next message) moves the sum by exactly the totals and never up except by
   rent refunds and inbound values. *)
Theorem observed_block_never_creates_value : forall c b' acc',
  blk_hyps_ok c = true -> run_block (c_blk c) (c_blkpre c) tot0 = (b', acc') ->
  nonneg b'
  /\ bsum b' = bsum (c_blkpre c) - tot_charge acc' - tot_etx acc' - tot_burn acc' + tot_rent acc' + tot_inbound acc'
  /\ bsum b' <= bsum (c_blkpre c) - tot_charge acc' - tot_etx acc' + tot_rent acc' + tot_inbound acc'
  /\ 0 <= tot_charge acc' /\ 0 <= tot_etx acc' /\ 0 <= tot_burn acc' /\ 0 <= tot_inbound acc'.
Proof.
  intros c b' acc' H R. destruct (block_case_hypotheses_checked c H) as [WF NN].
  destruct (block_never_creates_value _ _ _ _ _ WF NN R) as (N1 & S & C & E & B & I).
  cbn [tot0 tot_charge tot_etx tot_burn tot_rent tot_inbound] in *. repeat split; try lia. exact N1.
Qed.
Print Assumptions observed_block_never_creates_value.

(* 12d. What Finalize destroyed stays destroyed: an account a transaction leaves marked self-destructed holds 0
   afterwards, whatever it received after its SELFDESTRUCT; the next message of the block starts from exactly
   these balances with nobody marked ([run_tx]), so re-creating the address (transfer, CALL with value, CREATE2
   redeploy, inbound ETX, beneficiary) starts it from 0. *)
Theorem destroyed_account_restarts_empty : forall e m o top s s' used failed a,
  apply_tx e m o top s = (s', RDone used failed) -> mem a (sui s') = true -> bget a (bal s') = 0.
Proof.
  intros e m o top s s' used failed a A. destruct (tx_cases false A) as (s1 & _ & ->).
  cbn [finalised is_invalid]. destruct (finalise_fields s1) as (-> & _). rewrite finalise_bal. now intros ->.
Qed.
Print Assumptions destroyed_account_restarts_empty.

(* 13. The correspondence check evaluates, on every observed case, a boolean that implies the hypotheses
   used above (non-negative value/gas/price/pre-balances, 0 <= gas left <= limit, inbound ETX price 0). *)
Theorem case_hypotheses_checked : forall c, hyps_ok c = true ->
  wf_tx (c_env c) (c_msg c) (c_opq c) (c_top c) /\ wf_msg (c_msg c) /\ wf_shape (c_msg c)
  /\ (forall a v, In (a, v) (c_pre c) -> 0 <= v).
Proof.
  intros c H. unfold hyps_ok in H.
  apply andb_true_iff in H. destruct H as [H HP].
  (* below the balances and the four shape tests stands [txn_hyps_ok] of the case read as a message of a block *)
  do 4 (apply andb_true_iff in H; destruct H as [H ?]).
  destruct (txn_hyps_ok_sound (mkTxn (c_inbound c) (c_env c) (c_msg c) (c_opq c) (c_top c)) H) as (WT & WM & _).
  split; [exact WT|]. split; [exact WM|]. split.
  - unfold wf_shape. rewrite <- !Z.leb_le. auto.
  - intros a v HI. rewrite forallb_forall in HP. exact (proj1 (Z.leb_le _ _) (HP _ HI)).
Qed.
Print Assumptions case_hypotheses_checked.

(* ---------- non-vacuity ---------- *)
Definition nv_env : env := mkEnv 2 25000 false 6000000 30000000 0%N.
(* contract 2 is called with 100, pays 30 to account 3 inside a frame that reverts, emits an ETX of
   40+6, self-destructs to account 4 (refund 50000) -- then Finalize *)
Definition nv_top : action :=
  ACall 1%N 2%N 100 2%N false
    [ACall 2%N 3%N 30 2%N false [] true; AEtx 2%N 40 6 true true; ASelfDestruct 2%N 4%N] false.
Definition nv_msg : msg := mkMsg 1%N 100 100000 3 false KNormal false 0 0 0 0.
Definition nv_opq : opaque := mkOpq true 20000 0 false.
Definition nv_pre : bmap := [(1%N, 1000000); (2%N, 7); (3%N, 0); (4%N, 1)].

Example transition_nonvacuous :
  exists s', apply_tx nv_env nv_msg nv_opq nv_top (init nv_pre) = (s', RDone 80000 false)
    /\ wf nv_top = true /\ wf_tx nv_env nv_msg nv_opq nv_top /\ nonneg nv_pre
    /\ bal s' = [(1%N, 759900); (2%N, 0); (3%N, 0); (4%N, 50062)]
    /\ etx s' = [(40, 6)] /\ rent s' = [2%N] /\ burn s' = 0
    /\ charge nv_msg (RDone 80000 false) = 240000.
Proof.
  eexists. split; [vm_compute; reflexivity|].
  split; [reflexivity|]. split.
  - unfold wf_tx, wf_opq. cbn. repeat split; try discriminate; reflexivity.
  - split; [apply nonneg_of_forallb; reflexivity|repeat split; reflexivity].
Qed.

(* the failed-transaction clause is not vacuous either: a reverted top frame *)
Example failed_tx_nonvacuous :
  let top := ACall 1%N 2%N 100 2%N false [ACall 2%N 3%N 30 2%N false [] false] true in
  exists s', transition nv_env nv_msg nv_opq top (init nv_pre) = (s', RDone 80000 true)
    /\ is_top top = true /\ store_oog top = false
    /\ bal s' = [(1%N, 760000); (2%N, 7); (3%N, 0); (4%N, 1)].
Proof. eexists. split; [vm_compute; reflexivity|]. repeat split; reflexivity. Qed.

Example block_nonvacuous :
  let t1 := mkTxn false nv_env nv_msg nv_opq nv_top in
  let t2 := mkTxn true nv_env (mkMsg 0%N 900 500000 0 true KNormal false 0 0 0 0) (mkOpq true 400000 0 false)
                  (ACall 0%N 3%N 900 2%N false [] false) in
  exists b' acc', run_block [t1; t2] nv_pre tot0 = (b', acc')
    /\ bsum b' = bsum nv_pre - 240000 - 46 - 0 + 50000 + 900 /\ tot_inbound acc' = 900 /\ tot_rent acc' = 50000.
Proof. eexists. eexists. split; [vm_compute; reflexivity|]. repeat split; reflexivity. Qed.

(* the third blind-change class: message 1 has contract 3 self-destruct (to account 4) and then pays it 5000,
   which Finalize burns; message 2 of the same block transfers 7 to the address: it holds 7, not 5007, and the
   5000 are in the block's burn total *)
Example block_resurrection_nonvacuous :
  let e := mkEnv 2 25000 false 6000000 30000000 0%N in
  let t1 := mkTxn false e (mkMsg 1%N 0 100000 3 false KNormal false 0 0 0 0) (mkOpq true 20000 0 false)
              (ACall 1%N 2%N 0 2%N false
                 [ACall 2%N 3%N 0 2%N false [ASelfDestruct 3%N 4%N] false; ACall 2%N 3%N 5000 2%N false [] false] false) in
  let t2 := mkTxn false e (mkMsg 1%N 7 100000 3 false KNormal false 0 0 0 0) (mkOpq true 50000 0 false)
              (ACall 1%N 3%N 7 2%N true [] false) in
  let pre := [(1%N, 1000000); (2%N, 90000); (3%N, 300); (4%N, 1)] in
  exists b' acc', run_block [t1; t2] pre tot0 = (b', acc')
    /\ bget 3%N b' = 7 /\ tot_burn acc' = 5000 /\ tot_rent acc' = 50000
    /\ bsum b' = bsum pre - tot_charge acc' - 5000 + 50000.
Proof. eexists. eexists. split; [vm_compute; reflexivity|]. repeat split; reflexivity. Qed.

(* the blind-change class: code entered by DELEGATECALL (same for CALLCODE: [checked] = true) debits the
   caller for an ETX of 500 + 42000 fee and then fails while the caller carries on and emits its own ETX
   of 7: only the 7 leaves, account 2 pays gas-free exactly 7, the 500 are neither debited nor emitted *)
Example outbound_nonvacuous :
  let top := ACall 1%N 2%N 0 2%N false
               [AFrame 2%N 0 false 2%N [AEtx 2%N 500 42000 true true; ACall 2%N 3%N 1 2%N false [] false] true;
                AFrame 2%N 3 true 2%N [AEtx 2%N 600 0 true true] true;
                AEtx 2%N 7 0 true true] false in
  let pre := [(1%N, 1000000); (2%N, 100000); (3%N, 0)] in
  exists s', apply_tx nv_env nv_msg nv_opq top (init pre) = (s', RDone 80000 false)
    /\ live_sends top = [(7, 0)] /\ etx s' = [(7, 0)]
    /\ bal s' = [(1%N, 760000); (2%N, 99993); (3%N, 0)]
    /\ (* the same tree with the inner frames NOT marked failed would have emitted all three *)
       live_sends (ACall 1%N 2%N 0 2%N false
               [AFrame 2%N 0 false 2%N [AEtx 2%N 500 42000 true true] false;
                AFrame 2%N 3 true 2%N [AEtx 2%N 600 0 true true] false;
                AEtx 2%N 7 0 true true] false) = [(500, 42000); (600, 0); (7, 0)].
Proof. eexists. split; [vm_compute; reflexivity|]. repeat split; reflexivity. Qed.

(* an inbound ETX whose target reverts: the staged value is lost, nothing is created *)
Example inbound_etx_nonvacuous :
  let m := mkMsg 0%N 900 500000 0 true KNormal false 0 0 0 0 in
  let top := ACall 0%N 2%N 900 2%N false [ACall 2%N 3%N 5 2%N false [] false] true in
  exists s', apply_etx nv_env m (mkOpq true 0 0 false) top (init nv_pre) = (s', RDone 500000 true)
    /\ bal s' = [(1%N, 1000000); (2%N, 7); (3%N, 0); (4%N, 1); (0%N, 0)] /\ burn s' = 900.
Proof. eexists. split; [vm_compute; reflexivity|]. split; reflexivity. Qed.

(* ---------- ExecutionResult.QuaiFees (what the block later pays to the miner) ---------- *)

(* 32. For every message, state and outcome (refused, inbound ETX, kQuai, transaction-level Suicide, executed
   with any effect tree) the fees handed to the block are non-negative and covered by what the payer lost
   to gas; on the executed path they are exactly that. *)
Theorem fees_covered_by_charge : forall e m o top s s' r,
  0 <= m_price m -> wf_opq m o -> wf_shape m ->
  transition e m o top s = (s', r) ->
  0 <= fees_of m r <= charge m r
  /\ (m_kind m = KNormal -> fees_of m r = charge m r).
Proof.
  intros e m o top s s' r HP WO WS T. destruct r as [|used failed]; [cbn; lia|].
  unfold fees_of, charge. destruct (m_isETX m) eqn:X; [lia|].
  destruct (gas_charge_bounds e m o top s s' used failed X HP WO WS T) as ([U0 U1] & [C0 C1] & CE & _).
  unfold charge in C0, CE. rewrite X in C0, CE. split; [nia|]. intros K. now rewrite (CE K).
Qed.
Print Assumptions fees_covered_by_charge.

(* 33. Over a block of any length (induction over the transaction list): the fees of all its results are
   covered by the gas charges accumulated along the same run. *)
Theorem block_fees_covered_by_charges : forall l b acc b' acc',
  Forall wf_txn_shape l -> nonneg b -> run_block l b acc = (b', acc') ->
  0 <= block_fees l b <= tot_charge acc' - tot_charge acc.
Proof.
  induction l as [|t l IH]; intros b acc b' acc' WF NN; cbn [run_block block_fees].
  - intros [= <- <-]. lia.
  - inversion WF as [|? ? [[WT _] Ws] Wl]; subst. unfold run_tx.
    destruct (_ (t_env t) (t_msg t) (t_opq t) (t_top t) (init b)) as [s1 res] eqn:A.
    destruct (tx_cases _ A) as (s2 & T & _).
    pose proof WT as (_ & _ & HP & _ & _ & WO).
    destruct (fees_covered_by_charge _ _ _ _ _ _ _ HP WO Ws T) as [F _].
    destruct res as [|used failed]; cbn [is_invalid]; intros R.
    + specialize (IH _ _ _ _ Wl NN R). cbn [fees_of charge] in *. lia.
    + destruct (tx_grows _ WT A NN) as (N1 & _).
      specialize (IH _ _ _ _ Wl N1 R). cbn [tot_charge] in IH. rewrite charge_of_eq in IH. lia.
Qed.
Print Assumptions block_fees_covered_by_charges.

(* 34. Hence paying every QuaiFees of the block out to the miners still creates nothing: balances at the
   end plus all fees <= balances at the start - ETX debits - burn + rent refunds + inbound values. *)
Theorem block_with_fees_paid_out_never_creates_value : forall l b b' acc',
  Forall wf_txn_shape l -> nonneg b -> run_block l b tot0 = (b', acc') ->
  bsum b' + block_fees l b <= bsum b - tot_etx acc' - tot_burn acc' + tot_rent acc' + tot_inbound acc'
  /\ 0 <= block_fees l b /\ 0 <= tot_etx acc' /\ 0 <= tot_burn acc'.
Proof.
  intros l b b' acc' WF NN R.
  destruct (block_never_creates_value _ _ _ _ _ (Forall_impl _ (fun t => @proj1 _ _) WF) NN R) as (_ & S & _ & E & B & _).
  pose proof (block_fees_covered_by_charges _ _ _ _ _ WF NN R) as F.
  cbn [tot0 tot_charge tot_etx tot_burn tot_rent tot_inbound] in *. lia.
Qed.
Print Assumptions block_with_fees_paid_out_never_creates_value.

(* 35. The hypotheses of 33/34 are the booleans evaluated on every observed block (blk_ok). *)
Theorem observed_block_fees_covered_by_charges : forall c b' acc',
  blk_hyps_ok c = true -> blk_shape_ok c = true -> run_block (c_blk c) (c_blkpre c) tot0 = (b', acc') ->
  0 <= block_fees (c_blk c) (c_blkpre c) <= tot_charge acc'
  /\ bsum b' + block_fees (c_blk c) (c_blkpre c)
     <= bsum (c_blkpre c) - tot_etx acc' - tot_burn acc' + tot_rent acc' + tot_inbound acc'.
Proof.
  intros c b' acc' H HS R. destruct (block_case_hypotheses_checked c H) as [WF NN].
  assert (WF' : Forall wf_txn_shape (c_blk c)).
  { exact (Forall_and WF (forallb_Forall _ _ _ (fun t => shape_ok_sound (t_msg t)) HS)). }
  pose proof (block_fees_covered_by_charges _ _ _ _ _ WF' NN R) as F.
  destruct (block_with_fees_paid_out_never_creates_value _ _ _ _ WF' NN R) as (S & _).
  cbn [tot0 tot_charge] in F. split; [lia|exact S].
Qed.
Print Assumptions observed_block_fees_covered_by_charges.

(* an executed transaction (80000 gas used at price 3) followed by a transaction-level Suicide (charged the
   whole gas limit 100000 x 3, fees only for the intrinsic gas, 21000 + 27 data bytes x 16): fees 304296 <
   charges 540000 *)
Example fees_nonvacuous :
  let e := mkEnv 2 25000 false 6000000 30000000 0%N in
  let t1 := mkTxn false e (mkMsg 1%N 7 100000 3 false KNormal false 0 0 0 0) (mkOpq true 20000 0 false)
              (ACall 1%N 3%N 7 2%N true [] false) in
  let t2 := mkTxn false e (mkMsg 2%N 0 100000 3 false (KSuicide (Some 3%N)) false 27 0 0 0) (mkOpq true 0 0 false) AOther in
  let pre := [(1%N, 1000000); (2%N, 900000); (3%N, 0)] in
  exists b' acc', run_block [t1; t2] pre tot0 = (b', acc')
    /\ block_fees [t1; t2] pre = 80000 * 3 + (C02Sites.tx_gas + 27 * C02Sites.tx_data_non_zero_gas) * 3
    /\ tot_charge acc' = 80000 * 3 + 100000 * 3
    /\ block_fees [t1; t2] pre < tot_charge acc'.
Proof. eexists. eexists. split; [vm_compute; reflexivity|]. repeat split; vm_compute; reflexivity. Qed.
