(* C10 — the per-block undo RECORDS as stored objects (extension round).
   core/rawdb/accessors_chain.go:WriteDeletedCoinbaseLockups stores the list handed over by
   StateProcessor.Process AS IS (one entry per modification, in modification order), and
   core/types/utxo.go:SpentUtxoEntry.ProtoEncode stores the COMPLETE previous output
   (denomination, address, lock).  This file models the record writers as list/value transformers
   so that "what may a writer do to the record without changing the rollback" becomes a theorem:
   - [dedup_first]  keeps, per key, the entry of the FIRST modification (harmless, Props/C10.v);
   - [dedup_last]   keeps the position of the first entry and the value of the LAST one
                    (the 'one entry per key is enough' shape: NOT harmless);
   - [map_spent f]  stores a transformed image of every spent/trimmed output (a lossy encoder).
   Definitions only; lemmas are in Proofs/C10_Undo.v, theorems in Props/C10.v. *)
From Coq Require Import List NArith Bool.
From GQ Require Import Lib.Key Lib.SMap Model.C10.
Import ListNotations.
Local Open Scope N_scope.

Section Undo.
Context {L : Type}.

(* the block effect with another 'deleted coinbase lockups' record *)
Definition with_lk_deleted (e : effect L) (l : list (key * L)) : effect L :=
  mkEff (e_num e) (e_hash e) (e_parent e) (e_created e) (e_created_keys e) (e_spent e) (e_trimmed e)
        (e_lk_writes e) (e_lk_created e) l.

(* the block effect with other 'spent UTXOs' / 'trimmed UTXOs' records *)
Definition with_spent (e : effect L) (sp tr : list (key * val)) : effect L :=
  mkEff (e_num e) (e_hash e) (e_parent e) (e_created e) (e_created_keys e) sp tr
        (e_lk_writes e) (e_lk_created e) (e_lk_deleted e).

(* a writer walking the list with a 'position of the key' map, as a fold over the records *)
Definition dedup_first_step (acc : list (key * L)) (kv : key * L) : list (key * L) :=
  if kmem (fst kv) (map fst acc) then acc else acc ++ [kv].
Definition dedup_first (l : list (key * L)) : list (key * L) := fold_left dedup_first_step l [].

Fixpoint set_val (k : key) (v : L) (l : list (key * L)) : list (key * L) :=
  match l with
  | [] => []
  | (k', v') :: l' => if keqb k k' then (k', v) :: l' else (k', v') :: set_val k v l'
  end.
Definition dedup_last_step (acc : list (key * L)) (kv : key * L) : list (key * L) :=
  if kmem (fst kv) (map fst acc) then set_val (fst kv) (snd kv) acc else acc ++ [kv].
Definition dedup_last (l : list (key * L)) : list (key * L) := fold_left dedup_last_step l [].

(* a (possibly lossy) encoder of the previous image of spent / trimmed outputs *)
Definition map_vals (f : val -> val) (l : list (key * val)) : list (key * val) :=
  map (fun kv => (fst kv, f (snd kv))) l.
Definition map_spent (f : val -> val) (e : effect L) : effect L :=
  with_spent e (map_vals f (e_spent e)) (map_vals f (e_trimmed e)).

End Undo.
